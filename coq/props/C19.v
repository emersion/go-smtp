(* C19 (part: no recovered panic) - arbitrary octets from the network never
   trigger a recovered panic.

   C19_panic_only_from_backend: for EVERY configuration, backend script,
   network schedule and fuel: if the model recovers a panic ([EPanic]: the
   deferred recover() in Conn.handle, which answers 421 and closes), then a
   backend delivery ([Session.Data] / [LMTPSession.LMTPData], on the DATA or
   BDAT path) has panicked while the current command was being handled.
   C19_no_recovered_panic: if the backend script contains no panicking data
   plan - and, for an LMTP backend with per-recipient statuses, no SetStatus
   call that could violate the statusCollector contract ([backend_ok]; the
   plan the model uses once the script is exhausted qualifies) - then no input
   whatsoever makes the model recover a panic.  In particular the model's
   explicit failure points for a nil session (handle_mail, handle_rcpt,
   handle_data, handle_bdat: "c.Session() == nil" would be a nil-pointer
   panic in Go) are unreachable: this is the model-level statement that the
   nil-session panic of DESIGN F10 (RCPT after QUIT) cannot happen any more.
   C19_no_panicking_delivery: under [backend_ok] no delivery event reports a
   panic. *)
From Smtp Require Import Bytes Conn ConnProofs TraceProps ConnNoPanic
  TraceExamples.

Theorem C19_panic_only_from_backend : forall fuel cfg be phases,
  TraceProps.C19_panic_only_from_backend (serve fuel cfg be phases).
Proof. intros fuel cfg be phases. apply (accepted_C19_panic_only_from_backend cfg), serve_accepted_strict. Qed.
Print Assumptions C19_panic_only_from_backend.

Theorem C19_no_panicking_delivery : forall fuel cfg be phases,
  backend_ok cfg be -> forall e, In e (serve fuel cfg be phases) -> is_panicking e = false.
Proof. exact serve_calm. Qed.
Print Assumptions C19_no_panicking_delivery.

Theorem C19_no_recovered_panic : forall fuel cfg be phases,
  backend_ok cfg be -> ~ In EPanic (serve fuel cfg be phases).
Proof. exact serve_no_panic. Qed.
Print Assumptions C19_no_recovered_panic.

(* non-vacuity: ex1's backend satisfies the hypothesis (and its conversation
   contains a late RCPT after the transaction end and a command behind QUIT);
   the hypothesis is necessary: in ex2 the second data plan panics, and the
   panic is recovered right after that delivery (421, Logout, Close). *)
Example C19_witness :
  backend_ok ex1_cfg ex1_be /\ map show_kind ex1_trace = ex1_shape /\
  map show_kind ex2_trace = ex2_shape /\ In EPanic ex2_trace /\
  existsb is_panicking (since is_cmd (firstn 27 ex2_trace)) = true.
Proof.
  split; [exact ex1_backend_ok|]. split; [exact ex1_shape_ok|]. split; [exact ex2_shape_ok|].
  split; [|vm_compute; reflexivity].
  assert (H : nth 27 ex2_trace EClose = EPanic) by (vm_compute; reflexivity).
  rewrite <- H. apply nth_In. vm_compute. lia.
Qed.
