(* C13 - LMTP returns one status per accepted recipient, in order, correctly
   attributed; never deadlocks.

   Quantification.  [rcpts] is ANY list of accepted recipients (any length,
   any duplicates, any order); [calls] is ANY list of SetStatus calls the
   backend makes (address, status), in the order it makes them - within the
   documented contract where [contract_ok rcpts calls = true] is assumed
   (every call names a recipient; no address gets more calls than it has
   occurrences), otherwise arbitrary (unknown addresses, too many calls);
   [ret] is any return value (nil, *SMTPError, other error); [panic] says
   whether the backend panics instead of returning; [ord] is the order in
   which Go's map iteration makes fillRemaining visit the channels (any list
   containing every recipient); [sch] is ANY schedule of the two goroutines of
   handleDataLMTP - a list of booleans, true = the delivery goroutine makes
   its next atomic step (one SetStatus call, the return/panic, one send or
   one channel change inside fillRemaining, done<-), false = the handler makes
   its next step (receive one status / park on the empty channel / receive
   from done); the turn of a blocked or finished task is a stutter.  Channel
   operations follow Go's runtime: non-blocking send succeeds iff a receiver
   is parked on the channel (direct hand-off) or the buffer (capacity =
   multiplicity of the address) has room; SetStatus panics otherwise.

   The specification [expected_statuses rcpts calls ret] (LmtpSpec.v) is
   defined by counting only: the i-th recipient, being the k-th occurrence of
   its address, gets the k-th status set for that address, or [ret] if there
   is none.  It does not mention channels, FIFOs or the collector. *)
From Smtp Require Import Bytes Reply Lmtp LmtpSpec LmtpConc LmtpProofs CheckLmtp CheckLmtpProofs Conn.

(* Sequential execution (all calls before the emission: the BDAT LAST path,
   and the delivery-first schedule of DATA): within the contract the
   collector hands out exactly the specified statuses and reports no panic. *)
Theorem C13_replies (rcpts : list bytes) (calls : list (bytes * berr)) (ret : berr) :
  contract_ok rcpts calls = true ->
  lmtp_statuses rcpts calls ret false = (expected_statuses rcpts calls ret, false).
Proof.
  intros H. rewrite lmtp_statuses_spec. cbv zeta. rewrite H. cbn [negb orb].
  apply contract_ok_ok_calls in H. rewrite H. reflexivity.
Qed.
Print Assumptions C13_replies.

(* For ALL backends (contract or not, panic or not): exactly one status per
   recipient, in RCPT order, each naming its recipient (so the emission never
   finds an empty channel); the panic flag is set iff the backend panicked or
   broke the contract; then the k-th occurrence of an address gets the k-th
   call made for it before the first violating call, else errPanic (421). *)
Theorem C13_one_status_per_recipient
  (rcpts : list bytes) (calls : list (bytes * berr)) (ret : berr) (panic : bool) :
  map fst (fst (lmtp_statuses rcpts calls ret panic)) = rcpts /\
  snd (lmtp_statuses rcpts calls ret panic) = (panic || negb (contract_ok rcpts calls)) /\
  (panic || negb (contract_ok rcpts calls) = true ->
   fst (lmtp_statuses rcpts calls ret panic) =
   expected_statuses rcpts (ok_calls rcpts calls) err_panic) /\
  (panic || negb (contract_ok rcpts calls) = false ->
   fst (lmtp_statuses rcpts calls ret panic) = expected_statuses rcpts calls ret).
Proof. exact (lmtp_statuses_total rcpts calls ret panic). Qed.
Print Assumptions C13_one_status_per_recipient.

(* DATA with a per-recipient backend, the two goroutines interleaved in ANY
   way: within the contract, when the handler has finished it has written
   exactly the specified statuses (errPanic in place of the return value if
   the backend panicked after its calls), which is also what the sequential
   model computes; the connection is closed iff the backend panicked. *)
Theorem C13_replies_all_interleavings
  (rcpts : list bytes) (calls : list (bytes * berr)) (ret : berr) (panic : bool)
  (ord : list bytes) (sch : list bool) (p : bool) :
  contract_ok rcpts calls = true ->
  let s := conc_run rcpts calls ret panic ord sch in
  cs_fin s = Some p ->
  p = panic /\
  cs_out s = fst (lmtp_statuses rcpts calls ret panic) /\
  cs_out s = expected_statuses rcpts calls (if panic then err_panic else ret).
Proof.
  intros Hok s Hfin.
  destruct (outcome_contract _ _ _ _ _ _ Hok (conc_outcome rcpts calls ret panic ord sch p Hfin)) as [Hp Ho].
  destruct (outcome_contract _ _ _ _ _ _ Hok (lmtp_statuses_outcome rcpts calls ret panic)) as [_ Hl].
  fold s in Ho. rewrite Hl. auto.
Qed.
Print Assumptions C13_replies_all_interleavings.

(* ... and without the contract: still one status per recipient, in order,
   each naming its recipient; the statuses are the specified ones for the
   prefix [pre] of the calls that took effect, filled with the return value
   (no panic: then every call took effect) or with errPanic. *)
Theorem C13_every_backend_all_interleavings
  (rcpts : list bytes) (calls : list (bytes * berr)) (ret : berr) (panic : bool)
  (ord : list bytes) (sch : list bool) (p : bool) :
  let s := conc_run rcpts calls ret panic ord sch in
  cs_fin s = Some p ->
  map fst (cs_out s) = rcpts /\
  exists pre post, calls = pre ++ post /\
    cs_out s = expected_statuses rcpts pre (if p then err_panic else ret) /\
    (p = false -> post = [] /\ panic = false).
Proof.
  intros s Hfin.
  destruct (conc_outcome rcpts calls ret panic ord sch p Hfin) as (pre & ([post Hc] & Hp & _) & Ho).
  fold s in Ho. split; [rewrite Ho; apply expected_names|].
  exists pre, post. split; [exact Hc|]. split; [exact Ho|].
  intros E. destruct (Hp E) as [-> Hpa]. split; [|exact Hpa].
  rewrite <- (app_nil_r calls) in Hc at 1. apply app_inv_head in Hc. congruence.
Qed.
Print Assumptions C13_every_backend_all_interleavings.

(* No reachable state is a deadlock, for every backend and every schedule:
   the delivery goroutine is never blocked (its step changes the state until
   it has finished); once it has finished the handler is not blocked; so in
   every unfinished state some task can move - in particular whenever the
   handler is blocked the delivery goroutine can move. *)
Theorem C13_no_deadlock_all_interleavings
  (rcpts : list bytes) (calls : list (bytes * berr)) (ret : berr) (panic : bool)
  (ord : list bytes) (sch : list bool) :
  (forall a, In a rcpts -> In a ord) ->
  let s := conc_run rcpts calls ret panic ord sch in
  (del_done s = false -> del_step ret panic ord s <> s) /\
  (del_done s = true -> finished s = false -> han_step s <> s) /\
  (finished s = false -> exists who, step ret panic ord s who <> s).
Proof.
  intros Hcov s. destruct (conc_progress rcpts calls ret panic ord sch Hcov) as [Hd Hh]. fold s in Hd, Hh.
  split; [|split].
  - intros H. apply (work_lt_neq ord), Hd, H.
  - intros H1 H2. apply (work_lt_neq ord), Hh; assumption.
  - intros Hf. destruct (del_done s) eqn:E; [exists false | exists true]; apply (work_lt_neq ord); auto.
Qed.
Print Assumptions C13_no_deadlock_all_interleavings.

(* Termination: every schedule consisting of [work_bound] rounds, each round
   giving at least one turn to either goroutine, ends with the handler
   finished (all replies written, done received).  [work_bound] =
   4|rcpts| + |calls| + |ord| + 4. *)
Theorem C13_terminates_fair_schedules
  (rcpts : list bytes) (calls : list (bytes * berr)) (ret : berr) (panic : bool)
  (ord : list bytes) (sch : list bool) :
  (forall a, In a rcpts -> In a ord) ->
  fair_rounds (work_bound rcpts calls ord) sch ->
  finished (conc_run rcpts calls ret panic ord sch) = true.
Proof.
  intros Hcov Hfair.
  apply (fair_terminates rcpts calls ret panic ord _ sch Hcov Hfair); [apply Inv_init | apply work_init].
Qed.
Print Assumptions C13_terminates_fair_schedules.

(* ... and in ANY schedule at most [work_bound] turns are not stutters *)
Theorem C13_bounded_work
  (rcpts : list bytes) (calls : list (bytes * berr)) (ret : berr) (panic : bool)
  (ord : list bytes) (sch : list bool) (who : bool) :
  let s := conc_run rcpts calls ret panic ord sch in
  work ord s <= work_bound rcpts calls ord /\
  (step ret panic ord s who = s \/ work ord (step ret panic ord s who) < work ord s).
Proof.
  intros s. split; [|apply step_work].
  pose proof (run_work_le ret panic ord sch (conc_init rcpts calls)).
  pose proof (work_init rcpts calls ord). unfold s, conc_run. lia.
Qed.
Print Assumptions C13_bounded_work.

(* Plain backend (no LMTPSession): every recipient gets the single result. *)
Theorem C13_plain_backend (rcpts : list bytes) (ret : berr) :
  plain_statuses rcpts ret = expected_statuses rcpts [] ret /\
  map fst (plain_statuses rcpts ret) = rcpts /\
  forall a e, In (a, e) (plain_statuses rcpts ret) -> e = ret.
Proof.
  split; [apply plain_statuses_expected|]. split; [rewrite plain_statuses_expected; apply expected_names|].
  intros a e H. apply in_map_iff in H as (b & [= _ <-] & _). reflexivity.
Qed.
Print Assumptions C13_plain_backend.

(* BDAT ... LAST in LMTP mode (Conn.v): the final response within the
   contract is the rendering of the specified statuses, [err] being the value
   the handler passes to fillRemaining. *)
Theorem C13_bdat_replies (cfg : config) (b : bdat) (err : berr) :
  cf_lmtp_session cfg = true ->
  contract_ok (bd_rcpts b) (dp_status (bd_plan b)) = true ->
  dp_panic (bd_plan b) = false -> bd_panics b = false ->
  bdat_lmtp_replies cfg b err =
  (map EWire (render (expected_statuses (bd_rcpts b) (dp_status (bd_plan b)) err)), false).
Proof.
  intros Hs Hok _ Hb. rewrite bdat_lmtp_replies_session, Hb by exact Hs.
  apply contract_ok_ok_calls in Hok. rewrite Hok. reflexivity.
Qed.
Print Assumptions C13_bdat_replies.

(* The oracle used on the implementation's recorded behaviour accepts the
   model's own output and every finished interleaving (it is satisfiable and
   never rejects a behaviour the proved model allows). *)
Theorem C13_oracle_accepts_model
  (sess : bool) (rcpts : list bytes) (calls : list (bytes * berr)) (ret : berr) (panic : bool) :
  let sts := model_statuses sess rcpts calls ret panic in
  lmtp_oracle_strict sess rcpts calls ret panic (render sts) = true /\
  lmtp_oracle sess rcpts calls ret panic (render sts) = true /\
  lmtp_oracle_wire_strict sess rcpts calls ret panic (List.concat (render sts)) = true /\
  lmtp_oracle_wire sess rcpts calls ret panic (List.concat (render sts)) = true.
Proof.
  cbv zeta. unfold lmtp_oracle_strict, lmtp_oracle, lmtp_oracle_wire_strict, lmtp_oracle_wire.
  repeat split; apply oracle_core_accepts_model;
    first [apply list_bytes_eqb_refl | apply bytes_eqb_refl].
Qed.
Print Assumptions C13_oracle_accepts_model.

Theorem C13_oracle_accepts_all_interleavings
  (rcpts : list bytes) (calls : list (bytes * berr)) (ret : berr) (panic : bool)
  (ord : list bytes) (sch : list bool) (p : bool) :
  let s := conc_run rcpts calls ret panic ord sch in
  cs_fin s = Some p ->
  lmtp_oracle_strict true rcpts calls ret panic (render (cs_out s)) = true /\
  lmtp_oracle true rcpts calls ret panic (render (cs_out s)) = true.
Proof.
  intros s Hfin. pose proof (conc_outcome rcpts calls ret panic ord sch p Hfin) as Ho.
  assert (H : lmtp_oracle_strict true rcpts calls ret panic (render (cs_out s)) = true)
    by (apply (oracle_core_accepts _ _ _ _ _ _ _ _ _ Ho), list_bytes_eqb_refl).
  split; [exact H | apply oracle_core_loose; exact H].
Qed.
Print Assumptions C13_oracle_accepts_all_interleavings.

(* non-vacuity: a recipient list with duplicates and calls out of RCPT order
   satisfies the contract and gets the expected attribution; the hypotheses
   of the deadlock/termination theorems hold for a concrete fair schedule;
   outside the contract the outcome really depends on the schedule. *)
Example C13_witness :
  let rc := [ex_a; ex_b; ex_a; ex_b; ex_a] in
  let cl := [(ex_b, ex_e 1); (ex_a, ex_e 2); (ex_b, BNil); (ex_a, ex_e 4)] in
  contract_ok rc cl = true /\
  expected_statuses rc cl (BPlain (bs "ret"))
  = [(ex_a, ex_e 2); (ex_b, ex_e 1); (ex_a, ex_e 4); (ex_b, BNil); (ex_a, BPlain (bs "ret"))] /\
  (forall a, In a rc -> In a [ex_b; ex_a]) /\
  fair_rounds (work_bound rc cl [ex_b; ex_a]) (round_robin (work_bound rc cl [ex_b; ex_a])) /\
  cs_fin (conc_run rc cl (BPlain (bs "ret")) false [ex_b; ex_a] (round_robin (work_bound rc cl [ex_b; ex_a])))
  = Some false.
Proof.
  cbv zeta. split; [vm_compute; reflexivity|]. split; [vm_compute; reflexivity|].
  split; [cbn; tauto|]. split; [apply round_robin_fair | vm_compute; reflexivity].
Qed.

Example C13_schedule_dependence_outside_contract :
  let rc := [ex_a; ex_b] in
  let cl := [(ex_a, ex_e 1); (ex_a, ex_e 2); (ex_b, ex_e 3)] in
  let s1 := conc_run rc cl BNil false rc (repeat true 10 ++ repeat false 4) in
  let s2 := conc_run rc cl BNil false rc (false :: repeat true 10 ++ repeat false 4) in
  (cs_fin s1 = Some true /\ cs_out s1 = [(ex_a, ex_e 1); (ex_b, err_panic)]) /\
  (cs_fin s2 = Some false /\ cs_out s2 = [(ex_a, ex_e 1); (ex_b, ex_e 3)]) /\
  lmtp_statuses rc cl BNil false = ([(ex_a, ex_e 1); (ex_b, err_panic)], true).
Proof. exact ex_schedule_dependence. Qed.
