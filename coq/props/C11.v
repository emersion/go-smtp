(* C11 - MAIL/RCPT arguments reach the backend exactly as sent, or are refused.

   [classify_mail] / [classify_rcpt] (RefGrammar.v) is an independent
   recogniser/decoder written from the RFC grammars; it sorts the argument of
   a MAIL / RCPT command into Valid mailbox opts | Invalid | Unspecified.
   The theorems relate it to the model of handleMail / handleRcpt (Conn.v),
   for EVERY configuration, EVERY connection state in which the command is
   admissible and EVERY argument (no length bound).

   - C11_valid_exact_mail / _rcpt: a Valid line makes the handler call the
     backend with exactly the reference's mailbox and options (all other
     fields zero, they come from mo_zero / ro_zero), followed by the reply
     that belongs to the backend's scripted answer.
   - C11_invalid_refused_mail / _rcpt: an Invalid line is answered by a single
     5xx reply and no callback - for every line, keywords written with
     U+017F / U+0131 and SMTPUTF8=x / REQUIRETLS=x included: the repairs
     "fix: MAIL/RCPT parameter keywords were upper-cased with Unicode
     strings.ToUpper" and "fix: SMTPUTF8 and REQUIRETLS were accepted with a
     value" removed the two deviations, and the lines that exhibited them are
     Examples of refusal: C11_former_findings_refused. *)
From Smtp Require Import Bytes Reply Rfc3339 Conn RefGrammar RefGrammarProofs.

Theorem C11_valid_exact_mail (cfg : config) (c : conn) (arg from : bytes) (opts : mail_opts) :
  c_helo c <> [] -> c_bdat c = None -> c_session c = true ->
  classify_mail cfg arg = Valid from opts ->
  snd (handle_mail cfg c arg) = mail_ok_events from opts (fst (pop BNil (be_mail (c_be c)))).
Proof.
  intros Hh Hb Hs Hc. pose proof (handle_mail_ref cfg c arg Hh Hb) as R.
  rewrite Hc in R. exact (R Hs).
Qed.
Print Assumptions C11_valid_exact_mail.

Theorem C11_valid_exact_rcpt (cfg : config) (c : conn) (arg rcpt : bytes) (opts : rcpt_opts) :
  c_from c = true -> c_bdat c = None -> c_session c = true -> rcpt_limit_free cfg c ->
  classify_rcpt cfg arg = Valid rcpt opts ->
  snd (handle_rcpt cfg c arg) = rcpt_ok_events rcpt opts (fst (pop BNil (be_rcpt (c_be c)))).
Proof.
  intros Hf Hb Hs Hl Hc. pose proof (handle_rcpt_ref cfg c arg Hf Hb Hl) as R.
  rewrite Hc in R. exact (R Hs).
Qed.
Print Assumptions C11_valid_exact_rcpt.

Theorem C11_invalid_refused_mail (cfg : config) (c : conn) (arg : bytes) :
  c_helo c <> [] -> c_bdat c = None ->
  classify_mail cfg arg = Invalid ->
  refused (snd (handle_mail cfg c arg)).
Proof.
  intros Hh Hb Hc. pose proof (handle_mail_ref cfg c arg Hh Hb) as R. now rewrite Hc in R.
Qed.
Print Assumptions C11_invalid_refused_mail.

Theorem C11_invalid_refused_rcpt (cfg : config) (c : conn) (arg : bytes) :
  c_from c = true -> c_bdat c = None -> rcpt_limit_free cfg c ->
  classify_rcpt cfg arg = Invalid ->
  refused (snd (handle_rcpt cfg c arg)).
Proof.
  intros Hf Hb Hl Hc. pose proof (handle_rcpt_ref cfg c arg Hf Hb Hl) as R. now rewrite Hc in R.
Qed.
Print Assumptions C11_invalid_refused_rcpt.

(* a refused command calls nothing *)
Theorem C11_refused_no_callback (evs : list event) :
  refused evs ->
  forall e, In e evs -> match e with EMail _ _ _ | ERcpt _ _ _ => False | _ => True end.
Proof.
  intros [code [ec [msg [rest [-> [_ Hw]]]]]] e [<-|[]]. rewrite Hw. exact I.
Qed.
Print Assumptions C11_refused_no_callback.

(* the lines that exhibited the two former findings: Invalid, and refused *)
Example C11_former_findings_refused :
  (let arg := bs "FROM:<a@b> " ++ long_s ++ bs "IZE=1" in
   fold_trap arg = true /\ classify_mail cfg_all arg = Invalid /\
   snd (handle_mail cfg_all (conn_ready false) arg)
   = [reply 500 (5, 5, 4)%Z (bs "Unknown MAIL FROM argument")]) /\
  (let arg := bs "TO:<a@b> NOT" ++ dotless_i ++ bs "FY=NEVER" in
   fold_trap arg = true /\ classify_rcpt cfg_all arg = Invalid /\
   snd (handle_rcpt cfg_all (conn_ready true) arg)
   = [reply 500 (5, 5, 4)%Z (bs "Unknown RCPT TO argument")]) /\
  (let a1 := bs "FROM:<a@b> SMTPUTF8=1" in
   let a2 := bs "FROM:<a@b> REQUIRETLS=yes" in
   let a3 := bs "FROM:<a@b> SMTPUTF8=" in
   flag_with_value a1 = true /\ flag_with_value a2 = true /\ flag_with_value a3 = true /\
   classify_mail cfg_all a1 = Invalid /\ classify_mail cfg_all a2 = Invalid /\
   classify_mail cfg_all a3 = Invalid /\
   snd (handle_mail cfg_all (conn_ready false) a1) = [reply 501 (5, 5, 4)%Z (bs "SMTPUTF8 takes no value")] /\
   snd (handle_mail cfg_all (conn_ready false) a2) = [reply 501 (5, 5, 4)%Z (bs "REQUIRETLS takes no value")] /\
   snd (handle_mail cfg_all (conn_ready false) a3) = [reply 501 (5, 5, 4)%Z (bs "Unable to parse MAIL ESMTP parameters")]).
Proof. exact (conj unicode_fold_mail_refused (conj unicode_fold_rcpt_refused flag_value_mail_refused)). Qed.
Print Assumptions C11_former_findings_refused.

(* non-vacuity: the hypotheses are satisfiable together, on a concrete
   admissible state, for a line with every MAIL parameter and for a line with
   every RCPT parameter *)
Example C11_witness_mail :
  let c := conn_ready false in
  let arg := bs "FROM:<a@b> AUTH=<> ENVID=x RET=FULL REQUIRETLS SMTPUTF8 BODY=7BIT SIZE=5" in
  c_helo c <> [] /\ c_bdat c = None /\ c_session c = true /\
  classify_mail cfg_all arg = Valid (bs "a@b") (mkMO (bs "7BIT") 5 true true (bs "FULL") (bs "x") (Some [])).
Proof.
  destruct conn_ready_mail_admissible as (Hh & Hb & Hs). exact (conj Hh (conj Hb (conj Hs valid_all_mail))).
Qed.

Example C11_witness_rcpt :
  let c := conn_ready true in
  let arg := bs "TO:<""q s""@d.example> RRVS=2014-04-03T23:01:00Z;C ORCPT=rfc822;Bob+20S@x NOTIFY=FAILURE,DELAY" in
  c_from c = true /\ c_bdat c = None /\ c_session c = true /\ rcpt_limit_free cfg_all c /\
  classify_rcpt cfg_all arg
  = Valid (bs "q s@d.example")
          (mkRO [bs "FAILURE"; bs "DELAY"] (bs "RFC822") (bs "Bob S@x") (Some (mkRT 1396566060 0 0))).
Proof. vm_compute. repeat split; reflexivity. Qed.

Example C11_witness_invalid :
  let c := conn_ready false in
  let arg := bs "FROM:<a@b> SIZE=1x" in
  c_helo c <> [] /\ c_bdat c = None /\ classify_mail cfg_all arg = Invalid.
Proof. vm_compute. repeat split; try reflexivity; discriminate. Qed.
