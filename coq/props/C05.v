(* C05 - BDAT chunks are framed by octet count and delivered binary-transparent.

   What is quantified.  Every theorem below holds for EVERY payload (lists of
   Coq [ascii]: all 256 octet values, so CRLF.CRLF, NUL, 8-bit octets, command
   look-alikes and LF-free runs of any length are covered - nothing in the
   statements looks at the octets), EVERY transport state [t] / [c_t c] (any
   octets already buffered by bufio + ANY schedule of future raw reads and
   failures + ANY value of the limiter's counter: this is the quantification
   over all segmentations of the stream), EVERY configuration [cfg] (SMTP and
   LMTP, any size limit, any line limit), EVERY backend plan unless a theorem
   says "read-all" ([dp_stop p = None]), and chunk sizes are unbounded [N].
   "The stream" of a transport is [tstream t] = buffered octets ++ the octets
   the schedule delivers before its first failure.

   * C05_copy_exact / C05_copy_short / C05_copy_segmentation_independent:
     io.Copy(dst, io.LimitReader(bufio, n)) with LineLimit = 0 returns exactly
     the first n octets of the stream and leaves exactly the rest; if the
     stream ends first it returns what there was and the schedule's failure.
   * C05_discard_resume: discardChunk skips exactly the declared octets and
     switches the line limit back on.
   * C05_resume: for every BDAT command whose size argument is readable, in
     EVERY branch of handleBdat (accepted LAST / not LAST, delivered, refused
     by the backend, backend gone, backend panicked, 502 no envelope, 501 bad
     LAST token, 552 over the limit) the transport is left exactly behind the
     declared octets: the next command is parsed from there, the declared
     octets are never executed.  C05_syntax_unchanged: size unreadable (no
     argument, > 2 arguments, not a decimal < 2^32): one 501, nothing
     consumed (nothing can be skipped).  C05_refused_*: the refusals emit the
     reply and nothing else - no Data octet, no backend call.
   * C05_pipe_exact / C05_pipe_stop: the backend's reader yields exactly the
     concatenation of the chunk payloads (no unstuffing, no octet changed) and
     then the terminal condition; a backend that stops after k octets has read
     exactly the first min(k, total).
   * C05_chunk_continue / C05_chunk_last / C05_bdat_exact: through
     handleBdat, for EVERY division of a message into chunks (any number, any
     sizes including 0, LAST on an empty or non-empty chunk): one delivery
     whose reader yields the concatenation of all payloads and end-of-file only
     after the LAST chunk, one "250 Continue" per non-LAST chunk, the final
     reply rendered from the backend's verdict, reset afterwards.
   * C05_replies_counted / C05_one_reply_smtp / C05_replies_lmtp: exactly one
     reply per BDAT command in every branch (LMTP: one per recipient of the
     transfer for an accepted LAST chunk).
   * C05_segmentation_independent: two states that hold the same stream in
     different segmentations give the same events (for ANY backend plan) and
     the same state apart from the transport.
   * C05_failed_read_consumed: what is consumed when a raw read FAILS inside
     an accepted chunk (the discard runs on behind the failure if the backend
     was still reading).
   * C05_cut_resume / C05_cut_again / C05_incomplete_chunk_closes /
     C05_incomplete_refused_closes / C05_refusal_short / C05_closed_loop_stops
     (finding F30, repaired): a chunk - accepted or refused - whose declared
     octets could NOT all be read closes the connection after its reply: the
     socket is shut, the session logged out, and the command loop run on the
     resulting state with ANY remaining input does nothing but the deferred
     Close, so the rest of the chunk, should the peer send it later, is never
     executed as commands.  One failing read inside an ACCEPTED chunk is
     survived when the octets behind it complete the chunk (the discard skips
     them and commands resume right behind: C05_cut_resume); a failure that
     repeats - end of the stream, or an expired read deadline, which makes
     every read fail until the command loop arms it again - is not
     (C05_cut_again, C05_incomplete_chunk_closes).  A write error on the pipe
     (backend gone) with the chunk read completely does not close (C05_resume).

   BOUNDARY (known finding F6).  All of this is about the state AFTER the BDAT
   command line has been read.  Payload octets that were fetched into the
   bufio buffer by the same raw read that brought the command line have
   already passed through the lineLimitReader while the line limit was still
   on: an LF-free run longer than MaxLineLength in the same raw read as the
   command makes that read fail with "too long line" and the connection is
   closed with 500 before BDAT is parsed.  That schedule-dependent behaviour
   is NOT covered (and not contradicted) by these theorems; it is exhibited
   concretely by BdatProofs.bdat_line_limit_boundary.  Once the line has been
   read, [t_buf] holds such octets and they are delivered unchanged, however
   long their lines are (LineLimit is 0 during the copy, whatever [t_cur]).

   The nil-session state (an envelope without a session: [BvNilSession]) is
   unreachable (ConnProofs.Inv, BdatProofs.Inv_session); the theorems that
   need a session say [c_from c = true -> c_session c = true]. *)
From Smtp Require Import Bytes GoStrings Transport DataReader Reply Conn
  ConnProofs BdatProofs CloseProofs.
Local Open Scope N_scope.

Theorem C05_copy_exact (t : transport) (n : N) (payload rest : bytes) :
  t_closed t = false -> t_limit t = 0 ->
  tstream t = payload ++ rest -> blen payload = n ->
  exists t',
    t_copy_n n t = (payload, None, t') /\
    tstream t' = rest /\ t_closed t' = false /\ t_limit t' = 0 /\ tterm t' = tterm t.
Proof. exact (copy_n_exact t n payload rest). Qed.
Print Assumptions C05_copy_exact.

Theorem C05_copy_short (t : transport) (n : N) :
  t_closed t = false -> t_limit t = 0 -> blen (tstream t) < n ->
  exists t',
    t_copy_n n t = (tstream t, Some (tterm t), t') /\
    t_buf t' = [] /\ t_raw t' = raws_after (t_raw t) /\ t_closed t' = false /\ t_limit t' = 0.
Proof. exact (copy_n_short t n). Qed.
Print Assumptions C05_copy_short.

Theorem C05_copy_segmentation_independent (t1 t2 : transport) n payload rest :
  t_closed t1 = false -> t_limit t1 = 0 -> t_closed t2 = false -> t_limit t2 = 0 ->
  tstream t1 = payload ++ rest -> tstream t2 = tstream t1 -> blen payload = n ->
  let '(got1, e1, t1') := t_copy_n n t1 in
  let '(got2, e2, t2') := t_copy_n n t2 in
  got1 = payload /\ got2 = payload /\ e1 = None /\ e2 = None /\
  tstream t1' = rest /\ tstream t2' = rest.
Proof.
  intros Hc1 Hl1 Hc2 Hl2 Hs1 Hs2 Hn. rewrite Hs1 in Hs2.
  destruct (copy_n_exact t1 n payload rest Hc1 Hl1 Hs1 Hn) as (t1' & E1 & R1 & _).
  destruct (copy_n_exact t2 n payload rest Hc2 Hl2 Hs2 Hn) as (t2' & E2 & R2 & _).
  rewrite E1, E2. repeat split; assumption.
Qed.
Print Assumptions C05_copy_segmentation_independent.

Theorem C05_discard_resume (cfg : config) (c : conn) (n : N) (payload rest : bytes) :
  t_closed (c_t c) = false ->
  tstream (c_t c) = payload ++ rest -> blen payload = n ->
  exists t',
    discard_chunk cfg c n = (upd_t c t', []) /\
    tstream t' = rest /\ t_limit t' = cf_max_line cfg /\ t_closed t' = false /\
    tterm t' = tterm (c_t c).
Proof. exact (discard_chunk_resume cfg c n payload rest). Qed.
Print Assumptions C05_discard_resume.

(* ... and when they are not all there: Close *)
Theorem C05_discard_short (cfg : config) (c : conn) (n : N) :
  t_closed (c_t c) = false -> blen (tstream (c_t c)) < n ->
  exists t',
    discard_chunk cfg c n = do_close (upd_t c t') /\
    t_buf t' = [] /\ t_raw t' = raws_after (t_raw (c_t c)) /\ t_limit t' = cf_max_line cfg.
Proof. exact (discard_chunk_short cfg c n). Qed.
Print Assumptions C05_discard_short.

Theorem C05_resume (cfg : config) (c : conn) (arg a0 : bytes) (more : list bytes)
        (n : N) (payload rest : bytes) :
  t_closed (c_t c) = false ->
  (c_from c = true -> c_session c = true) ->
  fields arg = a0 :: more -> (List.length more <= 1)%nat -> parse_uint 32 a0 = POk n ->
  tstream (c_t c) = payload ++ rest -> blen payload = n ->
  let '(c', ev) := handle_bdat cfg c arg in
  tstream (c_t c') = rest /\ t_limit (c_t c') = cf_max_line cfg /\
  tterm (c_t c') = tterm (c_t c) /\
  ((c_closed c' = c_closed c /\ t_closed (c_t c') = false) \/
   (c_closed c' = true /\ t_closed (c_t c') = true)).
Proof. exact (bdat_resume cfg c arg a0 more n payload rest). Qed.
Print Assumptions C05_resume.

Theorem C05_syntax_unchanged cfg c arg :
  (~ exists n, bdat_size_known arg n) ->
  exists w, handle_bdat cfg c arg = (c, [EWire w]).
Proof.
  intros H. apply (classify_syntax cfg c) in H.
  pose proof (handle_bdat_cases cfg c arg) as Hc. rewrite H in Hc.
  destruct Hc as (msg & _ & ->). eexists. reflexivity.
Qed.
Print Assumptions C05_syntax_unchanged.

(* the refusals: the reply, then what discardChunk does - [discard_c] is the
   state it leaves, [discard_ev] the events it adds: none when the declared
   octets are there (C05_refusal_complete), Close when they are not
   (C05_refusal_short) *)
Theorem C05_refused_no_envelope cfg c arg a0 more n :
  fields arg = a0 :: more -> (List.length more <= 1)%nat -> parse_uint 32 a0 = POk n ->
  c_from c = false \/ c_rcpts c = [] ->
  handle_bdat cfg c arg
  = (discard_c cfg c n, reply 502 (5, 5, 1)%Z (bs "Missing RCPT TO command.") :: discard_ev cfg c n).
Proof.
  intros Hf Hl Hp He. pose proof (handle_bdat_cases cfg c arg) as Hc.
  rewrite (classify_known cfg c arg a0 more n Hf Hl Hp) in Hc.
  destruct He as [He | He]; rewrite He in Hc; [|rewrite orb_true_r in Hc]; exact Hc.
Qed.
Print Assumptions C05_refused_no_envelope.

Theorem C05_refused_bad_last cfg c arg a0 a1 n :
  fields arg = [a0; a1] -> parse_uint 32 a0 = POk n ->
  c_from c = true -> c_rcpts c <> [] -> equal_fold a1 (bs "LAST") = false ->
  handle_bdat cfg c arg
  = (discard_c cfg c n, reply 501 (5, 5, 4)%Z (bs "Unknown BDAT argument") :: discard_ev cfg c n).
Proof.
  intros Hf Hp Hfr Hrc Hl. pose proof (handle_bdat_cases cfg c arg) as Hc.
  rewrite (classify_known cfg c arg a0 [a1] n Hf (le_n 1) Hp), Hfr in Hc. cbn [negb orb bdat_last_ok] in Hc.
  destruct (c_rcpts c); [congruence|]. rewrite Hl in Hc. exact Hc.
Qed.
Print Assumptions C05_refused_bad_last.

Theorem C05_refused_over_limit cfg c arg a0 more n last :
  fields arg = a0 :: more -> (List.length more <= 1)%nat -> parse_uint 32 a0 = POk n ->
  c_from c = true -> c_rcpts c <> [] -> bdat_last_ok more = Some last ->
  cf_max_bytes cfg <> 0%Z -> (cf_max_bytes cfg < c_received c + Z.of_N n)%Z ->
  handle_bdat cfg c arg
  = (reset_c (discard_c cfg c n),
     [reply 552 (5, 3, 4)%Z (bs "Max message size exceeded")]
     ++ discard_ev cfg c n ++ reset_ev (discard_c cfg c n)).
Proof. exact (bdat_refused_over_limit cfg c arg a0 more n last). Qed.
Print Assumptions C05_refused_over_limit.

Theorem C05_refusal_complete cfg c n payload rest :
  t_closed (c_t c) = false -> tstream (c_t c) = payload ++ rest -> blen payload = n ->
  exists t',
    discard_c cfg c n = upd_t c t' /\ discard_ev cfg c n = [] /\
    tstream t' = rest /\ t_limit t' = cf_max_line cfg /\ t_closed t' = false /\
    tterm t' = tterm (c_t c).
Proof. exact (bdat_refusal_complete cfg c n payload rest). Qed.
Print Assumptions C05_refusal_complete.

Theorem C05_refusal_short cfg c n :
  t_closed (c_t c) = false -> blen (tstream (c_t c)) < n ->
  c_closed (discard_c cfg c n) = true /\ t_closed (c_t (discard_c cfg c n)) = true /\
  c_session (discard_c cfg c n) = false /\ c_bdat (discard_c cfg c n) = None /\
  discard_ev cfg c n = close_ev c.
Proof. exact (bdat_refusal_short cfg c n). Qed.
Print Assumptions C05_refusal_short.

(* handle_bdat, branch by branch, in closed form *)
Theorem C05_cases (cfg : config) (c : conn) (arg : bytes) :
  match bdat_classify cfg c arg with
  | BvSyntax => exists w, handle_bdat cfg c arg = (c, [EWire w])
  | BvNoEnvelope size =>
      handle_bdat cfg c arg
      = (discard_c cfg c size,
         reply 502 (5, 5, 1)%Z (bs "Missing RCPT TO command.") :: discard_ev cfg c size)
  | BvBadLast size =>
      handle_bdat cfg c arg
      = (discard_c cfg c size,
         reply 501 (5, 5, 4)%Z (bs "Unknown BDAT argument") :: discard_ev cfg c size)
  | BvOverLimit size =>
      handle_bdat cfg c arg
      = (reset_c (discard_c cfg c size),
         [reply 552 (5, 3, 4)%Z (bs "Max message size exceeded")]
         ++ discard_ev cfg c size ++ reset_ev (discard_c cfg c size))
  | BvNilSession => handle_bdat cfg c arg = (c, [EPanic])
  | BvAccept size last =>
      handle_bdat cfg c arg
      = let '(chunk, cerr, t1) := t_copy_n size (set_limit (c_t c) 0) in
        bdat_fed cfg c size last chunk cerr t1
  end.
Proof.
  pose proof (handle_bdat_cases cfg c arg) as H.
  destruct (bdat_classify cfg c arg); try exact H.
  destruct H as (msg & _ & ->). eexists. reflexivity.
Qed.
Print Assumptions C05_cases.

Theorem C05_pipe_exact p rcpts sp chunks term :
  dp_stop p = None ->
  pipe_run p rcpts sp chunks term
  = ([EBdatStart; EDelivery (List.concat chunks) (Some term) (plan_ret p (Some term)) (dp_panic p || sp)],
     map (fun _ => None) chunks).
Proof. exact (pipe_read_all p rcpts sp chunks term). Qed.
Print Assumptions C05_pipe_exact.

Theorem C05_pipe_stop p rcpts sp chunks term k :
  dp_stop p = Some k ->
  let total := List.concat chunks in
  let t' := if k <=? blen total then None else Some term in
  exists got rest,
    total = got ++ rest /\ blen got = N.min k (blen total) /\
    fst (pipe_run p rcpts sp chunks term)
    = [EBdatStart; EDelivery got t' (plan_ret p t') (dp_panic p || sp)].
Proof. exact (pipe_stop p rcpts sp chunks term k). Qed.
Print Assumptions C05_pipe_stop.

Theorem C05_chunk_continue cfg c p pan got arg n payload rest :
  transfer_at cfg c p pan got -> dp_stop p = None ->
  bdat_arg arg n false -> within_limit cfg c n ->
  t_closed (c_t c) = false -> tstream (c_t c) = payload ++ rest -> blen payload = n ->
  let '(c', ev) := handle_bdat cfg c arg in
  ev = start_events c ++ [reply 250 (2, 0, 0)%Z (bs "Continue")] /\
  chunking c' p pan (got ++ payload) /\
  tstream (c_t c') = rest /\ t_limit (c_t c') = cf_max_line cfg /\ t_closed (c_t c') = false /\
  c_closed c' = c_closed c /\ c_rcpts c' = c_rcpts c.
Proof. exact (bdat_chunk_continue cfg c p pan got arg n payload rest). Qed.
Print Assumptions C05_chunk_continue.

Theorem C05_chunk_last cfg c p pan got arg n payload rest :
  transfer_at cfg c p pan got -> dp_stop p = None ->
  bdat_arg arg n true -> within_limit cfg c n ->
  t_closed (c_t c) = false -> tstream (c_t c) = payload ++ rest -> blen payload = n ->
  let '(c', ev) := handle_bdat cfg c arg in
  let total := got ++ payload in
  ev = start_events c ++ [EDelivery total (Some REOF) (dp_ret p) pan]
       ++ bdat_final_replies cfg p pan (c_rcpts c) total
       ++ (if pan then [ELogout; EClose] else [EReset]) /\
  tstream (c_t c') = rest /\ t_limit (c_t c') = cf_max_line cfg /\
  (if pan then c_closed c' = true
   else c_closed c' = c_closed c /\ t_closed (c_t c') = false /\ c_session c' = true /\
        c_bdat c' = None /\ c_received c' = 0%Z /\ c_from c' = false /\ c_rcpts c' = []).
Proof. exact (bdat_chunk_last cfg c p pan got arg n payload rest). Qed.
Print Assumptions C05_chunk_last.

Theorem C05_bdat_exact cfg p pan (steps : list chunk_step) (final : chunk_step) :
  dp_stop p = None ->
  Forall (step_ok false) steps -> step_ok true final ->
  forall c got,
  transfer_at cfg c p pan got ->
  (cf_max_bytes cfg = 0%Z \/
   (Z.of_N (blen got + blen (List.concat (map st_payload steps)) + blen (st_payload final))
    <= cf_max_bytes cfg)%Z) ->
  let '(c', ev) := bdat_seq cfg c (steps ++ [final]) in
  let total := got ++ List.concat (map st_payload steps) ++ st_payload final in
  ev = start_events c ++ repeat continue_reply (List.length steps)
       ++ [EDelivery total (Some REOF) (dp_ret p) pan]
       ++ bdat_final_replies cfg p pan (c_rcpts c) total
       ++ (if pan then [ELogout; EClose] else [EReset]) /\
  tstream (c_t c') = st_rest final /\ t_limit (c_t c') = cf_max_line cfg /\
  (if pan then c_closed c' = true
   else c_closed c' = c_closed c /\ t_closed (c_t c') = false /\ c_session c' = true /\
        c_bdat c' = None /\ c_received c' = 0%Z /\ c_from c' = false /\ c_rcpts c' = []).
Proof. exact (bdat_transfer_exact cfg p pan steps final). Qed.
Print Assumptions C05_bdat_exact.

Theorem C05_replies_counted cfg c arg :
  count_wires (snd (handle_bdat cfg c arg)) = bdat_reply_count cfg c arg.
Proof. exact (bdat_replies_counted cfg c arg). Qed.
Print Assumptions C05_replies_counted.

Theorem C05_one_reply_smtp cfg c arg :
  cf_lmtp cfg = false -> (c_from c = true -> c_session c = true) ->
  count_wires (snd (handle_bdat cfg c arg)) = 1%nat.
Proof.
  intros Hl Hse. rewrite bdat_replies_counted. unfold bdat_reply_count. rewrite Hl.
  destruct (bdat_classify cfg c arg) as [|s|s|s| |s [|]] eqn:E; try reflexivity.
  elim (classify_with_session cfg c arg Hse E).
Qed.
Print Assumptions C05_one_reply_smtp.

Theorem C05_replies_lmtp cfg c arg :
  cf_lmtp cfg = true -> (c_from c = true -> c_session c = true) ->
  count_wires (snd (handle_bdat cfg c arg))
  = match bdat_classify cfg c arg with
    | BvAccept _ true => List.length (transfer_rcpts c)
    | _ => 1%nat
    end.
Proof.
  intros Hl Hse. rewrite bdat_replies_counted. unfold bdat_reply_count. rewrite Hl.
  destruct (bdat_classify cfg c arg) as [|s|s|s| |s [|]] eqn:E; try reflexivity.
  elim (classify_with_session cfg c arg Hse E).
Qed.
Print Assumptions C05_replies_lmtp.

Theorem C05_segmentation_independent cfg c t2 arg n payload rest :
  t_closed (c_t c) = false -> t_closed t2 = false ->
  (c_from c = true -> c_session c = true) ->
  bdat_size_known arg n ->
  tstream (c_t c) = payload ++ rest -> tstream t2 = payload ++ rest -> blen payload = n ->
  let '(c1, ev1) := handle_bdat cfg c arg in
  let '(c2, ev2) := handle_bdat cfg (upd_t c t2) arg in
  ev2 = ev1 /\ same_but_t c1 c2 /\ tstream (c_t c1) = rest /\ tstream (c_t c2) = rest.
Proof. exact (bdat_segmentation_independent cfg c t2 arg n payload rest). Qed.
Print Assumptions C05_segmentation_independent.

(* What a failed read inside an accepted chunk consumes, for ANY backend
   plan: the first copy takes everything up to the failing raw read and that
   failure itself ([t1]: nothing buffered, the schedule behind the failure).
   If the backend had gone already (write error) that is all; if it was still
   reading, the handler's discard of the rest of the declared size runs on:
   up to n - obtained further octets, or up to the next failure. *)
Theorem C05_failed_read_consumed cfg c arg n last :
  bdat_classify cfg c arg = BvAccept n last ->
  t_closed (c_t c) = false -> blen (tstream (c_t c)) < n ->
  let c' := fst (handle_bdat cfg c arg) in
  exists t1 tf,
    t_buf t1 = [] /\ t_raw t1 = raws_after (t_raw (c_t c)) /\ t_closed t1 = false /\ t_limit t1 = 0 /\
    (tf = t1 \/ tf = snd (t_copy_n (n - blen (tstream (c_t c))) t1)) /\
    t_buf (c_t c') = t_buf tf /\ t_raw (c_t c') = t_raw tf /\ t_limit (c_t c') = cf_max_line cfg.
Proof.
  intros Hcls Hcl Hn. pose proof (handle_bdat_cases cfg c arg) as Hc. rewrite Hcls in Hc.
  destruct (copy_n_short (set_limit (c_t c) 0) n) as (t1 & Hcp & Hb1 & Hr1 & Hcl1 & Hl1);
    [exact Hcl|reflexivity|exact Hn|].
  rewrite Hcp in Hc. cbv zeta. rewrite Hc.
  pose proof (bdat_fed_transport cfg c n last (tstream (set_limit (c_t c) 0))
                (Some (tterm (set_limit (c_t c) 0))) t1) as Ht.
  cbv zeta in Ht. destruct Ht as (tf & Htf & Hb & Hr & _ & Hlim & _).
  exists t1, tf. rewrite tstream_set_limit in Htf.
  repeat split; try assumption.
  destruct Htf as [H|[_ H]]; [left|right]; exact H.
Qed.
Print Assumptions C05_failed_read_consumed.

(* one failure, and the octets behind it complete the chunk (SMTP mode or a
   non-LAST chunk, backend still reading): skipped, commands resume behind them *)
Theorem C05_cut_resume cfg c p pan got arg n last p2 rest' :
  transfer_at cfg c p pan got -> dp_stop p = None ->
  bdat_arg arg n last -> within_limit cfg c n -> last && cf_lmtp cfg = false ->
  t_closed (c_t c) = false -> blen (tstream (c_t c)) < n ->
  raws_bytes (raws_after (t_raw (c_t c))) = p2 ++ rest' ->
  blen p2 = n - blen (tstream (c_t c)) ->
  tstream (c_t (fst (handle_bdat cfg c arg))) = rest' /\
  t_limit (c_t (fst (handle_bdat cfg c arg))) = cf_max_line cfg /\
  c_closed (fst (handle_bdat cfg c arg)) = c_closed c.
Proof.
  intros Ht Hs Ha Hw Hll Hcl Hn Hs2 Hp2.
  pose proof (bdat_chunk_cut cfg c p pan got arg n last Ht Hs Ha Hw Hll Hcl Hn) as H.
  destruct (handle_bdat cfg c arg) as [c' ev]. cbn [fst]. cbv zeta in H.
  destruct H as (_ & _ & _ & _ & t1 & Hb1 & Hr1 & Hcl1 & Hl1 & H).
  destruct (copy_n_exact t1 (n - blen (tstream (c_t c))) p2 rest') as (t2 & Hcp & Hr2 & _);
    [exact Hcl1|exact Hl1| |exact Hp2|].
  { unfold tstream at 1. rewrite Hb1, Hr1. exact Hs2. }
  rewrite Hcp in H. destruct H as (_ & Hclosed & Hct).
  rewrite Hct. split; [exact Hr2|]. split; [reflexivity|exact Hclosed].
Qed.
Print Assumptions C05_cut_resume.

(* ... they do not: closed *)
Theorem C05_cut_again cfg c p pan got arg n last :
  transfer_at cfg c p pan got -> dp_stop p = None ->
  bdat_arg arg n last -> within_limit cfg c n -> last && cf_lmtp cfg = false ->
  t_closed (c_t c) = false -> blen (tstream (c_t c)) < n ->
  blen (raws_bytes (raws_after (t_raw (c_t c)))) < n - blen (tstream (c_t c)) ->
  t_buf (c_t (fst (handle_bdat cfg c arg))) = [] /\
  t_raw (c_t (fst (handle_bdat cfg c arg))) = raws_after (raws_after (t_raw (c_t c))) /\
  c_closed (fst (handle_bdat cfg c arg)) = true /\
  t_closed (c_t (fst (handle_bdat cfg c arg))) = true /\
  c_session (fst (handle_bdat cfg c arg)) = false.
Proof.
  intros Ht Hs Ha Hw Hll Hcl Hn Hs2.
  pose proof (bdat_chunk_cut cfg c p pan got arg n last Ht Hs Ha Hw Hll Hcl Hn) as H.
  destruct (handle_bdat cfg c arg) as [c' ev]. cbn [fst]. cbv zeta in H.
  destruct H as (_ & _ & _ & _ & t1 & Hb1 & Hr1 & Hcl1 & Hl1 & H).
  destruct (copy_n_short t1 (n - blen (tstream (c_t c)))) as (t2 & Hcp & Hb2 & Hr2 & _);
    [exact Hcl1|exact Hl1| |].
  { unfold tstream at 1. rewrite Hb1, Hr1. exact Hs2. }
  rewrite Hcp in H. destruct H as (_ & Hclosed & Hsess & Hct).
  rewrite Hct. cbn [set_limit set_closed t_buf t_raw t_closed]. rewrite <- Hr1.
  repeat split; assumption.
Qed.
Print Assumptions C05_cut_again.

(* every accepted chunk: SMTP and LMTP, LAST or not, ANY backend plan (reading
   on, stopped, gone, panicking) *)
Theorem C05_incomplete_chunk_closes cfg c arg n last :
  bdat_classify cfg c arg = BvAccept n last ->
  t_closed (c_t c) = false -> blen (tstream (c_t c)) < n ->
  blen (raws_bytes (raws_after (t_raw (c_t c)))) < n - blen (tstream (c_t c)) ->
  let c' := fst (handle_bdat cfg c arg) in
  c_closed c' = true /\ t_closed (c_t c') = true /\ c_session c' = false /\ c_bdat c' = None.
Proof. exact (bdat_incomplete_chunk_closes cfg c arg n last). Qed.
Print Assumptions C05_incomplete_chunk_closes.

(* every refused chunk *)
Theorem C05_incomplete_refused_closes cfg c arg n :
  match bdat_classify cfg c arg with
  | BvNoEnvelope s | BvBadLast s | BvOverLimit s => s = n
  | _ => False
  end ->
  t_closed (c_t c) = false -> blen (tstream (c_t c)) < n ->
  let c' := fst (handle_bdat cfg c arg) in
  c_closed c' = true /\ t_closed (c_t c') = true /\ c_session c' = false /\ c_bdat c' = None.
Proof. exact (bdat_incomplete_refused_closes cfg c arg n). Qed.
Print Assumptions C05_incomplete_refused_closes.

(* ... and then the command loop does nothing but the deferred Close, whatever
   is buffered or still to come on the connection *)
Theorem C05_closed_loop_stops cfg c arg n :
  (exists last, bdat_classify cfg c arg = BvAccept n last /\
                blen (raws_bytes (raws_after (t_raw (c_t c)))) < n - blen (tstream (c_t c)))
  \/ match bdat_classify cfg c arg with
     | BvNoEnvelope s | BvBadLast s | BvOverLimit s => s = n
     | _ => False
     end ->
  t_closed (c_t c) = false -> blen (tstream (c_t c)) < n ->
  let c' := fst (handle_bdat cfg c arg) in
  c_closed c' = true /\ t_closed (c_t c') = true /\
  forall fuel, serve_loop (S fuel) cfg c' = [EClose].
Proof. exact (bdat_closed_loop_stops cfg c arg n). Qed.
Print Assumptions C05_closed_loop_stops.

(* F30: BDAT 30 with 12 octets, then the read deadline expires.  It stays
   expired (two failures in a row): accepted chunk 554 and closed, the bait
   line behind it never executed; refused chunk (no MAIL): 502 and closed.
   With ONE failure the accepted chunk's remaining 18 octets are skipped and
   NOOP, QUIT are executed. *)
Example C05_witness_incomplete_chunk :
  let chunk1 := bs "first part" ++ crlf in
  let chunk2 := bs "MAIL FROM:<x@y>" ++ crlf ++ bs "!" in
  let tail := xln "NOOP" ++ xln "QUIT" in
  let run pre fails := serve 40 (ex_cfg 0 2000) ex_be
                         [[xraw (pre ++ xln "BDAT 30" ++ chunk1)] ++ fails ++ [xraw (chunk2 ++ tail)]] in
  let sticky := run f30_prelude [RFail TTimeout; RFail TTimeout] in
  let once := run f30_prelude [RFail TTimeout] in
  let refused := run (xln "EHLO x") [RFail TTimeout] in
  blen chunk1 = 12%N /\ blen chunk2 = 18%N /\
  wire_codes sticky = map bs ["220"; "250"; "250"; "250"; "554"]%string /\
  has_mail "x@y" sticky = false /\
  skipn (List.length sticky - 3) sticky = [ELogout; EClose; EClose] /\
  wire_codes once = map bs ["220"; "250"; "250"; "250"; "554"; "250"; "221"]%string /\
  has_mail "x@y" once = false /\
  cmd_lines once = [bs "EHLO x"; bs "MAIL FROM:<a@b>"; bs "RCPT TO:<c@d>"; bs "BDAT 30"; bs "NOOP"; bs "QUIT"] /\
  wire_codes refused = map bs ["220"; "250"; "502"]%string /\
  has_mail "x@y" refused = false /\
  cmd_lines refused = [bs "EHLO x"; bs "BDAT 30"].
Proof. exact f30_bdat_witness. Qed.

(* A two-chunk transfer (7 octets holding CRLF.CRLF, then NUL, 0xFF and a
   dot; second command in lower case) through the whole server loop on three
   segmentations - one raw read, cuts inside the payloads, one octet per raw
   read: one delivery of exactly the 10 octets with end-of-file, one reply per
   command, the next command parsed is the NOOP behind the LAST chunk. *)
Example C05_witness_two_chunks :
  let run sg := serve 20 (ex_cfg 0 2000) ex_be [sg ex_stream] in
  let tr := run (seg []) in
  filter is_delivery tr = [EDelivery (ex_p1 ++ ex_p2) (Some REOF) BNil false] /\
  cmd_lines tr = [bs "EHLO x"; bs "MAIL FROM:<a@b>"; bs "RCPT TO:<c@d>"; bs "BDAT 7";
                  bs "bdat 3 last"; bs "NOOP"; bs "QUIT"] /\
  wire_codes tr = map bs ["220"; "250"; "250"; "250"; "250"; "250"; "250"; "221"]%string /\
  run (seg [50; 2; 1; 16]%nat) = tr /\ run seg1 = tr /\
  ~ In EOutOfFuel tr.
Proof. exact bdat_two_chunks_witness. Qed.

(* BDAT without MAIL: 502, the declared 17 octets "MAIL FROM:<x@y>CRLF" are
   discarded, no Mail event, the next command is NOOP *)
Example C05_witness_refused :
  let run sg := serve 20 (ex_cfg 0 2000) ex_be [sg ex_refused] in
  let tr := run (seg []) in
  cmd_lines tr = [bs "EHLO x"; bs "BDAT 17"; bs "NOOP"; bs "QUIT"] /\
  wire_codes tr = map bs ["220"; "250"; "502"; "250"; "221"]%string /\
  existsb (fun e => match e with EMail _ _ _ => true | _ => false end) tr = false /\
  run (seg [20; 5]%nat) = tr /\ run seg1 = tr /\
  (let '(c1, ev1) := handle_bdat (ex_cfg 0 2000)
       (mkC (mkT (bs "MAIL FR") [xraw (bs "OM:<x@y>" ++ crlf ++ xln "NOOP")] 7 2000 false)
            [] ex_be (bs "x") true 0 false false [] false false false None 0) (bs "17") in
   ev1 = [reply 502 (5, 5, 1)%Z (bs "Missing RCPT TO command.")] /\
   fst (conn_read_line c1) = inl (bs "NOOP")).
Proof. exact bdat_refused_witness. Qed.

(* the hypotheses of C05_bdat_exact are satisfiable; see also
   BdatProofs.bdat_handler_witness, bdat_arg_witness, bdat_over_limit_witness,
   bdat_failed_read_witness and bdat_line_limit_boundary (the F6 boundary) *)
Example C05_witness_hypotheses :
  let cfg := ex_cfg 10 2000 in
  let c := ex_conn (mkT [] [] 0 2000 false) in
  let steps := [mkStep (bs "7") ex_t1 ex_p1 (xln "BDAT 3 LAST")] in
  let final := mkStep (bs "3 LAST") ex_t2 ex_p2 (xln "NOOP") in
  dp_stop dp_default = None /\
  Forall (step_ok false) steps /\ step_ok true final /\
  transfer_at cfg c dp_default false [] /\
  (Z.of_N (blen (@nil ascii) + blen (List.concat (map st_payload steps)) + blen (st_payload final))
   <= cf_max_bytes cfg)%Z /\
  snd (bdat_seq cfg c (steps ++ [final]))
  = [EBdatStart; continue_reply; EDelivery (ex_p1 ++ ex_p2) (Some REOF) BNil false;
     reply 250 (2, 0, 0)%Z (bs "OK: queued"); EReset].
Proof. exact bdat_transfer_exact_witness. Qed.
