(* C03 - backend callbacks follow RFC 5321 transaction order; envelopes never leak.

   The statements are about the event list produced by the server model
   [serve fuel cfg be phases] for EVERY configuration [cfg], backend script
   [be] (accept / reject decisions, data plans), network schedule [phases]
   (all segmentations, all inputs) and amount of [fuel].  Vocabulary
   (TraceProps.v): [since p l] is the part of [l] after its last element of
   class [p]; [until p l] the part before the first one; a transaction ends
   with [EReset] or [ELogout] ([is_tx_end]); [live pre] means: a successful
   NewSession in [pre] with no Logout after it.

   C03_order: whenever the trace is [pre ++ e :: post],
   - e = NewSession h t _: no session is live and [t] is the TLS state at that
     point (implicit TLS, or a successful STARTTLS handshake in [pre]);
   - e = Mail: a session is live;
   - e = Rcpt: a session is live, a MAIL has been accepted since the last
     transaction end, and with MaxRecipients > 0 the number of recipients
     accepted since the last transaction end, this one included, is at most
     MaxRecipients;
   - e = Data (DATA path) or BdatStart (first BDAT chunk: the delivery starts):
     a session is live, an accepted MAIL and at least one accepted RCPT since
     the last transaction end.
   C03_end_signalled: after the final outcome of DATA no callback begins, no
   command is read and the connection is not closed until the Reset (or
   Logout) that signals the end of the transaction; on a trace that reaches
   the closing of the connection that Reset/Logout exists
   (C03_end_signalled_complete; [~ In EOutOfFuel] = the fuel of the model's
   loop sufficed; C03_end_signalled_enough_fuel: the fuel bound used by the
   checker, [conv_fuel phases] = 16 + sum over the phases of (size + 4),
   always suffices - C03_fuel_enough).  Since the envelope conditions above are
   relative to the last transaction end, RCPT/DATA/BDAT need a new MAIL then.
   C03_monitor_accepts: the monitor automaton Order.mon_run (the executable
   specification evaluated by the correspondence harness on the model trace
   of every recorded conversation) accepts every trace of the model. *)
From Smtp Require Import Bytes Conn Order ConnProofs TraceProps
  ConnFuel TraceExamples.

Theorem C03_monitor_accepts : forall fuel cfg be phases,
  mon_run cfg (mon_init (cf_implicit_tls cfg)) (serve fuel cfg be phases) <> None.
Proof. exact serve_accepted. Qed.
Print Assumptions C03_monitor_accepts.

Theorem C03_order : forall fuel cfg be phases,
  TraceProps.C03_order cfg (serve fuel cfg be phases).
Proof. intros fuel cfg be phases. apply accepted_C03_order, serve_accepted_strict. Qed.
Print Assumptions C03_order.

Theorem C03_end_signalled : forall fuel cfg be phases,
  TraceProps.C03_end_signalled (serve fuel cfg be phases).
Proof. intros fuel cfg be phases. apply (accepted_C03_end_signalled cfg), serve_accepted_strict. Qed.
Print Assumptions C03_end_signalled.

Theorem C03_end_signalled_complete : forall fuel cfg be phases,
  ~ In EOutOfFuel (serve fuel cfg be phases) ->
  TraceProps.C03_end_signalled_complete (serve fuel cfg be phases).
Proof.
  intros fuel cfg be phases Hf. destruct (serve_ends_with_close _ _ _ _ Hf) as [tr' Hend].
  exact (C03_end_signalled_complete_from _ _ (C03_end_signalled fuel cfg be phases) Hend).
Qed.
Print Assumptions C03_end_signalled_complete.

Theorem C03_fuel_enough : forall fuel cfg be phases,
  conv_fuel phases <= fuel -> ~ In EOutOfFuel (serve fuel cfg be phases).
Proof. exact serve_fuel_enough. Qed.
Print Assumptions C03_fuel_enough.

Theorem C03_end_signalled_enough_fuel : forall fuel cfg be phases,
  conv_fuel phases <= fuel ->
  TraceProps.C03_end_signalled_complete (serve fuel cfg be phases).
Proof. intros fuel cfg be phases Hf. apply C03_end_signalled_complete, serve_fuel_enough, Hf. Qed.
Print Assumptions C03_end_signalled_enough_fuel.

(* non-vacuity: a conversation with EHLO, AUTH, MAIL, three RCPT under a limit
   of two (the third is refused 452 without a callback), DATA, a late RCPT
   (502, no callback), MAIL, RSET, STARTTLS, EHLO, QUIT.  At its Data event the
   premises of the theorems hold non-trivially: two recipients accepted since
   the last transaction end, and the Reset follows after the reply. *)
Example C03_witness :
  map show_kind ex1_trace = ex1_shape /\ ~ In EOutOfFuel ex1_trace /\
  conv_fuel [ex1_plain; ex1_tls] <= 1000 /\
  let pre := firstn 22 ex1_trace in
  let post := skipn 23 ex1_trace in
  (exists g t r p, ex1_trace = pre ++ EData g t r p :: post) /\
  live pre = true /\ existsb is_mail_ok (since is_tx_end pre) = true /\
  count is_rcpt_ok (since is_tx_end pre) = 2%nat /\
  map show_kind (until is_tx_end post) = ["reply 250"%string] /\
  map show_kind (firstn 2 post) = ["reply 250"; "Reset"]%string.
Proof.
  split; [exact ex1_shape_ok|]. split; [exact ex1_fuel_ok|].
  split; [vm_compute; lia|].
  split; [do 4 eexists; vm_compute; reflexivity|].
  vm_compute. repeat split; reflexivity.
Qed.

(* Together with C03_order (no callback outside the allowed states) these give the property's clause
   "an out-of-order command is answered 5xx and causes no callback": each refusal below is the handler's
   complete result - the state is unchanged and the only event is the reply. *)

Theorem C03_mail_before_greeting cfg c arg :
  c_helo c = nil ->
  handle_mail cfg c arg = (c, [reply 502 (5, 5, 1)%Z (bs "Please introduce yourself first.")]).
Proof. intros H. unfold handle_mail. rewrite H. reflexivity. Qed.
Print Assumptions C03_mail_before_greeting.

Theorem C03_rcpt_without_mail cfg c arg :
  c_from c = false ->
  handle_rcpt cfg c arg = (c, [reply 502 (5, 5, 1)%Z (bs "Missing MAIL FROM command.")]).
Proof. intros H. unfold handle_rcpt. rewrite H. reflexivity. Qed.
Print Assumptions C03_rcpt_without_mail.

Theorem C03_data_without_envelope cfg c :
  c_bdat c = None -> c_binarymime c = false -> (c_from c = false \/ c_rcpts c = nil) ->
  handle_data cfg c nil = (c, [reply 502 (5, 5, 1)%Z (bs "Missing RCPT TO command.")]).
Proof.
  intros Hb Hm H. unfold handle_data. rewrite Hb, Hm.
  destruct H as [H|H]; rewrite H; [reflexivity|]. rewrite orb_true_r. reflexivity.
Qed.
Print Assumptions C03_data_without_envelope.

Theorem C03_refused_during_transfer cfg c arg b :
  c_bdat c = Some b ->
  (c_helo c <> nil -> handle_mail cfg c arg = (c, [reply 502 (5, 5, 1)%Z (bs "MAIL not allowed during message transfer")]))
  /\ (c_from c = true -> handle_rcpt cfg c arg = (c, [reply 502 (5, 5, 1)%Z (bs "RCPT not allowed during message transfer")]))
  /\ handle_data cfg c nil = (c, [reply 502 (5, 5, 1)%Z (bs "DATA not allowed during message transfer")]).
Proof.
  intros Hb. repeat split.
  - intros Hh. unfold handle_mail. destruct (c_helo c); [congruence|]. rewrite Hb. reflexivity.
  - intros Hf. unfold handle_rcpt. rewrite Hf, Hb. reflexivity.
  - unfold handle_data. rewrite Hb. reflexivity.
Qed.
Print Assumptions C03_refused_during_transfer.

Theorem C03_wrong_flavour_refused cfg c arg :
  (cf_lmtp cfg = true ->
     (exists m, handle cfg c (bs "EHLO") arg = (c, [reply 500 (5, 5, 1)%Z m]))
     /\ (exists m, handle cfg c (bs "HELO") arg = (c, [reply 500 (5, 5, 1)%Z m])))
  /\ (cf_lmtp cfg = false -> exists m, handle cfg c (bs "LHLO") arg = (c, [reply 500 (5, 5, 1)%Z m])).
Proof.
  split; intros H; [split|]; eexists; unfold handle; cbn; rewrite H; cbn; reflexivity.
Qed.
Print Assumptions C03_wrong_flavour_refused.
