(* C07 - an incomplete message is never presented as complete.
   READER-LEVEL part for DATA (BDAT and the replies are separate).

   * C07_prefix_incomplete (specification, every octet string s): if s holds
     a complete message, then EVERY proper prefix of the part of s up to and
     including the end marker - every cut offset k < |s| - |rest|, also
     inside the marker itself - is Incomplete.  C07_cut_incomplete: the same
     with the offset counted as k < |pre| + 3 for s = pre ++ ".CRLF" ++ rest.
   * C07_data_incomplete: for every size limit mx, every transport state t
     (ANY schedule delivering the stream, ended by ANY failure: EOF, timeout,
     network error) on which the line limiter stays quiet, every list of
     read sizes and every stopping point: if the stream holds no complete
     message, the reader's result is never io.EOF and the reader never
     reaches its end state; the result is the schedule's failure
     (io.ErrUnexpectedEOF for EOF) or - only with 0 < mx < |body| -
     ErrDataTooLarge, or the backend stopped by itself.
   * C07_data_incomplete_error: the same for a backend that reads to the end.
   * C07_data_cut: the two combined - for every stream with a complete
     message, every cut offset before the end of the marker, every schedule
     delivering the cut stream and every failure ending it: never io.EOF,
     neither from the backend's reads nor (when the connection delivers
     nothing after the failure) from the post-delivery drain. *)
From Smtp Require Import Bytes Transport DataReader DotSpec DataProofs2.

Theorem C07_prefix_incomplete s body rest k :
  unstuff s = Complete body rest ->
  k < List.length s - List.length rest ->
  exists b, unstuff (firstn k s) = Incomplete b.
Proof. exact (unstuff_prefix_incomplete s body rest k). Qed.
Print Assumptions C07_prefix_incomplete.

Theorem C07_cut_incomplete pre rest body k :
  unstuff (pre ++ end_marker ++ rest) = Complete body rest ->
  k < List.length pre + 3 ->
  exists b, unstuff (firstn k (pre ++ end_marker ++ rest)) = Incomplete b.
Proof.
  intros H Hk. apply (C07_prefix_incomplete _ body rest k H).
  rewrite !app_length. cbn. lia.
Qed.
Print Assumptions C07_cut_incomplete.

Theorem C07_data_incomplete (mx : Z) (sizes : list nat) (stop : option N) (t : transport) body :
  transparent t ->
  unstuff (tstream t) = Incomplete body ->
  let '(out, e, d', t') := backend_reads sizes stop (new_data_reader mx) t in
  e <> Some REOF /\ d_state d' <> SEOF /\
  ((exists k, stop = Some k /\ e = None) \/
   e = Some (rerr_of_terr (tterm t)) \/
   (e = Some RTooLarge /\ (0 < mx)%Z /\ (mx < Z.of_nat (List.length body))%Z)).
Proof. exact (data_incomplete_never_eof mx sizes stop t body). Qed.
Print Assumptions C07_data_incomplete.

Theorem C07_data_incomplete_error (mx : Z) (sizes : list nat) (t : transport) body :
  transparent t ->
  unstuff (tstream t) = Incomplete body ->
  let '(out, e, d', t') := backend_reads sizes None (new_data_reader mx) t in
  e <> Some REOF /\
  (e = Some (rerr_of_terr (tterm t)) \/
   (e = Some RTooLarge /\ (0 < mx)%Z /\ (mx < Z.of_nat (List.length body))%Z)).
Proof.
  intros Htr Hc. pose proof (C07_data_incomplete mx sizes None t body Htr Hc) as H.
  destruct (backend_reads sizes None (new_data_reader mx) t) as [[[out e] d'] t'].
  destruct H as (A & _ & [(k & X & _)|B]); [discriminate|auto].
Qed.
Print Assumptions C07_data_incomplete_error.

Theorem C07_data_cut (mx : Z) (sizes : list nat) (stop : option N)
        (s body rest : bytes) (k : nat) (t : transport) :
  unstuff s = Complete body rest ->
  k < List.length s - List.length rest ->
  transparent t -> tstream t = firstn k s ->
  let '(out, e, d1, t1) := backend_reads sizes stop (new_data_reader mx) t in
  e <> Some REOF /\ d_state d1 <> SEOF /\
  (stop = None -> e = Some (rerr_of_terr (tterm t)) \/ e = Some RTooLarge) /\
  (raws_after (t_raw t) = [] ->
   let '(de, d2, t2) := dr_drain d1 t1 in exists x, de = Some (rerr_of_terr x)).
Proof.
  intros Hc Hk Htr Hs.
  destruct (C07_prefix_incomplete s body rest k Hc Hk) as (b & Hb). rewrite <- Hs in Hb.
  pose proof (C07_data_incomplete mx sizes stop t b Htr Hb) as H1.
  pose proof (drain_incomplete_never_eof mx sizes stop t b Htr Hb) as H2.
  destruct (backend_reads sizes stop (new_data_reader mx) t) as [[[out e] d1] t1].
  destruct H1 as (A & B & C). split; [exact A|]. split; [exact B|]. split.
  - intros ->. destruct C as [(k0 & X & _)|[C|(C & _)]]; [discriminate|auto|auto].
  - intros Hra. specialize (H2 Hra). destruct (dr_drain d1 t1) as [[de d2] t2]. apply H2.
Qed.
Print Assumptions C07_data_cut.

Theorem C07_drain_never_eof (mx : Z) (sizes : list nat) (stop : option N) (t : transport) body :
  transparent t ->
  unstuff (tstream t) = Incomplete body ->
  raws_after (t_raw t) = [] ->
  let '(out, e, d1, t1) := backend_reads sizes stop (new_data_reader mx) t in
  let '(de, d2, t2) := dr_drain d1 t1 in
  e <> Some REOF /\ (exists x, de = Some (rerr_of_terr x)) /\ t_buf t2 = [] /\ t_raw t2 = [].
Proof. exact (drain_incomplete_never_eof mx sizes stop t body). Qed.
Print Assumptions C07_drain_never_eof.

(* non-vacuity: the stream of C02_witness cut at offset 7 (inside the end
   marker, after ".CR") and ended by a timeout satisfies all hypotheses; see
   also DataProofs2.prefix_incomplete_witness (all 11 cut points of a stream) *)
Example C07_witness :
  transparent wit_cut /\
  unstuff (tstream wit_cut) = Incomplete (bs "abc" ++ [CR; LF; CR]) /\
  tstream wit_cut = firstn 7 (tstream wit_t) /\
  7 < List.length (tstream wit_t) - List.length (bs "NOOP" ++ [CR; LF]) /\
  raws_after (t_raw wit_cut) = [] /\
  (let '(out, e, d1, t1) := backend_reads [3] None (new_data_reader 0) wit_cut in
   let '(de, d2, t2) := dr_drain d1 t1 in (out, e, de))
  = (bs "abc" ++ [CR; LF], Some (RTransport TTimeout), Some RUnexpectedEOF).
Proof. vm_compute. repeat split; reflexivity. Qed.
