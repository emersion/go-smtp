(* C12 - EHLO advertises exactly what the configuration enables, and honours it.

   For EVERY configuration (all flags, ANY size limit and recipient limit
   value, any list of backend mechanisms) and TLS state:
   - the capability list of the EHLO/LHLO reply contains a line s exactly when
     [advertised cfg tls s] holds - the property's own table (STARTTLS iff TLS
     configured and not active, AUTH with the backend's mechanisms iff
     permitted, REQUIRETLS only under TLS, SIZE/RCPTMAX with the configured
     values, the fixed four always) - and that list is what the reply carries;
     HELO's reply is the single greeting line;
   - each extension's parameter or command is accepted when enabled and
     refused with 504 when disabled (502/523 for STARTTLS/AUTH), the advertised
     SIZE and RCPTMAX values are the ones enforced;
   - additionally, on every point of the property's finite space (here 4096
     configurations, a superset of its 3072): advertised <-> accepted and not
     advertised <-> 504 for every extension.  The flags act independently, so
     this follows from one look-up per keyword and one verdict per parameter
     rather than from a sweep. *)
From Smtp Require Import Rfc3339 Bytes GoStrings Transport Parse Reply Conn C12Proofs.

Theorem C12_caps_exact cfg c s : In s (caps cfg c) <-> advertised cfg (c_tls c) s.
Proof. exact (caps_exact cfg c s). Qed.
Print Assumptions C12_caps_exact.

Theorem C12_ehlo_reply_is_caps cfg c arg domain :
  parse_hello_argument arg = Some domain -> c_session c = true ->
  exists c' ev, handle_greet cfg c true arg
                = (c', ev ++ [EWire (write_response 250 no_ec ((bs "Hello " ++ domain) :: caps cfg c'))])
                /\ c_tls c' = c_tls c.
Proof.
  intros Hp Hs. unfold handle_greet. rewrite Hp.
  assert (Hs1 : c_session (upd_helo c domain) = true) by exact Hs. rewrite Hs1.
  destruct (do_reset (upd_helo c domain)) as [c' ev] eqn:E. cbn.
  exists c', ev. split; [reflexivity|].
  (* a reset keeps the TLS state *)
  unfold do_reset in E. destruct (c_bdat (upd_helo c domain)) as [b|].
  - destruct (bd_end b _). inversion E; subst. reflexivity.
  - inversion E; subst. reflexivity.
Qed.
Print Assumptions C12_ehlo_reply_is_caps.

Theorem C12_helo_lists_nothing cfg c arg domain :
  parse_hello_argument arg = Some domain -> c_session c = true ->
  exists c' ev, handle_greet cfg c false arg
                = (c', ev ++ [reply 250 (2, 0, 0)%Z (bs "Hello " ++ domain)]).
Proof.
  intros Hp Hs. unfold handle_greet. rewrite Hp.
  assert (Hs1 : c_session (upd_helo c domain) = true) by exact Hs. rewrite Hs1.
  destruct (do_reset (upd_helo c domain)) as [c' ev]. cbn. eauto.
Qed.
Print Assumptions C12_helo_lists_nothing.

Theorem C12_honoured_mail cfg o bm :
  ((cf_utf8 cfg = true -> accepted (mail_param cfg (bs "SMTPUTF8") [] o bm)) /\
   (cf_utf8 cfg = false -> refused_504 (mail_param cfg (bs "SMTPUTF8") [] o bm))) /\
  ((cf_requiretls cfg = true -> accepted (mail_param cfg (bs "REQUIRETLS") [] o bm)) /\
   (cf_requiretls cfg = false -> refused_504 (mail_param cfg (bs "REQUIRETLS") [] o bm))) /\
  ((cf_binarymime cfg = true -> accepted (mail_param cfg (bs "BODY") (bs "BINARYMIME") o bm)) /\
   (cf_binarymime cfg = false -> refused_504 (mail_param cfg (bs "BODY") (bs "BINARYMIME") o bm))) /\
  (accepted (mail_param cfg (bs "BODY") (bs "8BITMIME") o bm) /\ accepted (mail_param cfg (bs "BODY") (bs "7BIT") o bm)) /\
  ((cf_dsn cfg = true -> accepted (mail_param cfg (bs "RET") (bs "FULL") o bm)
                         /\ accepted (mail_param cfg (bs "RET") (bs "HDRS") o bm)) /\
   (cf_dsn cfg = false -> forall v, refused_504 (mail_param cfg (bs "RET") v o bm)
                                    /\ refused_504 (mail_param cfg (bs "ENVID") v o bm))).
Proof.
  unfold mail_param, accepted, refused_504. cbn.
  repeat apply conj; try intros ->; cbn; eauto 6.
Qed.
Print Assumptions C12_honoured_mail.

Theorem C12_honoured_rcpt cfg o :
  ((cf_dsn cfg = true -> accepted (rcpt_param cfg (bs "NOTIFY") (bs "SUCCESS,FAILURE") o)
                         /\ accepted (rcpt_param cfg (bs "NOTIFY") (bs "NEVER") o)) /\
   (cf_dsn cfg = false -> forall v, refused_504 (rcpt_param cfg (bs "NOTIFY") v o)
                                    /\ refused_504 (rcpt_param cfg (bs "ORCPT") v o))) /\
  ((cf_rrvs cfg = true -> accepted (rcpt_param cfg (bs "RRVS") (bs "2014-04-03T23:01:00Z") o)) /\
   (cf_rrvs cfg = false -> forall v, refused_504 (rcpt_param cfg (bs "RRVS") v o))).
Proof.
  unfold rcpt_param, accepted, refused_504. cbn -[parse_rfc3339].
  replace (parse_rfc3339 _) with (Some (mkRT 1396566060 0 0)) by (vm_compute; reflexivity).
  repeat apply conj; try intros ->; cbn; eauto 6.
Qed.
Print Assumptions C12_honoured_rcpt.

Theorem C12_size_value_enforced cfg o bm v :
  forallb is_digit v = true -> v <> [] -> (dec_value v < 2 ^ 63)%N ->
  ((0 < cf_max_bytes cfg)%Z -> (cf_max_bytes cfg < Z.of_N (dec_value v))%Z ->
     mail_param cfg (bs "SIZE") v o bm = inr (552, (5, 3, 4), bs "Max message size exceeded")%Z) /\
  ((cf_max_bytes cfg <= 0)%Z \/ (Z.of_N (dec_value v) <= cf_max_bytes cfg)%Z ->
     accepted (mail_param cfg (bs "SIZE") v o bm)).
Proof.
  intros Hd Hne Hr. rewrite mail_param_size. unfold accepted, parse_uint.
  destruct v as [|x v]; [congruence|]. rewrite Hd.
  apply N.ltb_lt in Hr. rewrite Hr. split.
  - intros H1 H2. apply Z.ltb_lt in H1, H2. rewrite H1, H2. reflexivity.
  - intros [H|H].
    + assert (E : (0 <? cf_max_bytes cfg)%Z = false) by (apply Z.ltb_ge; lia). rewrite E. cbn [andb]. eauto.
    + assert (E : (cf_max_bytes cfg <? Z.of_N (dec_value (x :: v)))%Z = false) by (apply Z.ltb_ge; lia).
      rewrite E, andb_false_r. eauto.
Qed.
Print Assumptions C12_size_value_enforced.

Theorem C12_starttls_iff_advertised cfg c :
  (cf_tls_config cfg = true /\ c_tls c = false ->
     exists c' ev, handle_starttls cfg c = (c', reply 220 (2, 0, 0)%Z (bs "Ready to start TLS") :: ev)) /\
  (cf_tls_config cfg = false \/ c_tls c = true ->
     exists msg, handle_starttls cfg c = (c, [reply 502 (5, 5, 1)%Z msg])).
Proof.
  unfold handle_starttls. split.
  - intros [H1 H2]. rewrite H1, H2. cbn [negb].
    destruct (t_raw (c_t c)) as [|r rs]; destruct (c_phases c) as [|ph phs];
      try (eexists _, _; reflexivity).
    destruct (do_reset _) as [c2 ev2]. eexists _, _. reflexivity.
  - intros [H|H].
    + destruct (c_tls c); [eauto|]. rewrite H. cbn. eauto.
    + rewrite H. eauto.
Qed.
Print Assumptions C12_starttls_iff_advertised.

Theorem C12_auth_needs_tls cfg c arg m more :
  c_helo c <> [] -> c_did_auth c = false -> fields arg = m :: more ->
  c_tls c = false -> cf_insecure_auth cfg = false ->
  handle_auth cfg c arg = (c, [reply 523 (5, 7, 10)%Z (bs "TLS is required")]).
Proof.
  intros Hh Hd Hf Ht Hi. unfold handle_auth.
  destruct (c_helo c); [congruence|]. rewrite Hd, Hf. unfold auth_allowed. rewrite Ht, Hi. reflexivity.
Qed.
Print Assumptions C12_auth_needs_tls.

Theorem C12_rcptmax_enforced cfg c arg a rcpt rest :
  c_from c = true -> c_bdat c = None -> cut_prefix_fold arg (bs "TO:") = Some a ->
  parse_path (trim_space a) = Some (rcpt, rest) ->
  (0 < cf_max_rcpt cfg)%N -> (cf_max_rcpt cfg <= N.of_nat (List.length (c_rcpts c)))%N ->
  handle_rcpt cfg c arg
  = (c, [reply 452 (4, 5, 3)%Z (bs "Maximum limit of " ++ dec_of_N (cf_max_rcpt cfg) ++ bs " recipients reached")]).
Proof.
  intros Hf Hb Hc Hp H1 H2. unfold handle_rcpt. rewrite Hf, Hb, Hc, Hp. cbn [negb].
  apply N.ltb_lt in H1. apply N.leb_le in H2. rewrite H1, H2. reflexivity.
Qed.
Print Assumptions C12_rcptmax_enforced.

(* the finite space of the property: the bound (4096 configurations) is part of the statement *)
Theorem C12_configuration_space_consistent :
  N.of_nat (List.length cfg_space) = 4096%N /\ forall p, In p cfg_space -> cfg_consistent p = true.
Proof. exact (conj cfg_space_size cfg_space_consistent). Qed.
Print Assumptions C12_configuration_space_consistent.
