(* C20 - no data races or deadlocks; Close and Shutdown end serving exactly once.

   Part of the truth of this property lives in the Go runtime.  What is
   PROVED (about models), what is RE-CHECKED AGAINST THE SOURCE on every run,
   and what is only OBSERVED at run time:

   (1) Data races - proved once, generically (Lockset.v): interleaving
       semantics of task instances made of Acc/Acq/Rel/Spawn/Send/Recv events
       with one mutex; mutual exclusion; and for the family {one loop task
       running ANY sequence of handler bodies, detached closures, scoped
       (joined) closures, external tasks} the checker [races] is sound: every
       data race reachable under ANY schedule, for ANY sequence of handler
       invocations and ANY set of external tasks, is on a listed pair.
       RE-CHECKED ON EVERY RUN: tools/accesses regenerates the access table of
       conn.go/server.go (coq/gen/Accesses.v: per function and go-literal the
       reads/writes of Conn fields, the c.locker regions, calls, spawns and
       joins), and [C20_races_exactly] recomputes the set of unprotected
       conflicting pairs with vm_compute and compares it with [known_races].
       On the current tree the full statement is REFUTED (C20_race_refuted:
       MAIL's unlocked read of c.bdatPipe against a concurrent Server.Close ->
       Conn.Close) and the partial statements hold: every reachable race is
       one of the 13 listed (field, function, function) pairs
       (C20_races_only_known); with the 9 listed unlocked command-loop
       accesses removed there is no race at all (C20_race_free_partial).
   (2) Deadlocks / goroutines left behind (Interleave.v): small-step model of
       the command loop, the BDAT delivery goroutines, the io.Pipe
       rendezvous, the capacity-1 result channel and reset/Close aborting
       the pipe.  For all schedules no reachable state has every live task
       blocked; a delivery whose pipe is closed is never blocked again and
       finishes within 6 own steps; when the loop has ended every pipe is
       closed.  Hypothesis built into the model: Session.Data returns once
       its reader has failed (the documented contract).
   (3) Life cycle (ServerLife.v, tied to the real Server by the `life`
       correspondence cases of harness/genlife.go on every run): Close,
       Shutdown, second calls, back-off on temporary Accept errors.  Close
       ends EVERY connection: the registered ones at once, and one between
       Accept's return and its handler's registration as soon as that
       handler runs - it finds s.done closed under s.locker and closes the
       connection instead of registering and greeting it
       (C20_close_ends_every_connection, for all operation sequences and
       both orders of Close and the registration; the `life` cases force
       that window on the real server through the listener's Close, which
       Server.Close calls while holding s.locker).  Close and Shutdown are
       atomic steps of the model; the code implements that atomicity (the
       test of s.done and close(s.done) are done under s.locker), and
       TestScenarioConcurrentClose checks it on the real server.
       Both were defects of the original tree (DESIGN F28, F21), repaired.
       A listener whose Close returns an error is a parameter of the model
       (lis_err): Close and Shutdown remember the error, carry on and return
       it at the end; the run is the clean run with that one return value
       changed (C20_listener_close_error; the `life` cases script a listener
       whose Close fails, with connections in every state).
   RUNTIME ONLY (observed, not proved): Go's scheduler/memory model being
   captured by the interleaving semantics; net.Conn, io.Pipe, channels,
   sync.Mutex/WaitGroup being race free themselves; objects reached THROUGH
   a field (bufio.Reader, lineLimitReader, dataReader) are covered only as
   far as the field that holds them; the -race scenarios of
   harness/race_test.go. *)
From Coq Require Import List String Bool NArith Lia.
From Smtp Require Import Lockset LocksetInst Interleave InterleaveProofs ServerLife ServerLifeProofs.
Import ListNotations.

(* ---- (1) data races ---- *)

(* generic: at most one instance is between Acq and Rel, in every reachable state *)
Theorem C20_mutual_exclusion :
  forall (I C : Type) (I_dec : forall a b : I, {a = b} + {a <> b})
         (C_dec : forall a b : C, {a = b} + {a <> b})
         (p : @program I C) (sched : list I) (i j : I),
    inside p (Lockset.run I_dec C_dec p sched) i -> inside p (Lockset.run I_dec C_dec p sched) j -> i = j.
Proof. exact (@mutual_exclusion). Qed.
Print Assumptions C20_mutual_exclusion.

(* generic: lock discipline + spawn / send-before-receive ordering => no race *)
Theorem C20_lockset_sound :
  forall (I C : Type) (I_dec : forall a b : I, {a = b} + {a <> b})
         (C_dec : forall a b : C, {a = b} + {a <> b}) (p : @program I C),
    disciplined p -> forall sched, no_race (Lockset.run I_dec C_dec p sched).
Proof. exact (@lockset_hb_sound). Qed.
Print Assumptions C20_lockset_sound.

(* the family: the decidable checker is sound for every handler sequence,
   every set of external tasks, every schedule *)
Theorem C20_checker_sound :
  forall tpl, race_free_b tpl = true ->
  forall hs es sched, no_race (Lockset.run iid_dec chan_dec (inst tpl hs es) sched).
Proof. exact race_free_b_sound. Qed.
Print Assumptions C20_checker_sound.

(* the obligation re-checked against the regenerated table on every run *)
Theorem C20_races_exactly : same_set_b (races conn_program) known_races = true.
Proof. exact conn_races_exactly. Qed.
Print Assumptions C20_races_exactly.

(* refuted: a reachable data race of the current tree *)
Theorem C20_race_refuted :
  race (Lockset.run iid_dec chan_dec (inst conn_program ["handleMail"%string] [["Close"%string]])
            race_witness_sched).
Proof. exact conn_race_refuted. Qed.
Print Assumptions C20_race_refuted.

(* partial: every reachable race is one of the listed pairs *)
Theorem C20_races_only_known :
  forall hs es sched i j f w1 t1 r1 w2 t2 r2,
    let s := Lockset.run iid_dec chan_dec (inst conn_program hs es) sched in
    i <> j -> started s i = true -> started s j = true ->
    pc s i = Acc f w1 t1 :: r1 -> pc s j = Acc f w2 t2 :: r2 ->
    (w1 || w2) = true ->
    In (f, t1, t2) known_races \/ In (f, t2, t1) known_races.
Proof. exact conn_races_only_known. Qed.
Print Assumptions C20_races_only_known.

(* partial: without the listed unlocked command-loop accesses, no race *)
Theorem C20_race_free_partial :
  forall hs es sched,
    no_race (Lockset.run iid_dec chan_dec (inst (prune known_racy_accesses conn_program) hs es) sched).
Proof. exact conn_race_free_partial. Qed.
Print Assumptions C20_race_free_partial.

(* ---- (2) deadlocks, goroutines left behind ---- *)

Theorem C20_no_deadlock :
  forall (lmtp : bool) (sched : list action),
    let s := Interleave.run lmtp Interleave.init sched in
    final s \/ exists a, enabled lmtp s a.
Proof. intros lmtp sched. apply no_deadlock_inv, InterleaveProofs.run_inv, InterleaveProofs.inv_init. Qed.
Print Assumptions C20_no_deadlock.

Theorem C20_delivery_terminates :
  forall (lmtp : bool) s i sched,
    InterleaveProofs.Inv s -> i < nd s -> pipe_closed (dv s i) = true ->
    6 <= own_moves i sched ->
    d_st (dv (Interleave.run lmtp s sched) i) = DDone.
Proof.
  intros lmtp s i sched HI Hi Hc H6.
  destruct (delivery_terminates lmtp s i sched HI Hi Hc) as [D _].
  (* six own moves exhaust the rank *)
  apply rank_bounds. destruct (rank_bounds (dv s i)) as [H _]. lia.
Qed.
Print Assumptions C20_delivery_terminates.

Theorem C20_no_goroutine_left_behind :
  forall (lmtp : bool) sched i,
    let s := Interleave.run lmtp Interleave.init sched in
    loop s = LEnd -> i < nd s -> pipe_closed (dv s i) = true.
Proof.
  intros lmtp sched i s. apply ended_pipes_closed, InterleaveProofs.run_inv, InterleaveProofs.inv_init.
Qed.
Print Assumptions C20_no_goroutine_left_behind.

(* ---- (3) life cycle ---- *)

Theorem C20_close_once :
  forall s, reachable s -> done s = false ->
  let s' := fst (ServerLife.step s OClose) in
  snd (ServerLife.step s OClose) = BRet (ok_ret s) /\
  serving s' = false /\
  (serving s = true -> serve_ret s' = Some RNil) /\
  conns s' = close_all (conns s) /\ Forall (fun c => c <> COpen) (conns s') /\
  forall l o, (o = OClose \/ o = OShutdown) ->
              snd (ServerLife.step (run_st s' l) o) = BRet RServerClosed.
Proof.
  intros s _ Hd. rewrite (step_close s Hd). intro s'. cbn [fst snd] in *.
  repeat split.
  - intro Hs. simpl. rewrite Hs. reflexivity.
  - apply close_all_none_open.
  - intros l o Ho. rewrite (stopped_second_call _ o (run_done s' l eq_refl) Ho). reflexivity.
Qed.
Print Assumptions C20_close_once.

(* Close ends every connection, whatever the order of Close and the
   handlers' registrations (the window between Accept and registration) *)
Theorem C20_close_ends_every_connection :
  forall e l1 l2,
  let s := run_st (init_e e) l1 in
  done s = false ->
  let s' := run_st (fst (ServerLife.step s OClose)) l2 in
  List.length (conns s') = List.length (conns s) /\
  Forall (fun c => c <> COpen) (conns s') /\
  (forall k c, nth_error (conns s') k = Some c ->
     nth_error (conns s) k <> Some CSpawned \/ In (ORegister k) l2 ->
     is_open c = false) /\
  ((forall k, nth_error (conns s) k = Some CSpawned -> In (ORegister k) l2) ->
   open_count s' = 0%nat).
Proof. intros e l1 l2 s. apply close_ends_every_connection, ServerLifeProofs.run_inv, inv_init_e. Qed.
Print Assumptions C20_close_ends_every_connection.

(* A listener whose Close returns an error changes nothing but the error
   returned: for every operation sequence the run with the failing listener
   (init_e true) reaches the state of the run with a clean listener - Serve
   returned the same, the same connections were ended by the server, as many
   are active, the same Shutdown blocks - and its observations are those of
   the clean run with the nil of the first Close / Shutdown (returned at once
   or when the blocked call is released) replaced by the listener's error.
   [reachable], and with it every theorem of this part, covers both values of
   the parameter (ok_ret s = the listener's error or nil). *)
Theorem C20_listener_close_error :
  forall l,
  let sf := run_st (init_e true) l in
  let s := run_st ServerLife.init l in
  sf = set_err true s /\
  serving sf = serving s /\ serve_ret sf = serve_ret s /\ done sf = done s /\
  conns sf = conns s /\ open_count sf = open_count s /\ sd_pending sf = sd_pending s /\
  snd (ServerLife.run (init_e true) l) = map mark_obs (snd (ServerLife.run ServerLife.init l)) /\
  ~ In (BRet RListenerErr) (snd (ServerLife.run ServerLife.init l)) /\
  ~ In (BShutdownRet RListenerErr) (snd (ServerLife.run ServerLife.init l)).
Proof.
  intros l sf s.
  assert (H := listener_error_changes_only_ret l ServerLife.init eq_refl).
  change (set_err true ServerLife.init) with (init_e true) in H.
  assert (Hs : sf = set_err true s) by (unfold sf, run_st; rewrite H; reflexivity).
  split; [exact Hs|]. rewrite Hs, H.
  repeat split; try reflexivity; apply clean_run_no_listener_error; reflexivity.
Qed.
Print Assumptions C20_listener_close_error.

(* in the property's words: Close returns the listener's error AND has ended
   every registered connection (the ones in the accept window are covered by
   C20_close_ends_every_connection, which holds for both listeners) ... *)
Theorem C20_close_despite_listener_error :
  forall s, reachable s -> done s = false -> lis_err s = true ->
  let s' := fst (ServerLife.step s OClose) in
  snd (ServerLife.step s OClose) = BRet RListenerErr /\
  serving s' = false /\ conns s' = close_all (conns s) /\
  Forall (fun c => c <> COpen) (conns s') /\
  forall l o, (o = OClose \/ o = OShutdown) ->
              snd (ServerLife.step (run_st s' l) o) = BRet RServerClosed.
Proof.
  intros s Hr Hd He s'.
  destruct (C20_close_once s Hr Hd) as (A & B & _ & C & D & E).
  unfold ok_ret in A. rewrite He in A. repeat split; auto.
Qed.
Print Assumptions C20_close_despite_listener_error.

(* ... and Shutdown with an active connection does not return on the
   listener's error: it blocks, and returns that error exactly when the last
   active connection has finished (the context not expiring) *)
Theorem C20_shutdown_despite_listener_error :
  forall s, reachable s -> done s = false -> lis_err s = true -> (open_count s > 0)%nat ->
  let s' := fst (ServerLife.step s OShutdown) in
  snd (ServerLife.step s OShutdown) = BPending /\
  forall l, has_expire l = false ->
    let s'' := run_st s' l in
    (sd_pending s'' = true /\ (open_count s'' > 0)%nat /\
     ~ In (BShutdownRet RListenerErr) (snd (ServerLife.run s' l))) \/
    (sd_pending s'' = false /\ open_count s'' = 0%nat /\
     In (BShutdownRet RListenerErr) (snd (ServerLife.run s' l))).
Proof.
  intros s Hr Hd He Ho s'. destruct (step_shutdown_blocks s Hd Ho) as [B Hp].
  split; [exact B|]. intros l Hl s''.
  destruct (shutdown_waits s' l (ServerLifeProofs.step_inv s OShutdown (reachable_inv s Hr)) Hp Hl) as [_ H].
  unfold s' in H. rewrite step_ok_ret in H. unfold ok_ret in H. rewrite He in H. exact H.
Qed.
Print Assumptions C20_shutdown_despite_listener_error.

(* after Close or Shutdown no connection is taken into service any more *)
Theorem C20_no_service_after_stop :
  forall s o j, reachable s -> done s = true ->
  nth_error (conns (fst (ServerLife.step s o))) j = Some COpen -> nth_error (conns s) j = Some COpen.
Proof. intros s o j Hr. apply no_service_after_stop, reachable_inv. exact Hr. Qed.
Print Assumptions C20_no_service_after_stop.

Theorem C20_shutdown :
  forall s, reachable s -> done s = false ->
  let s' := fst (ServerLife.step s OShutdown) in
  serving s' = false /\ (serving s = true -> serve_ret s' = Some RNil) /\
  conns s' = conns s /\
  (forall l r, snd (ServerLife.step (run_st s' l) (OAccept r)) = BSkip) /\
  (open_count s = 0%nat -> snd (ServerLife.step s OShutdown) = BRet (ok_ret s)) /\
  ((open_count s > 0)%nat ->
   snd (ServerLife.step s OShutdown) = BPending /\
   (forall l, has_expire l = false ->
      let s'' := run_st s' l in
      (sd_pending s'' = true /\ (open_count s'' > 0)%nat /\
       snd (ServerLife.step s'' OExpire) = BShutdownRet RCtxErr) \/
      (sd_pending s'' = false /\ open_count s'' = 0%nat /\
       In (BShutdownRet (ok_ret s)) (snd (ServerLife.run s' l)) /\
       ~ In (BShutdownRet RCtxErr) (snd (ServerLife.run s' l))))) /\
  (forall l o, (o = OClose \/ o = OShutdown) ->
               snd (ServerLife.step (run_st s' l) o) = BRet RServerClosed).
Proof.
  intros s Hr. apply shutdown_stops, reachable_inv, Hr.
Qed.
Print Assumptions C20_shutdown.

Theorem C20_accept_errors :
  forall s l, reachable s -> serving s = true -> forallb is_temp_or_conn l = true ->
  let s' := run_st s l in
  serving s' = true /\ ~ (exists r, In (BServeRet r) (snd (ServerLife.run s l))) /\
  sleeps s' = sleeps s ++ delays_from (delay s) (count_temp l) /\
  Forall delay_ok (delays_from (delay s) (count_temp l)) /\
  (serving (fst (ServerLife.step s' (OAccept APerm))) = false /\
   serve_ret (fst (ServerLife.step s' (OAccept APerm))) = Some RAcceptErr) /\
  (serving (fst (ServerLife.step s' OClose)) = false /\ serve_ret (fst (ServerLife.step s' OClose)) = Some RNil) /\
  (serving (fst (ServerLife.step s' OShutdown)) = false /\ serve_ret (fst (ServerLife.step s' OShutdown)) = Some RNil).
Proof.
  intros s l Hr Hs Hl s'. assert (HI := reachable_inv s Hr).
  destruct (temp_errors_survived s l HI Hs Hl) as (A & _ & _ & D & E). fold s' in A, D.
  assert (R := fun o => serve_returns_exactly s' o (ServerLifeProofs.run_inv s l HI) A).
  destruct (R (OAccept APerm)) as (P1 & P2 & _), (R OClose) as [C1 C2], (R OShutdown) as [S1 S2].
  repeat split; auto. apply delays_from_ok. exact (inv_delay s HI).
Qed.
Print Assumptions C20_accept_errors.

(* the n-th back-off delay of a fresh server is min(5 ms * 2^n, 1 s) *)
Theorem C20_backoff_shape :
  forall n,
  Forall delay_ok (delays_from 0 n) /\
  (forall k d, nth_error (delays_from 0 n) k = Some d -> d = N.min (5 * 2 ^ N.of_nat k) 1000)%N.
Proof.
  intro n. split; [apply delays_from_ok; left; reflexivity|].
  intros k d H. rewrite (delays_from_nth n 0%N k d H). apply backoff_closed_form.
Qed.
Print Assumptions C20_backoff_shape.
