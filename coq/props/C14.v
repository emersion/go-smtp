(* C14 - envelope and options survive the client-to-server trip unchanged.

   Models: Client.v (Client.Mail / Client.Rcpt parameter rendering:
   mail_params, rcpt_params, mail_line, rcpt_line, format_rfc3339 =
   Time.Format(time.RFC3339)), Xtext.v / Utf8.v (the xtext, utf-8-addr-xtext
   and utf-8-addr-unitext encoders and decoders of conn.go), Parse.v +
   GoStrings.v (parseCmd, cutPrefixFold, the RFC 5321 path parser, parseArgs
   over strings.Fields / strings.TrimSpace with Go's Unicode white space),
   Rfc3339.v (time.Parse(time.RFC3339)), Conn.v (handleMail / handleRcpt).
   Tied to the real code by the "trip" cases (real client against real server,
   CheckTrip.v) and the per-code-point codec cases.

   1. Codecs, unbounded:
      C14_xtext_inverse            every 7-bit ASCII string
      C14_utf8_addr_*_inverse      every text over U+0020..U+007F and all
                                   non-ASCII Unicode scalar values (addr_cp)
   2. Per-parameter level, for ALL values: what the client writes for a parameter
      is decoded by the server's handler to the value given, for every
      previous option record o (so the statements compose in any order):
      ENVID (non-empty printable ASCII), AUTH (7-bit mailboxes the server's
      parser accepts whole; the empty string as AUTH=<>), RET, SMTPUTF8,
      REQUIRETLS, BODY (7BIT, 8BITMIME, BINARYMIME), SIZE (every n < 2^63 within the server's
      limit), ORCPT rfc822 / utf-8 in BOTH forms (every text over
      U+0020..U+007F and all non-ASCII scalar values, the Unicode White_Space
      code points included: the unitext form embeds them as \x{HEX} -
      C14_unitext_ws_free, C14_orcpt_unicode_space_witness; sending them raw
      was finding F29, fixed), NOTIFY (the sixteen sets
      checkNotifySet accepts - C14_notify_sets_exact), RRVS (C14_rrvs on top
      of C14_rfc3339_roundtrip: every instant whose local date is in the years
      0001..9999, every zone offset of whole minutes inside (-24h, +24h); the
      instant and the offset arrive, to the second).
   3. Line level: C14_mail_trip / C14_rcpt_trip quantify over ALL servers
      cfg, ALL client extension maps ext and ALL connection states c with
        - the server extensions the options need enabled (mail_srv/rcpt_srv),
        - their keys in ext (mail_ext / rcpt_ext; C14_ehlo_bridge +
          C14_caps_keys: the map parsed from THIS server's EHLO reply has
          them),
        - the server ready for the command (mail_state_ok / rcpt_state_ok),
      over ALL addresses in addr_ok (any octets, including non-ASCII, see
      below) or the null sender, and ALL option records in mail_dom /
      rcpt_dom: the client returns no local error, the line it writes
      (C14_client_writes_mail, C14_client_writes_rcpt) is parsed by the server into ONE backend call
      EMail / ERcpt carrying the same address and seen_mail ext o / seen_rcpt o:
      every field as given, MailOptions.Body included (seen_mail_id:
      seen_mail ext o = o whenever Body is set; C14_body: each of 7BIT /
      8BITMIME / BINARYMIME x EVERY server configuration - a server without
      EnableBINARYMIME does not offer it and the client refuses Body =
      BINARYMIME locally; C14_binarymime_data_refused: what DATA does after
      it), except that
        - an unset Body arrives as "8BITMIME" when the server offers 8BITMIME
          (the documented default of Client.Mail; seen_body),
        - OriginalRecipientType travels only with a non-empty
          OriginalRecipient, the zero RequireRecipientValidSince is "absent",
          and nanoseconds are not transmitted.
      C14_oracle_*: these are exactly the values CheckTrip's observed-behaviour
      oracle accepts.

   EXCLUDED from the domain, each with a computed witness of what happens:
     F25  addresses that are not CheckTrip.addr_simple - SP / HT / '<' / '>'
          inside, leading DQUOTE or '@', empty local part or domain - inject
          parameters (C14_address_injection_refuted).
     addr_ok is addr_simple minus the addresses the server REFUSES with 501:
          one of ( ) < > [ ] : ; \ , DQUOTE in the local part, or a trailing '@'
          (C14_addr_special_refused: nothing reaches the backend).
     Auth = "<>" literally (arrives as ""; C14_auth_brackets_refuted), Auth
          values that are not 7-bit mailboxes, negative Size
          (C14_negative_size_refused), Size above the server's limit. *)
From Smtp Require Import Bytes GoStrings Utf8 Xtext Parse Reply Rfc3339 Conn XtextProofs
                         C14Time C14Rfc3339 C14Param C14Line C14Unitext C14Proofs.
From Smtp Require Client ClientReply ClientProofs CheckTrip.
Local Open Scope char_scope.

(* 1. codecs *)

Theorem C14_xtext_inverse : forall s,
  forallb is_ascii7 s = true -> decode_xtext (encode_xtext s) = Some s.
Proof. exact xtext_roundtrip. Qed.
Print Assumptions C14_xtext_inverse.

Theorem C14_utf8_addr_xtext_inverse : forall cs,
  forallb addr_cp cs = true ->
  decode_utf8_addr_xtext (encode_utf8_addr_xtext (utf8_of_runes cs)) = Some (utf8_of_runes cs).
Proof. exact utf8_addr_xtext_roundtrip. Qed.
Print Assumptions C14_utf8_addr_xtext_inverse.

Theorem C14_utf8_addr_unitext_inverse : forall cs,
  forallb addr_cp cs = true ->
  decode_utf8_addr_xtext (encode_utf8_addr_unitext (utf8_of_runes cs)) = Some (utf8_of_runes cs).
Proof. exact utf8_addr_unitext_roundtrip. Qed.
Print Assumptions C14_utf8_addr_unitext_inverse.

Theorem C14_rfc3339_roundtrip t :
  rt_dom t ->
  parse_rfc3339 (Client.format_rfc3339 t) = Some (mkRT (rt_unix t) 0 (rt_off t)).
Proof. exact (rfc3339_roundtrip t). Qed.
Print Assumptions C14_rfc3339_roundtrip.

(* the day arithmetic of Format and Parse are inverse for EVERY day number *)
Theorem C14_civil_roundtrip z :
  let '(y, m, d) := Client.civil_from_days z in
  (1 <= m <= 12 /\ 1 <= d <= days_in m y /\ days_from_civil y m d = z
   /\ (-719162 <= z <= 2932896 -> 1 <= y <= 9999))%Z.
Proof. exact (civil_roundtrip z). Qed.
Print Assumptions C14_civil_roundtrip.

Theorem C14_size_decimal bits n :
  (n < 2 ^ bits)%N -> parse_uint bits (dec_of_N n) = POk n.
Proof. exact (parse_uint_dec_of_N bits n). Qed.
Print Assumptions C14_size_decimal.

(* 2. parameter level *)

Theorem C14_envid cfg s o bm :
  cf_dsn cfg = true -> s <> [] -> is_printable_ascii s = true ->
  mail_param cfg (bs "ENVID") (encode_xtext s) o bm = inl (set_envid o s, bm).
Proof. exact (C14Param.C14_envid cfg s o bm). Qed.
Print Assumptions C14_envid.

Theorem C14_auth_mailbox cfg mb o bm :
  forallb is_ascii7 mb = true -> parse_mailbox mb = Some (mb, []) ->
  mail_param cfg (bs "AUTH") (encode_xtext mb) o bm = inl (set_auth o (Some mb), bm).
Proof. exact (C14Param.C14_auth_mailbox cfg mb o bm). Qed.
Print Assumptions C14_auth_mailbox.

Theorem C14_auth_empty cfg o bm :
  mail_param cfg (bs "AUTH") (Client.auth_value []) o bm = inl (set_auth o (Some []), bm).
Proof. exact (C14Param.C14_auth_empty cfg o bm). Qed.
Print Assumptions C14_auth_empty.

Theorem C14_ret cfg v o bm :
  cf_dsn cfg = true -> v = bs "FULL" \/ v = bs "HDRS" ->
  mail_param cfg (bs "RET") v o bm = inl (set_ret o v, bm).
Proof. exact (C14Param.C14_ret cfg v o bm). Qed.
Print Assumptions C14_ret.

Theorem C14_smtputf8 cfg o bm :
  cf_utf8 cfg = true -> mail_param cfg (bs "SMTPUTF8") [] o bm = inl (set_utf8 o true, bm).
Proof. exact (C14Param.C14_smtputf8 cfg o bm). Qed.
Print Assumptions C14_smtputf8.

Theorem C14_requiretls cfg o bm :
  cf_requiretls cfg = true ->
  mail_param cfg (bs "REQUIRETLS") [] o bm = inl (set_requiretls o true, bm).
Proof. exact (C14Param.C14_requiretls cfg o bm). Qed.
Print Assumptions C14_requiretls.

Theorem C14_body_param cfg v o bm :
  body_value v -> (v = bs "BINARYMIME" -> cf_binarymime cfg = true) ->
  mail_param cfg (bs "BODY") v o bm = inl (set_body o v, bm || is_binarymime v).
Proof. exact (C14Param.C14_body_param cfg v o bm). Qed.
Print Assumptions C14_body_param.

Theorem C14_body_binarymime_disabled cfg o bm :
  cf_binarymime cfg = false ->
  mail_param cfg (bs "BODY") (bs "BINARYMIME") o bm
  = inr (504, (5, 5, 4), bs "BINARYMIME is not implemented")%Z.
Proof. exact (C14Param.C14_body_binarymime_disabled cfg o bm). Qed.
Print Assumptions C14_body_binarymime_disabled.

Theorem C14_size cfg n o bm :
  (n < 2 ^ 63)%N ->
  (cf_max_bytes cfg <= 0 \/ Z.of_N n <= cf_max_bytes cfg)%Z ->
  mail_param cfg (bs "SIZE") (dec_of_N n) o bm = inl (set_size o (Z.of_N n), bm).
Proof. exact (C14Param.C14_size cfg n o bm). Qed.
Print Assumptions C14_size.

Theorem C14_size_Z cfg z o bm :
  (0 <= z < 2 ^ 63)%Z ->
  (cf_max_bytes cfg <= 0 \/ z <= cf_max_bytes cfg)%Z ->
  mail_param cfg (bs "SIZE") (dec_of_Z z) o bm = inl (set_size o z, bm).
Proof. exact (C14Param.C14_size_Z cfg z o bm). Qed.
Print Assumptions C14_size_Z.

Theorem C14_orcpt_rfc822 cfg s o :
  cf_dsn cfg = true -> s <> [] -> is_printable_ascii s = true ->
  rcpt_param cfg (bs "ORCPT") (bs "RFC822;" ++ encode_xtext s) o
  = inl (set_orcpt o (bs "RFC822") s).
Proof. exact (C14Param.C14_orcpt_rfc822 cfg s o). Qed.
Print Assumptions C14_orcpt_rfc822.

Theorem C14_orcpt_utf8_unitext cfg cs o :
  cf_dsn cfg = true -> cs <> [] -> forallb addr_cp cs = true ->
  rcpt_param cfg (bs "ORCPT") (bs "UTF-8;" ++ encode_utf8_addr_unitext (utf8_of_runes cs)) o
  = inl (set_orcpt o (bs "UTF-8") (utf8_of_runes cs)).
Proof. exact (C14Param.C14_orcpt_utf8_unitext cfg cs o). Qed.
Print Assumptions C14_orcpt_utf8_unitext.

Theorem C14_orcpt_utf8_xtext cfg cs o :
  cf_dsn cfg = true -> cs <> [] -> forallb addr_cp cs = true ->
  rcpt_param cfg (bs "ORCPT") (bs "UTF-8;" ++ encode_utf8_addr_xtext (utf8_of_runes cs)) o
  = inl (set_orcpt o (bs "UTF-8") (utf8_of_runes cs)).
Proof. exact (C14Param.C14_orcpt_utf8_xtext cfg cs o). Qed.
Print Assumptions C14_orcpt_utf8_xtext.

Theorem C14_notify cfg vals o :
  cf_dsn cfg = true -> In vals notify_sets ->
  rcpt_param cfg (bs "NOTIFY") (join (bs ",") vals) o = inl (set_notify o vals).
Proof. exact (C14Param.C14_notify cfg vals o). Qed.
Print Assumptions C14_notify.

Theorem C14_notify_sets_exact vals : notify_ok vals = true <-> In vals notify_sets.
Proof. exact (notify_sets_complete vals). Qed.
Print Assumptions C14_notify_sets_exact.

Theorem C14_rrvs cfg t o :
  cf_rrvs cfg = true -> rt_dom t ->
  rcpt_param cfg (bs "RRVS") (Client.format_rfc3339 t) o
  = inl (set_rrvs o (mkRT (rt_unix t) 0 (rt_off t))).
Proof. exact (C14Param.C14_rrvs cfg t o). Qed.
Print Assumptions C14_rrvs.

(* 3. line level *)

Theorem C14_mail_trip cfg ext c from opts :
  let o := match opts with Some o => o | None => mo_zero end in
  let ps := mail_toks ext o in
  (from = [] \/ addr_ok from = true) ->
  mail_dom cfg o -> mail_srv cfg o -> mail_ext ext o -> mail_state_ok c ->
  Client.mail_params ext opts = inl ps
  /\ exists arg,
       parse_cmd (Client.mail_line from ps) = Some (bs "MAIL", arg)
       /\ exists c' w,
            handle cfg c (bs "MAIL") arg
            = (c', [EMail from (seen_mail ext o) (fst (pop_mail c)); w])
            /\ c_binarymime c' = is_binarymime (mo_body o).
Proof. exact (C14Proofs.C14_mail_trip cfg ext c from opts). Qed.
Print Assumptions C14_mail_trip.

(* the options arrive unchanged, Body included, whenever Body is set *)
Theorem C14_seen_mail_id ext o : mo_body o <> [] -> seen_mail ext o = o.
Proof. exact (C14Proofs.seen_mail_id ext o). Qed.
Print Assumptions C14_seen_mail_id.

(* MailOptions.Body: every value x every server configuration *)
Theorem C14_body cfg ext c from b :
  body_value b ->
  (from = [] \/ addr_ok from = true) -> mail_state_ok c ->
  (forall k, Client.has_ext ext k = true <-> In k (map ClientProofs.ext_key (caps cfg c))) ->
  let o := set_body mo_zero b in
  if is_binarymime b && negb (cf_binarymime cfg)
  then Client.mail_params ext (Some o) = inr Client.err_binarymime
  else exists ps arg c' w,
         Client.mail_params ext (Some o) = inl ps
         /\ parse_cmd (Client.mail_line from ps) = Some (bs "MAIL", arg)
         /\ handle cfg c (bs "MAIL") arg = (c', [EMail from o (fst (pop_mail c)); w])
         /\ c_binarymime c' = is_binarymime b.
Proof. exact (C14Proofs.C14_body cfg ext c from b). Qed.
Print Assumptions C14_body.

Theorem C14_binarymime_data_refused cfg c :
  c_binarymime c = true -> c_bdat c = None ->
  handle cfg c (bs "DATA") []
  = (c, [reply 502 (5, 5, 1)%Z (bs "DATA not allowed for BINARYMIME messages")]).
Proof. exact (C14Proofs.C14_binarymime_data_refused cfg c). Qed.
Print Assumptions C14_binarymime_data_refused.

Theorem C14_rcpt_trip cfg ext c to opts :
  let o := match opts with Some o => o | None => ro_zero end in
  let ps := rcpt_toks ext o in
  addr_ok to = true ->
  rcpt_dom o -> rcpt_srv cfg o -> rcpt_ext ext o -> rcpt_state_ok cfg c ->
  Client.rcpt_params ext opts = inl ps
  /\ exists arg,
       parse_cmd (Client.rcpt_line to ps) = Some (bs "RCPT", arg)
       /\ exists c' w,
            handle cfg c (bs "RCPT") arg
            = (c', [ERcpt to (seen_rcpt o) (fst (pop_rcpt c)); w]).
Proof. exact (C14Proofs.C14_rcpt_trip cfg ext c to opts). Qed.
Print Assumptions C14_rcpt_trip.

(* the unitext form of EVERY text of the domain contains nothing that
   strings.Fields / strings.TrimSpace (unicode.IsSpace) take for white space *)
Theorem C14_unitext_ws_free cs :
  forallb addr_cp cs = true ->
  ws_free (encode_utf8_addr_unitext (utf8_of_runes cs)) = true.
Proof. exact (unitext_ws_free cs). Qed.
Print Assumptions C14_unitext_ws_free.

Theorem C14_client_writes_mail c from opts ps e rest :
  ClientProofs.io_ready c -> Client.mail_params (Client.c_ext c) opts = inl ps ->
  ClientProofs.reads (Client.c_in c) 250 e rest ->
  Client.c_out (snd (Client.c_mail_step from opts c))
  = Client.c_out c ++ Client.mail_line from ps ++ crlf
  /\ fst (Client.c_mail_step from opts c) = Client.res_of_cerr e.
Proof. exact (C14Proofs.C14_client_writes_mail c from opts ps e rest). Qed.
Print Assumptions C14_client_writes_mail.

Theorem C14_client_writes_rcpt c to opts ps e rest :
  ClientProofs.io_ready c -> clean to -> Client.rcpt_params (Client.c_ext c) opts = inl ps ->
  ClientProofs.reads (Client.c_in c) 25 e rest ->
  Client.c_out (snd (Client.c_rcpt c to opts))
  = Client.c_out c ++ Client.rcpt_line to ps ++ crlf
  /\ fst (Client.c_rcpt c to opts) = Client.res_of_cerr e.
Proof. exact (C14Proofs.C14_client_writes_rcpt c to opts ps e rest). Qed.
Print Assumptions C14_client_writes_rcpt.

Theorem C14_ehlo_bridge cfg c domain expect rest k :
  mem_byte LF domain = false ->
  Forall (fun t => mem_byte LF t = false) (caps cfg c) ->
  exists msg e,
    ClientReply.client_read_response expect
      (write_response 250 no_ec ((bs "Hello " ++ domain) :: caps cfg c) ++ rest)
    = ((250%Z, msg, e), rest)
    /\ (ClientReply.expect_mismatch expect 250 = false -> e = ClientReply.CNil)
    /\ (Client.has_ext (Some (Client.parse_ext msg)) k = true
        <-> In k (map ClientProofs.ext_key (caps cfg c))).
Proof. exact (C14Proofs.C14_ehlo_bridge cfg c domain expect rest k). Qed.
Print Assumptions C14_ehlo_bridge.

Theorem C14_caps_keys cfg c :
  let ks := map ClientProofs.ext_key (caps cfg c) in
  In (bs "8BITMIME") ks /\ In (bs "SIZE") ks
  /\ (cf_utf8 cfg = true -> In (bs "SMTPUTF8") ks)
  /\ (c_tls c = true -> cf_requiretls cfg = true -> In (bs "REQUIRETLS") ks)
  /\ (cf_dsn cfg = true -> In (bs "DSN") ks)
  /\ (cf_rrvs cfg = true -> In (bs "RRVS") ks)
  /\ (auth_allowed cfg c = true -> (exists m ms, cf_auth cfg = Some (m :: ms)) -> In (bs "AUTH") ks)
  /\ (In (bs "BINARYMIME") ks <-> cf_binarymime cfg = true).
Proof. exact (C14Proofs.C14_caps_keys cfg c). Qed.
Print Assumptions C14_caps_keys.

Theorem C14_oracle_mail ext o :
  CheckTrip.mo_matches o (seen_mail ext o) = true.
Proof. exact (C14Proofs.C14_oracle_mail ext o). Qed.
Print Assumptions C14_oracle_mail.

Theorem C14_oracle_rcpt o :
  match ro_rrvs o with Some t => Client.rt_is_zero t = false | None => True end ->
  CheckTrip.ro_matches o (seen_rcpt o) = true.
Proof. exact (C14Proofs.C14_oracle_rcpt o). Qed.
Print Assumptions C14_oracle_rcpt.

(* outside the domain (computed in the model composition) *)

Theorem C14_address_injection_refuted :
  CheckTrip.addr_simple (bs "a@b> AUTH=<") = false
  /\ Client.valid_line (bs "a@b> AUTH=<") = true
  /\ option_map mails (trip_mail cfg_all ext_all c_ready (bs "a@b> AUTH=<") None)
     = Some [(bs "a@b", mkMO (bs "8BITMIME") 0 false false [] [] (Some []))]
  /\ CheckTrip.addr_simple (bs "r@s> NOTIFY=NEVER ORCPT=rfc822;x") = false
  /\ option_map rcpts (trip_rcpt cfg_all ext_all c_ready (bs "r@s> NOTIFY=NEVER ORCPT=rfc822;x") None)
     = Some [(bs "r@s", mkRO [bs "NEVER"] (bs "RFC822") (bs "x>") None)].
Proof. exact C14Proofs.C14_address_injection_refuted. Qed.
Print Assumptions C14_address_injection_refuted.

Theorem C14_addr_special_refused :
  CheckTrip.addr_simple (bs "a(b@c") = true /\ addr_ok (bs "a(b@c") = false
  /\ trip_rcpt cfg_all ext_all c_ready (bs "a(b@c") None = Some [syntax_rcpt]
  /\ CheckTrip.addr_simple (bs "a@b@") = true /\ addr_ok (bs "a@b@") = false
  /\ trip_rcpt cfg_all ext_all c_ready (bs "a@b@") None = Some [syntax_rcpt]
  /\ trip_mail cfg_all ext_all c_ready (bs "a,b@c") None = Some [syntax_mail].
Proof. exact C14Proofs.C14_addr_special_refused. Qed.
Print Assumptions C14_addr_special_refused.

Theorem C14_auth_brackets_refuted :
  parse_mailbox (bs "<>") = None
  /\ option_map mails (trip_mail cfg_all ext_all c_ready (bs "a@b")
                         (Some (mkMO [] 0 false false [] [] (Some (bs "<>")))))
     = Some [(bs "a@b", mkMO (bs "8BITMIME") 0 false false [] [] (Some []))].
Proof. exact C14Proofs.C14_auth_brackets_refuted. Qed.
Print Assumptions C14_auth_brackets_refuted.

Theorem C14_negative_size_refused :
  option_map mails (trip_mail cfg_all ext_all c_ready (bs "a@b")
                      (Some (mkMO [] (-1) false false [] [] None))) = Some [].
Proof. exact C14Proofs.C14_negative_size_refused. Qed.
Print Assumptions C14_negative_size_refused.

(* non-vacuity: the hypotheses of both trip theorems hold for an envelope that
   uses every option at once (non-ASCII addresses, both ORCPT forms), and the
   computed composition gives what the theorems say *)
Example C14_mail_trip_witness :
  addr_ok from_ex = true /\ mail_dom cfg_all mo_ex /\ mail_srv cfg_all mo_ex
  /\ mail_ext ext_all mo_ex /\ mail_state_ok c_ready
  /\ option_map mails (trip_mail cfg_all ext_all c_ready from_ex (Some mo_ex))
     = Some [(from_ex, seen_mail ext_all mo_ex)]
  /\ (let o := set_body mo_ex (bs "BINARYMIME") in
      mail_dom cfg_all o /\ mail_srv cfg_all o /\ mail_ext ext_all o /\ seen_mail ext_all o = o
      /\ option_map mails (trip_mail cfg_all ext_all c_ready from_ex (Some o)) = Some [(from_ex, o)]).
Proof. exact C14Proofs.C14_mail_trip_ex. Qed.

(* non-vacuity of C14_body: its hypothesis on ext holds for the maps parsed from
   the EHLO replies of a server with and one without BINARYMIME, and the
   computed composition gives what it says for every value *)
Example C14_body_ext_witness :
  (forall k, Client.has_ext ext_all k = true
             <-> In k (map ClientProofs.ext_key (caps cfg_all c_ready)))
  /\ (forall k, Client.has_ext ext_nobin k = true
                <-> In k (map ClientProofs.ext_key (caps cfg_nobin c_ready))).
Proof. exact C14Proofs.C14_body_ext_ex. Qed.

Example C14_body_witness :
  let body b := mkMO b 0 false false [] [] None in
  let trip cfg ext b := option_map mails (trip_mail cfg ext c_ready (bs "a@b") (Some (body b))) in
  trip cfg_all ext_all (bs "7BIT") = Some [(bs "a@b", body (bs "7BIT"))]
  /\ trip cfg_all ext_all (bs "8BITMIME") = Some [(bs "a@b", body (bs "8BITMIME"))]
  /\ trip cfg_all ext_all (bs "BINARYMIME") = Some [(bs "a@b", body (bs "BINARYMIME"))]
  /\ trip cfg_nobin ext_nobin (bs "7BIT") = Some [(bs "a@b", body (bs "7BIT"))]
  /\ trip cfg_nobin ext_nobin (bs "8BITMIME") = Some [(bs "a@b", body (bs "8BITMIME"))]
  /\ Client.mail_params ext_nobin (Some (body (bs "BINARYMIME"))) = inr Client.err_binarymime
  /\ Client.mail_params ext_all (Some (body (bs "binarymime"))) = inr Client.err_body
  /\ trip cfg_all ext_all [] = Some [(bs "a@b", body (bs "8BITMIME"))]
  /\ option_map mails (trip_mail cfg_all ext_all c_ready (bs "a@b") None)
     = Some [(bs "a@b", body (bs "8BITMIME"))].
Proof. exact C14Proofs.C14_body_ex. Qed.

Example C14_rcpt_trip_witness :
  addr_ok from_ex = true /\ rcpt_dom ro_ex /\ rcpt_srv cfg_all ro_ex
  /\ rcpt_ext ext_all ro_ex /\ rcpt_state_ok cfg_all c_ready
  /\ rcpt_ext ext_noutf8 ro_ex /\ rcpt_srv cfg_noutf8 ro_ex
  /\ option_map rcpts (trip_rcpt cfg_all ext_all c_ready from_ex (Some ro_ex))
     = Some [(from_ex, seen_rcpt ro_ex)]
  /\ option_map rcpts (trip_rcpt cfg_noutf8 ext_noutf8 c_ready from_ex (Some ro_ex))
     = Some [(from_ex, seen_rcpt ro_ex)]
  /\ Client.rcpt_params ext_all (Some ro_ex) <> Client.rcpt_params ext_noutf8 (Some ro_ex).
Proof. exact C14Proofs.C14_rcpt_trip_ex. Qed.

(* formerly F29: ORCPT=UTF-8 containing each of the nineteen non-ASCII
   White_Space code points (at the start, inside, at the end) arrives
   unchanged, with and without SMTPUTF8 *)
Example C14_orcpt_unicode_space_witness :
  let nbsp := [b 194; b 160] in
  Client.rcpt_params ext_all (Some (mkRO [] (bs "UTF-8") (bs "x@y" ++ nbsp) None))
  = inl [bs "ORCPT=UTF-8;x@y\x{A0}"]
  /\ option_map rcpts (trip_rcpt cfg_all ext_all c_ready (bs "r@s")
                         (Some (mkRO [] (bs "UTF-8") (bs "x@y" ++ nbsp) None)))
     = Some [(bs "r@s", mkRO [] (bs "UTF-8") (bs "x@y" ++ nbsp) None)]
  /\ option_map rcpts (trip_rcpt cfg_all ext_all c_ready (bs "r@s")
                         (Some (mkRO [] (bs "UTF-8") (bs "x" ++ nbsp ++ bs "y@z") None)))
     = Some [(bs "r@s", mkRO [] (bs "UTF-8") (bs "x" ++ nbsp ++ bs "y@z") None)]
  /\ option_map rcpts (trip_rcpt cfg_noutf8 ext_noutf8 c_ready (bs "r@s")
                         (Some (mkRO [] (bs "UTF-8") (bs "x@y" ++ nbsp) None)))
     = Some [(bs "r@s", mkRO [] (bs "UTF-8") (bs "x@y" ++ nbsp) None)]
  /\ forallb (fun cp =>
        let o := mkRO [] (bs "UTF-8") (utf8_of_runes [cp; 120; cp; 64; 121; cp]%N) None in
        let arrives cfg ext :=
          match option_map rcpts (trip_rcpt cfg ext c_ready (bs "r@s") (Some o)) with
          | Some [(to, o')] => bytes_eqb to (bs "r@s") && CheckTrip.ro_matches o o'
          | _ => false
          end in
        arrives cfg_all ext_all && arrives cfg_noutf8 ext_noutf8) uspace_cps = true.
Proof. exact C14Proofs.C14_orcpt_unicode_space_ex. Qed.
