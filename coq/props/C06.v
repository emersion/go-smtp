(* C06 - MaxMessageBytes bounds what the backend is handed and what is
   accepted.  READER-LEVEL part for DATA (BDAT and SIZE= are separate).

   For every limit lim > 0, every transport state t (buffered octets + ANY
   schedule of future raw reads and failures) on which the line limiter stays
   quiet, and every list of backend read-buffer sizes:
   * C06_data_bound: the backend never obtains more than lim octets - for
     EVERY stream (complete or not) and also when it stops early (any stop);
   * C06_data_complete: for a stream holding a complete message [body]
     (per the specification [unstuff]) read to the end:
       |body| <= lim (INCLUDING |body| = lim, found through the one-octet
       probe): exactly [body], then io.EOF, transport behind the end marker;
       |body| > lim: exactly the first lim octets, then ErrDataTooLarge;
   * C06_data_same_as_unlimited: within the limit the run equals the run of
     the reader without limit (any other read sizes): same octets, same EOF,
     same transport position;
   * C06_data_exceeded: above the limit: first lim octets, ErrDataTooLarge,
     never io.EOF.
   * C06_data_bound_reading_on: a backend that goes on reading after reads
     that ended in a transport failure (a time-out inside the message: the
     Read hands out the octets it has TOGETHER with the error; the backend
     extends its deadline and reads on - ReadRetry.v), any number of times,
     still obtains at most lim octets - for every transport state and
     schedule, WITHOUT the hypothesis that the line limiter stays quiet.
   (That the command stream still resumes behind the end marker after
   ErrDataTooLarge is C02_resume.) *)
From Smtp Require Import Bytes Transport DataReader DotSpec DataProofs DataProofs2 ReadRetry ReadRetryProofs.

Theorem C06_data_bound (lim : Z) (sizes : list nat) (stop : option N) (t : transport) :
  (0 < lim)%Z -> transparent t ->
  let '(out, e, d', t') := backend_reads sizes stop (new_data_reader lim) t in
  (Z.of_nat (List.length out) <= lim)%Z.
Proof.
  intros HN Htr. pose proof (backend_reads_prefix lim sizes stop t Htr) as H.
  destruct (backend_reads sizes stop (new_data_reader lim) t) as [[[out e] d'] t'].
  apply H, HN.
Qed.
Print Assumptions C06_data_bound.

Theorem C06_data_complete (lim : Z) (sizes : list nat) (t : transport) body rest :
  (0 < lim)%Z -> transparent t ->
  unstuff (tstream t) = Complete body rest ->
  let '(out, e, d', t') := backend_reads sizes None (new_data_reader lim) t in
  if (Z.of_nat (List.length body) <=? lim)%Z
  then out = body /\ e = Some REOF /\ tstream t' = rest /\ transparent t' /\
       tterm t' = tterm t /\ t_limit t' = t_limit t
  else out = firstn (Z.to_nat lim) body /\ e = Some RTooLarge /\ d_n d' = (-1)%Z.
Proof. exact (data_limit_complete lim sizes t body rest). Qed.
Print Assumptions C06_data_complete.

Theorem C06_data_same_as_unlimited (lim : Z) (sizes sizes0 : list nat) (t : transport) body rest :
  (0 < lim)%Z -> transparent t ->
  unstuff (tstream t) = Complete body rest ->
  (Z.of_nat (List.length body) <= lim)%Z ->
  let '(out, e, d', t') := backend_reads sizes None (new_data_reader lim) t in
  let '(out0, e0, d0', t0') := backend_reads sizes0 None (new_data_reader 0) t in
  out = out0 /\ e = e0 /\ out = body /\ e = Some REOF /\
  tstream t' = tstream t0' /\ tstream t' = rest /\ transparent t' /\
  tterm t' = tterm t /\ t_limit t' = t_limit t.
Proof.
  intros HN Htr Hc Hle.
  pose proof (C06_data_complete lim sizes t body rest HN Htr Hc) as H1.
  pose proof (data_byte_exact t sizes0 Htr) as H0. rewrite Hc in H0.
  destruct (backend_reads sizes None (new_data_reader lim) t) as [[[out e] d'] t'].
  destruct (backend_reads sizes0 None (new_data_reader 0) t) as [[[out0 e0] d0'] t0'].
  apply Z.leb_le in Hle. rewrite Hle in H1.
  destruct H1 as (A & B & C & D & E & F). destruct H0 as (A0 & B0 & C0 & _).
  subst. auto 12.
Qed.
Print Assumptions C06_data_same_as_unlimited.

Theorem C06_data_exceeded (lim : Z) (sizes : list nat) (t : transport) body rest :
  (0 < lim)%Z -> transparent t ->
  unstuff (tstream t) = Complete body rest ->
  (lim < Z.of_nat (List.length body))%Z ->
  let '(out, e, d', t') := backend_reads sizes None (new_data_reader lim) t in
  out = firstn (Z.to_nat lim) body /\ Z.of_nat (List.length out) = lim /\
  e = Some RTooLarge /\ e <> Some REOF.
Proof.
  intros HN Htr Hc Hgt.
  pose proof (C06_data_complete lim sizes t body rest HN Htr Hc) as H1.
  destruct (backend_reads sizes None (new_data_reader lim) t) as [[[out e] d'] t'].
  apply Z.leb_gt in Hgt. rewrite Hgt in H1. destruct H1 as (-> & -> & _).
  apply Z.leb_gt in Hgt. rewrite firstn_length. repeat split; [lia|discriminate].
Qed.
Print Assumptions C06_data_exceeded.

(* non-vacuity: a 5-octet message under limits 6, 5 (exact fit: accepted), 4
   and 1 on a two-segment schedule under a line limit *)
Example C06_witness :
  transparent wit_t /\
  unstuff (tstream wit_t) = Complete (bs "abc" ++ [CR; LF]) (bs "NOOP" ++ [CR; LF]) /\
  wit_run 6 [3] None = (bs "abc" ++ [CR; LF], Some REOF, 1%Z, Some REOF, bs "NOOP" ++ [CR; LF]) /\
  wit_run 5 [3] None = (bs "abc" ++ [CR; LF], Some REOF, 0%Z, Some REOF, bs "NOOP" ++ [CR; LF]) /\
  wit_run 4 [3] None = (bs "abc" ++ [CR], Some RTooLarge, (-1)%Z, Some REOF, bs "NOOP" ++ [CR; LF]) /\
  wit_run 1 [7] None = (bs "a", Some RTooLarge, (-1)%Z, Some REOF, bs "NOOP" ++ [CR; LF]).
Proof. vm_compute. repeat split; reflexivity. Qed.

Theorem C06_data_bound_reading_on (lim : Z) (sizes : list nat) (stop : option N) (retry : nat) (t : transport) :
  (0 < lim)%Z ->
  let '(out, e, d', t') := backend_reads_retry sizes stop retry (new_data_reader lim) t in
  (Z.of_nat (List.length out) <= lim)%Z.
Proof.
  intros Hlim. unfold backend_reads_retry. rewrite (new_data_reader_pos lim Hlim).
  destruct (be_read_retry _ _ _ _ _ _ _ _) as [[[out e] d'] t'] eqn:H.
  apply be_read_retry_budget in H; [|reflexivity|intros _; cbn; lia].
  cbn [d_n List.length] in H. lia.
Qed.
Print Assumptions C06_data_bound_reading_on.
