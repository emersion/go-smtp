(* C16 - a message written through the client arrives intact at a go-smtp backend.

   (1) Body: for EVERY body in which CR occurs only as part of CRLF, EVERY
       partition of it into Write calls (the dot-writer's state is threaded
       through the calls), EVERY following octets: the line-wise dot-unstuffing
       specification applied to what the client's DotWriter puts on the wire
       yields exactly normalise(body) - bare LF turned into CRLF, a final CRLF
       ensured, lines beginning with '.' intact, nothing cut at embedded
       end-of-data look-alikes - and stops exactly at the writer's end
       (C16_roundtrip, C16_partition_independent; C16_already_canonical: a body
       already in wire form arrives unchanged).  Composed with the server's
       DATA reader (C01): for every network segmentation and every backend read
       size the backend reads normalise(body) then EOF and the command stream
       resumes behind the message (C16_backend_reads).
   (2) Close: returns the server's verdict (C16_close_verdict_smtp/_lmtp) and a
       second Close writes nothing and returns an error (C16_close_twice) -
       theorems about the client model Client.v, tied to client.go by the cli
       correspondence; the composition client <-> server is additionally run on
       the real implementations by the trip cases of this check.
   The envelope half (sender and recipients arrive as given) is C14. *)
From Smtp Require Import Bytes Transport DataReader DotSpec TransportProofs DataProofs DotWriter DotWriterProofs C16Proofs DotSpecOrder DotWriterOrder.

Theorem C16_roundtrip : forall parts tail, cr_only_in_crlf (List.concat parts) = true ->
  unstuff (dot_write_all parts ++ tail) = Complete (normalise (List.concat parts)) tail.
Proof. exact dot_roundtrip_parts. Qed.
Print Assumptions C16_roundtrip.

Theorem C16_partition_independent :
  forall parts, dot_write_all parts = dot_write_all [List.concat parts].
Proof. exact dot_write_partition_independent. Qed.
Print Assumptions C16_partition_independent.

Theorem C16_framed_for_any_body : forall parts tail,
  unstuff (dot_write_all parts ++ tail) = Complete (dw_received (List.concat parts)) tail.
Proof. exact dot_roundtrip_parts_any. Qed.
Print Assumptions C16_framed_for_any_body.

(* for EVERY body, also one with bare CRs (outside the domain of C16_roundtrip):
   the message the server side extracts from what the client wrote contains
   every octet of the body, in order: nothing is dropped or reordered (what
   is added, CRs and LFs, is said by [dw_received]) *)
Theorem C16_nothing_dropped : forall parts tail,
  exists received,
    unstuff (dot_write_all parts ++ tail) = Complete received tail /\
    subseq (List.concat parts) received.
Proof. exact dot_write_nothing_dropped. Qed.
Print Assumptions C16_nothing_dropped.

Theorem C16_already_canonical : forall body tail,
  cr_only_in_crlf body = true -> lf_only_in_crlf false body = true -> ends_with crlf body = true ->
  unstuff (dot_write_all [body] ++ tail) = Complete body tail.
Proof. exact dot_roundtrip_exact. Qed.
Print Assumptions C16_already_canonical.

Theorem C16_backend_reads (t : transport) (parts : list bytes) (tail : bytes) (sizes : list nat) :
  transparent t ->
  tstream t = dot_write_all parts ++ tail ->
  cr_only_in_crlf (List.concat parts) = true ->
  let '(out, e, d', t') := backend_reads sizes None (new_data_reader 0) t in
  out = normalise (List.concat parts) /\ e = Some REOF /\ tstream t' = tail /\ transparent t'.
Proof.
  intros Htr Hs Hcr. pose proof (client_message_framed t parts tail sizes Htr Hs) as H.
  destruct (backend_reads sizes None (new_data_reader 0) t) as [[[out e] d'] t'].
  rewrite <- (norm_w_normalise _ Hcr). exact H.
Qed.
Print Assumptions C16_backend_reads.

Theorem C16_backend_gets_every_octet (t : transport) (parts : list bytes) (tail : bytes) (sizes : list nat) :
  transparent t ->
  tstream t = dot_write_all parts ++ tail ->
  let '(out, e, d', t') := backend_reads sizes None (new_data_reader 0) t in
  subseq (List.concat parts) out /\ e = Some REOF /\ tstream t' = tail.
Proof. exact (client_message_nothing_dropped t parts tail sizes). Qed.
Print Assumptions C16_backend_gets_every_octet.

(* non-vacuity: a body with a bare LF, a dot line and an end-of-data look-alike, written in three pieces *)
Example C16_witness :
  let parts := [bs "a" ++ [LF] ++ bs ".b"; [CR; LF] ++ bs "." ++ [CR]; [LF] ++ bs "c"] in
  cr_only_in_crlf (List.concat parts) = true /\
  unstuff (dot_write_all parts ++ bs "NOOP") =
    Complete (bs "a" ++ [CR; LF] ++ bs ".b" ++ [CR; LF] ++ bs "." ++ [CR; LF] ++ bs "c" ++ [CR; LF]) (bs "NOOP").
Proof. vm_compute. split; reflexivity. Qed.

(* The client half: Close.  From here on [dw_close] is Client.v's, which
   shadows the dot-writer's. *)
From Smtp Require Import Reply ClientReply Client ClientProofs.

Theorem C16_close_twice : forall c r c1,
  (exists d, c_dw c = Some d) -> dw_close c = (r, c1) ->
  dw_close c1 = (RLocal err_closed_twice, c1) /\ c_out (snd (dw_close c1)) = c_out c1.
Proof. exact ClientProofs.C16_close_twice. Qed.

Theorem C16_close_verdict_smtp : forall c cb e rest,
  writing c cb -> c_lmtp c = false -> reads (c_in c) 250 e rest ->
  fst (dw_close c) = res_of_cerr e /\ c_in (snd (dw_close c)) = rest.
Proof. exact ClientProofs.C16_close_verdict_smtp. Qed.

Theorem C16_close_verdict_lmtp : forall c vs rest,
  writing c false -> c_lmtp c = true ->
  serves250 (c_in c) vs rest -> List.length vs = List.length (c_rcpts c) ->
  fst (dw_close c) = first_neg RNil vs
  /\ (fst (dw_close c) = RNil <-> Forall (fun v => v = RNil) vs)
  /\ c_in (snd (dw_close c)) = rest.
Proof. exact ClientProofs.C16_close_verdict_lmtp. Qed.

Print Assumptions C16_close_twice.
Print Assumptions C16_close_verdict_smtp.
Print Assumptions C16_close_verdict_lmtp.
