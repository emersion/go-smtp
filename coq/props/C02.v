(* C02 - only CRLF.CRLF ends DATA; commands resume exactly after it.
   Reader-level part, and (at the end) the server's handle_data.

   Specification side, about [unstuff] alone, for every octet string s:
   * C02_marker_first: if the data is complete, the stream is
     pre ++ ".CRLF" ++ rest where pre is empty or ends in CRLF (the marker
     stands at a line start), rest is exactly what [unstuff] leaves, and no
     shorter pre' of that shape exists - the data ends at the FIRST
     CRLF.CRLF and nowhere else;
   * C02_complete_iff / C02_lookalikes: a stream completes iff it starts with
     ".CRLF" or contains "CRLF.CRLF"; so a stream without those never ends
     the data; C02_no_cr_never_ends: in particular a stream without any CR;
   * C02_lookalike_*: for all CR/LF-free texts a, b (not starting with a dot)
     and every rest: a ++ LF.LF / LF.CRLF / CRLF.LF / CR.CR ++ b does not end
     the data; followed by a real CRLF.CRLF the data ends exactly there, with
     the look-alike's octets delivered as message content.

   Model side, about the DATA reader, for every size limit mx (0 or less =
   none, or any positive number), every transport state t (buffered octets +
   ANY schedule of future raw reads and failures) on which the line limiter
   stays quiet, every list of backend read-buffer sizes, and every stopping
   point of the backend (stop = None: reads until the reader stops it;
   Some k: stops by itself once it holds k octets - k = 0: reads nothing):
   * C02_reads_prefix: what the backend holds is a prefix of the specified
     body (within the limit), the backend stops by itself only when asked;
   * C02_drain_from_any_state: handleData's drain (limited := false;
     io.Copy(Discard, r)) from ANY reader state - any automaton state, budget
     exhausted (d_n = 0), after ErrDataTooLarge (d_n = -1), already at EOF -
     ends with io.EOF and the transport exactly behind the end marker if the
     rest of the stream completes the message, and otherwise with the
     schedule's failure after consuming the whole stream;
   * C02_resume: after backend + drain the transport's stream is exactly
     [rest] - the command stream resumes at the first octet after the end
     marker whether the backend read all, part or none of the message and
     whether or not the message exceeded the limit; the line limit and the
     schedule's final failure are untouched;
   * C02_resume_from: the same from any reader state whose remaining
     specification is Complete (used for LMTP's copies of the drain);
   * C02_incomplete: if the stream holds no complete message, the first
     failing Read (the backend's or the drain's) reports the schedule's
     failure, and by then all of the stream is consumed.

   Server side, about handle_data of the connection model (finding F30,
   repaired), for every configuration (SMTP, LMTP, LMTP with a per-recipient
   backend; any size limit), every connection state in which DATA is answered
   354, every backend plan and every network schedule:
   * C02_failed_drain_closes: if the drain that follows the backend's return
     ends with anything but io.EOF - the end marker has NOT been reached: the
     stream ended, a read failed and nothing complete followed, or the read
     deadline had expired (then every read fails until the command loop arms
     the deadline again) - the state handle_data returns is closed (flag and
     socket), its session logged out, and the command loop run on that state
     with ANY remaining input does nothing but the deferred Close: no octet
     of the rest of the message is ever read as a command (cf. C08
     "nothing after Close").
   * C02_drained_resumes: conversely, the drain reached the end marker and
     nothing panicked: the connection stays as open as it was and the next
     command is read from the transport the drain left, whose stream is
     exactly what follows the marker (C02_resume).
   * C02_cut_closes: the instance for an interrupted connection: no complete
     message in the stream and nothing behind the failure that ends it. *)
From Smtp Require Import Bytes Transport DataReader DotSpec DataProofs DataProofs2
  Conn BdatProofs CloseProofs.

Theorem C02_marker_first s body rest :
  unstuff s = Complete body rest ->
  exists pre, s = pre ++ end_marker ++ rest /\ ends_crlf pre /\
    forall pre' x, s = pre' ++ end_marker ++ x -> ends_crlf pre' ->
                   List.length pre <= List.length pre'.
Proof. exact (unstuff_marker_first s body rest). Qed.
Print Assumptions C02_marker_first.

Theorem C02_complete_iff s :
  (exists body rest, unstuff s = Complete body rest) <->
  (exists pre x, s = pre ++ end_marker ++ x /\ ends_crlf pre).
Proof.
  split.
  - intros (body & rest & H). destruct (C02_marker_first _ _ _ H) as (pre & Hs & Hp & _). eauto.
  - intros (pre & x & -> & Hp). destruct (marker_completes pre x Hp) as (b & r & H). eauto.
Qed.
Print Assumptions C02_complete_iff.

Theorem C02_lookalikes s :
  (forall x, s <> end_marker ++ x) ->
  (forall p x, s <> p ++ [CR; LF] ++ end_marker ++ x) ->
  exists body, unstuff s = Incomplete body.
Proof. exact (unstuff_lookalikes s). Qed.
Print Assumptions C02_lookalikes.

Theorem C02_no_cr_never_ends s :
  nocrb s = true -> exists body, unstuff s = Incomplete body.
Proof.
  intros H. rewrite unstuff_unfold.
  destruct (is_marker s) as [r|] eqn:Em.
  - apply is_marker_some in Em. subst s. cbn in H. discriminate.
  - assert (Hs : nocrb (strip_dot s) = true).
    { destruct s as [|c s]; [reflexivity|]. cbn [strip_dot].
      destruct (Ascii.eqb c DOT); [|exact H]. cbn [nocrb forallb] in H.
      apply andb_true_iff in H as [_ H]. exact H. }
    rewrite <- (app_nil_r (strip_dot s)), mid_nocr_app by exact Hs. cbn. eauto.
Qed.
Print Assumptions C02_no_cr_never_ends.

Theorem C02_lookalike_lf_dot_lf a b rest :
  plainb a = true -> plainb b = true -> no_lead_dot a ->
  unstuff (a ++ [LF; DOT; LF] ++ b ++ [CR; LF] ++ end_marker ++ rest)
  = Complete (a ++ [LF; DOT; LF] ++ b ++ [CR; LF]) rest.
Proof.
  intros Ha Hb Hd. cbn [app]. rewrite unstuff_text by auto.
  rewrite !mid_other by reflexivity. rewrite (mid_last_line b rest Hb). reflexivity.
Qed.
Print Assumptions C02_lookalike_lf_dot_lf.

Theorem C02_lookalike_lf_dot_crlf a b rest :
  plainb a = true -> plainb b = true -> no_lead_dot a -> no_lead_dot b ->
  unstuff (a ++ [LF; DOT; CR; LF] ++ b ++ [CR; LF] ++ end_marker ++ rest)
  = Complete (a ++ [LF; DOT; CR; LF] ++ b ++ [CR; LF]) rest.
Proof.
  intros Ha Hb Hd Hdb. cbn [app]. rewrite unstuff_text by auto.
  rewrite !mid_other by reflexivity. rewrite mid_crlf, unstuff_text by auto.
  rewrite <- (mid_plain_app b) by exact Hb. rewrite (mid_last_line b rest Hb). reflexivity.
Qed.
Print Assumptions C02_lookalike_lf_dot_crlf.

Theorem C02_lookalike_crlf_dot_lf a b rest :
  plainb a = true -> plainb b = true -> no_lead_dot a ->
  unstuff (a ++ [CR; LF; DOT; LF] ++ b ++ [CR; LF] ++ end_marker ++ rest)
  = Complete (a ++ [CR; LF; LF] ++ b ++ [CR; LF]) rest.
Proof.
  intros Ha Hb Hd. cbn [app]. rewrite unstuff_text by auto. rewrite mid_crlf.
  (* the dot at the line start is removed like any leading dot *)
  rewrite unstuff_unfold, is_marker_dot_nocr by reflexivity. cbn [strip_dot]. rewrite Ascii.eqb_refl.
  rewrite mid_other by reflexivity. rewrite (mid_last_line b rest Hb). reflexivity.
Qed.
Print Assumptions C02_lookalike_crlf_dot_lf.

Theorem C02_lookalike_cr_dot_cr a b rest :
  plainb a = true -> plainb b = true -> no_lead_dot a ->
  unstuff (a ++ [CR; DOT; CR] ++ b ++ [CR; LF] ++ end_marker ++ rest)
  = Complete (a ++ [CR; DOT; CR] ++ b ++ [CR; LF]) rest.
Proof.
  intros Ha Hb Hd. cbn [app]. rewrite unstuff_text by auto.
  rewrite mid_CR, midCR_nonLF, mid_other, mid_CR by reflexivity.
  rewrite midCR_plain by exact Hb. rewrite (mid_last_line b rest Hb). reflexivity.
Qed.
Print Assumptions C02_lookalike_cr_dot_cr.

Theorem C02_lookalikes_never_complete a b :
  plainb a = true -> plainb b = true -> no_lead_dot a -> no_lead_dot b ->
  (exists body, unstuff (a ++ [LF; DOT; LF] ++ b) = Incomplete body) /\
  (exists body, unstuff (a ++ [LF; DOT; CR; LF] ++ b) = Incomplete body) /\
  (exists body, unstuff (a ++ [CR; LF; DOT; LF] ++ b) = Incomplete body) /\
  (exists body, unstuff (a ++ [CR; DOT; CR] ++ b) = Incomplete body).
Proof.
  intros Ha Hb Hd Hdb.
  repeat split; (eapply incomplete_before_marker; rewrite <- !app_assoc);
    [apply C02_lookalike_lf_dot_lf|apply C02_lookalike_lf_dot_crlf
    |apply C02_lookalike_crlf_dot_lf|apply C02_lookalike_cr_dot_cr]; assumption.
Qed.
Print Assumptions C02_lookalikes_never_complete.

Theorem C02_reads_prefix (mx : Z) (sizes : list nat) (stop : option N) (t : transport) :
  transparent t ->
  let '(out, e, d', t') := backend_reads sizes stop (new_data_reader mx) t in
  (exists w, dres_body (unstuff (tstream t)) = out ++ w) /\
  ((0 < mx)%Z -> (Z.of_nat (List.length out) <= mx)%Z) /\
  (e = None -> exists k, stop = Some k /\ (k <= blen out)%N) /\
  t_limit t' = t_limit t.
Proof. exact (backend_reads_prefix mx sizes stop t). Qed.
Print Assumptions C02_reads_prefix.

Theorem C02_drain_from_any_state (d : dreader) (t : transport) :
  transparent t ->
  let '(de, d2, t2) := dr_drain d t in
  d_limited d2 = false /\ d_n d2 = d_n d /\ t_limit t2 = t_limit t /\
  match spec_of (d_state d) (tstream t) with
  | Complete _ rest =>
      de = Some REOF /\ d_state d2 = SEOF /\ tstream t2 = rest /\ transparent t2 /\
      tterm t2 = tterm t /\ raws_after (t_raw t2) = raws_after (t_raw t)
  | Incomplete _ =>
      de = Some (rerr_of_terr (tterm t)) /\ d_state d2 <> SEOF /\
      t_buf t2 = [] /\ t_raw t2 = raws_after (t_raw t) /\
      t_closed t2 = false /\ too_long t2 = false
  end.
Proof. exact (dr_drain_spec d t). Qed.
Print Assumptions C02_drain_from_any_state.

Theorem C02_resume (mx : Z) (sizes : list nat) (stop : option N) (t : transport) body rest :
  transparent t ->
  unstuff (tstream t) = Complete body rest ->
  let '(out, e, d1, t1) := backend_reads sizes stop (new_data_reader mx) t in
  let '(de, d2, t2) := dr_drain d1 t1 in
  tstream t2 = rest /\ transparent t2 /\ tterm t2 = tterm t /\ t_limit t2 = t_limit t /\
  raws_after (t_raw t2) = raws_after (t_raw t) /\
  de = Some REOF /\ d_state d2 = SEOF /\
  (e = None \/ e = Some REOF \/ e = Some RTooLarge).
Proof.
  intros Htr Hc. apply (drain_resume_gen sizes stop _ t body rest Htr (budget_ok_new mx)).
  rewrite new_data_reader_state. exact Hc.
Qed.
Print Assumptions C02_resume.

Theorem C02_resume_from (sizes : list nat) (stop : option N) (d : dreader) (t : transport) body rest :
  transparent t -> budget_ok d ->
  spec_of (d_state d) (tstream t) = Complete body rest ->
  let '(out, e, d1, t1) := backend_reads sizes stop d t in
  let '(de, d2, t2) := dr_drain d1 t1 in
  tstream t2 = rest /\ transparent t2 /\ tterm t2 = tterm t /\ t_limit t2 = t_limit t /\
  raws_after (t_raw t2) = raws_after (t_raw t) /\
  de = Some REOF /\ d_state d2 = SEOF /\
  (e = None \/ e = Some REOF \/ e = Some RTooLarge).
Proof. exact (drain_resume_gen sizes stop d t body rest). Qed.
Print Assumptions C02_resume_from.

Theorem C02_incomplete (mx : Z) (sizes : list nat) (stop : option N) (t : transport) body :
  transparent t ->
  unstuff (tstream t) = Incomplete body ->
  let '(out, e, d1, t1) := backend_reads sizes stop (new_data_reader mx) t in
  let '(de, d2, t2) := dr_drain d1 t1 in
  t_limit t1 = t_limit t /\
  ((e = Some (rerr_of_terr (tterm t)) /\ d_state d1 <> SEOF /\
    t_buf t1 = [] /\ t_raw t1 = raws_after (t_raw t) /\
    t_closed t1 = false /\ too_long t1 = false)
   \/
   ((e = None \/ e = Some RTooLarge) /\
    de = Some (rerr_of_terr (tterm t)) /\ d_state d2 <> SEOF /\
    t_buf t2 = [] /\ t_raw t2 = raws_after (t_raw t) /\ t_limit t2 = t_limit t)).
Proof.
  intros Htr Hc. apply (drain_incomplete_gen sizes stop _ t body Htr (budget_ok_new mx)).
  rewrite new_data_reader_state. exact Hc.
Qed.
Print Assumptions C02_incomplete.

Theorem C02_failed_drain_closes (cfg : config) (c : conn) :
  data_accepted c ->
  let '(p, _, (de, d2, t2)) := data_run cfg c in
  drained de = false ->
  let c' := fst (handle_data cfg c []) in
  c_closed c' = true /\ t_closed (c_t c') = true /\ c_session c' = false /\ c_bdat c' = None /\
  forall fuel, serve_loop (S fuel) cfg c' = [EClose].
Proof. exact (handle_data_failed_drain_closes cfg c). Qed.
Print Assumptions C02_failed_drain_closes.

Theorem C02_drained_resumes (cfg : config) (c : conn) :
  data_accepted c ->
  let '(p, _, (de, d2, t2)) := data_run cfg c in
  drained de = true -> dp_panic p = false -> dp_status p = [] ->
  let c' := fst (handle_data cfg c []) in
  c_closed c' = c_closed c /\ c_t c' = t2 /\ c_session c' = true /\
  c_from c' = false /\ c_rcpts c' = [] /\ c_bdat c' = None.
Proof.
  intros Ha. pose proof (handle_data_state cfg c Ha) as H.
  destruct (data_run cfg c) as [[p x] [[de d2] t2]]. destruct H as (panicked & t1 & Hp & H).
  intros Hde Hpan Hst. cbv zeta. rewrite H, (Hp Hpan Hst), Hde.
  destruct Ha as (_ & _ & _ & _ & Hse). unfold pop_data. destruct (pop _ _). cbn. auto 10.
Qed.
Print Assumptions C02_drained_resumes.

Theorem C02_cut_closes (cfg : config) (c : conn) body :
  data_accepted c -> transparent (c_t c) ->
  unstuff (tstream (c_t c)) = Incomplete body -> raws_after (t_raw (c_t c)) = [] ->
  let c' := fst (handle_data cfg c []) in
  c_closed c' = true /\ t_closed (c_t c') = true /\ c_session c' = false /\ c_bdat c' = None /\
  forall fuel, serve_loop (S fuel) cfg c' = [EClose].
Proof.
  intros Ha Htr Hinc Hra.
  pose proof (handle_data_failed_drain_closes cfg c Ha) as H. unfold data_run in H.
  pose proof (drain_incomplete_never_eof (cf_max_bytes cfg) (dp_sizes (fst (pop_data c)))
                (dp_stop (fst (pop_data c))) (c_t c) body Htr Hinc Hra) as Hd.
  destruct (backend_reads _ _ _ _) as [[[got term] d1] t1].
  destruct (dr_drain d1 t1) as [[de d2] t2].
  destruct Hd as (_ & (x & ->) & _). apply H. destruct x; reflexivity.
Qed.
Print Assumptions C02_cut_closes.

(* non-vacuity: a whole conversation.  DATA, one line of the message, then the
   read deadline expires and stays expired (two failures in a row: the
   backend's read, the drain), then the client sends the rest - a bait line,
   the end marker, NOOP, QUIT: 554 and the connection is closed, none of it
   is read.  With ONE failure the drain goes on and finds the end marker: NOOP
   and QUIT are executed, the bait line is message text. *)
Example C02_witness_failed_drain :
  let run fails := serve 40 (ex_cfg 0 2000) ex_be
                     [[xraw (f30_prelude ++ xln "DATA" ++ xln "first line")] ++ fails ++ [xraw f30_rest]] in
  let sticky := run [RFail TTimeout; RFail TTimeout] in
  let once := run [RFail TTimeout] in
  cmd_lines sticky = [bs "EHLO x"; bs "MAIL FROM:<a@b>"; bs "RCPT TO:<c@d>"; bs "DATA"] /\
  wire_codes sticky = map bs ["220"; "250"; "250"; "250"; "354"; "554"]%string /\
  has_mail "bait@evil" sticky = false /\
  skipn (List.length sticky - 3) sticky = [ELogout; EClose; EClose] /\
  cmd_lines once = [bs "EHLO x"; bs "MAIL FROM:<a@b>"; bs "RCPT TO:<c@d>"; bs "DATA"; bs "NOOP"; bs "QUIT"] /\
  wire_codes once = map bs ["220"; "250"; "250"; "250"; "354"; "554"; "250"; "221"]%string /\
  has_mail "bait@evil" once = false.
Proof. exact f30_data_witness. Qed.

(* ... and the hypotheses of the two theorems hold on the states of that
   conversation in which DATA is handled *)
Example C02_witness_failed_drain_hypotheses :
  let sticky := f30_conn [xraw (xln "first line"); RFail TTimeout; RFail TTimeout; xraw f30_rest] in
  let once := f30_conn [xraw (xln "first line"); RFail TTimeout; xraw f30_rest] in
  data_accepted sticky /\ data_accepted once /\
  (let '(_, (_, term), (de, _, _)) := data_run (ex_cfg 0 2000) sticky in (term, drained de))
  = (Some (RTransport TTimeout), false) /\
  (let '(p, (_, term), (de, _, t2)) := data_run (ex_cfg 0 2000) once in
   (term, drained de, dp_panic p, dp_status p, tstream t2))
  = (Some (RTransport TTimeout), true, false, [], xln "NOOP" ++ xln "QUIT").
Proof. exact f30_data_hypotheses. Qed.

(* non-vacuity: see DataProofs2.marker_first_witness, lookalikes_witness,
   lookalike_hyps_witness, drain_resume_witness (limits none/above/at/below the
   message size x backend reads all/2 octets/nothing, resuming at "NOOP") *)
Example C02_witness :
  transparent wit_t /\
  unstuff (tstream wit_t) = Complete (bs "abc" ++ [CR; LF]) (bs "NOOP" ++ [CR; LF]) /\
  wit_run 4 [3] None = (bs "abc" ++ [CR], Some RTooLarge, (-1)%Z, Some REOF, bs "NOOP" ++ [CR; LF]) /\
  wit_run 2 [2] (Some 2%N) = (bs "ab", None, 0%Z, Some REOF, bs "NOOP" ++ [CR; LF]) /\
  wit_run 3 [2] (Some 0%N) = ([], None, 3%Z, Some REOF, bs "NOOP" ++ [CR; LF]).
Proof. vm_compute. repeat split; reflexivity. Qed.
