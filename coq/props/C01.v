(* C01 - DATA body reaches the backend byte-exact after RFC 5321 dot-unstuffing.

   For every transport state t (octets buffered + any schedule of future raw
   reads: this is the quantification over all segmentations) on which the
   line-length limiter stays quiet, and every list of backend read-buffer
   sizes: what the backend reads from the DATA reader is exactly the
   line-wise specification [unstuff] of the octet stream - the stream up to
   its first end marker with one leading dot removed per line, every other
   octet unchanged and in order - followed by io.EOF, and the transport is
   left exactly at the octet after the marker.  If the stream has no end
   marker the reader fails with the schedule's error (never EOF) after
   delivering the specified octets (at most one withheld CR short). *)
From Smtp Require Import Bytes Transport DataReader DotSpec DataProofs DotSpecOrder.

Theorem C01_byte_exact (t : transport) (sizes : list nat) :
  transparent t ->
  let '(out, e, d', t') := backend_reads sizes None (new_data_reader 0) t in
  match unstuff (tstream t) with
  | Complete body rest =>
      out = body /\ e = Some REOF /\ tstream t' = rest /\ transparent t' /\
      tterm t' = tterm t /\ t_limit t' = t_limit t
  | Incomplete body =>
      e = Some (rerr_of_terr (tterm t)) /\
      exists w, body = out ++ w /\ List.length w <= 1
  end.
Proof. exact (data_byte_exact t sizes). Qed.
Print Assumptions C01_byte_exact.

Theorem C01_schedule_and_read_size_independent
  (t1 t2 : transport) (sizes1 sizes2 : list nat) body rest :
  transparent t1 -> transparent t2 ->
  unstuff (tstream t1) = Complete body rest -> tstream t2 = tstream t1 ->
  let '(out1, e1, _, t1') := backend_reads sizes1 None (new_data_reader 0) t1 in
  let '(out2, e2, _, t2') := backend_reads sizes2 None (new_data_reader 0) t2 in
  out1 = body /\ out2 = body /\ e1 = Some REOF /\ e2 = Some REOF /\
  tstream t1' = rest /\ tstream t2' = rest.
Proof.
  intros H1 H2 Hu Hs.
  pose proof (C01_byte_exact t1 sizes1 H1) as A.
  pose proof (C01_byte_exact t2 sizes2 H2) as B.
  rewrite Hs in B. rewrite Hu in A, B.
  destruct (backend_reads sizes1 None (new_data_reader 0) t1) as [[[o1 e1] d1] t1'].
  destruct (backend_reads sizes2 None (new_data_reader 0) t2) as [[[o2 e2] d2] t2'].
  tauto.
Qed.
Print Assumptions C01_schedule_and_read_size_independent.

(* "every other octet unchanged and in order", stated without reference to the
   specification function: whatever the schedule and the read sizes, what the
   backend has read is an order-preserving subsequence of the octets of the
   stream (nothing invented, duplicated or reordered); once it has seen
   io.EOF, of exactly the octets the reader consumed from the transport, of
   which at least three (the end marker) were not delivered. *)
Theorem C01_no_octet_invented (t : transport) (sizes : list nat) :
  transparent t ->
  let '(out, e, d', t') := backend_reads sizes None (new_data_reader 0) t in
  subseq out (tstream t) /\
  (e = Some REOF ->
   exists m, tstream t = m ++ tstream t' /\ subseq out m /\
             List.length out + 3 <= List.length m).
Proof. exact (data_no_octet_invented t sizes). Qed.
Print Assumptions C01_no_octet_invented.

(* spec level: the body plus the marker plus the unread rest never exceed the stream *)
Theorem C01_body_shorter_than_stream s body rest :
  unstuff s = Complete body rest ->
  List.length body + 3 + List.length rest <= List.length s.
Proof.
  intros H. pose proof (unstuff_ordered s) as Ho. rewrite H in Ho.
  destruct Ho as (m & Hs & _ & Hlen). rewrite Hs, app_length. lia.
Qed.
Print Assumptions C01_body_shorter_than_stream.

(* non-vacuity: a concrete two-segment schedule under a line limit satisfies
   the hypothesis, and the theorem's conclusion is the expected one *)
Example C01_witness :
  let t := mkT [] [RData "a" (bs "b" ++ [CR; LF] ++ bs ".."); RData "x" ([CR; LF] ++ bs "." ++ [CR; LF] ++ bs "NOOP")]
               0%N 10%N false in
  transparent t /\
  unstuff (tstream t) = Complete (bs "ab" ++ [CR; LF] ++ bs ".x" ++ [CR; LF]) (bs "NOOP").
Proof. cbv. repeat split; reflexivity. Qed.
