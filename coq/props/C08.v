(* C08 - each session is logged out exactly once; nothing runs after the
   connection ends.

   For EVERY configuration, backend script, network schedule (every input,
   every segmentation, every point at which the peer disconnects or a read
   fails) and fuel, about the event list of the server model (vocabulary in
   TraceProps.v; [until p l] is the part of [l] before its first element of
   class [p]):

   C08_live_until_logout: after a successful NewSession, until that session's
   Logout no other NewSession happens and the connection is not closed.
   C08_nothing_after_logout: after a Logout, until the next successful
   NewSession, nothing is called on a session: no Mail, Rcpt, Data, BdatStart,
   Reset, Auth, AuthNext, AuthOk - and no second Logout.
   C08_nothing_after_close: after the first Close (QUIT's 221, error
   threshold, too long line, timeout, read error, disconnect, backend panic)
   no command is read, no reply is written, no session is created, no
   callback and no delivery event happens: only the deferred second Close of
   handleConn, (the ghost event of) an already ongoing panic recovery, or
   the model's out-of-fuel marker can follow.
   C08_closed_logged_out: at the first Close no session is live.
   C08_ends_with_close: unless the model's loop ran out of fuel, the trace
   ends with Close (handleConn's deferred Close on every exit path).
   C08_exactly_one_logout: hence, with enough fuel, every successfully
   created session is followed by exactly one Logout, before any other
   session is created and before the connection is closed, and nothing is
   called on it afterwards.
   C08_fuel_enough and the _enough_fuel versions: the fuel bound used by the
   checker, [conv_fuel phases] = 16 + sum over the phases of (size + 4),
   always suffices (every iteration of the loop consumes at least one buffered
   octet or one raw read result, or ends the loop), so these hold with that
   bound and no further hypothesis.
   (Goroutines outliving the connection are the subject of C20's model.) *)
From Smtp Require Import Bytes Reply Conn ConnProofs TraceProps
  ConnFuel TraceExamples.

Theorem C08_live_until_logout : forall fuel cfg be phases,
  TraceProps.C08_live_until_logout (serve fuel cfg be phases).
Proof. intros fuel cfg be phases. apply (accepted_C08_live_until_logout cfg), serve_accepted_strict. Qed.
Print Assumptions C08_live_until_logout.

Theorem C08_nothing_after_logout : forall fuel cfg be phases,
  TraceProps.C08_nothing_after_logout (serve fuel cfg be phases).
Proof. intros fuel cfg be phases. apply (accepted_C08_nothing_after_logout cfg), serve_accepted_strict. Qed.
Print Assumptions C08_nothing_after_logout.

Theorem C08_nothing_after_close : forall fuel cfg be phases,
  TraceProps.C08_nothing_after_close (serve fuel cfg be phases).
Proof. exact serve_C08_nothing_after_close. Qed.
Print Assumptions C08_nothing_after_close.

Theorem C08_closed_logged_out : forall fuel cfg be phases,
  TraceProps.C08_closed_logged_out (serve fuel cfg be phases).
Proof. intros fuel cfg be phases. apply (accepted_C08_closed_logged_out cfg), serve_accepted_strict. Qed.
Print Assumptions C08_closed_logged_out.

Theorem C08_ends_with_close : forall fuel cfg be phases,
  ~ In EOutOfFuel (serve fuel cfg be phases) ->
  exists tr', serve fuel cfg be phases = tr' ++ [EClose].
Proof. exact serve_ends_with_close. Qed.
Print Assumptions C08_ends_with_close.

Theorem C08_exactly_one_logout : forall fuel cfg be phases,
  ~ In EOutOfFuel (serve fuel cfg be phases) ->
  forall pre h t post, serve fuel cfg be phases = pre ++ ENewSession h t BNil :: post ->
    exists mid rest,
      post = mid ++ ELogout :: rest
      /\ Forall (fun e => negb (is_logout e) && negb (is_ns e) && negb (is_close e) = true) mid
      /\ Forall (fun e => negb (is_session_event e) = true) (until is_ns_ok rest).
Proof.
  intros fuel cfg be phases Hf pre h t post Htr. destruct (serve_ends_with_close _ _ _ _ Hf) as [tr' Hend].
  apply (C08_exactly_one_from _ (C08_live_until_logout fuel cfg be phases)
           (C08_nothing_after_logout fuel cfg be phases) _ _ _ _ Htr).
  eapply in_post_of_last; [exact Hend|exact Htr|discriminate].
Qed.
Print Assumptions C08_exactly_one_logout.

Theorem C08_fuel_enough : forall fuel cfg be phases,
  conv_fuel phases <= fuel -> ~ In EOutOfFuel (serve fuel cfg be phases).
Proof. exact serve_fuel_enough. Qed.
Print Assumptions C08_fuel_enough.

Theorem C08_ends_with_close_enough_fuel : forall fuel cfg be phases,
  conv_fuel phases <= fuel -> exists tr', serve fuel cfg be phases = tr' ++ [EClose].
Proof. intros fuel cfg be phases Hf. apply serve_ends_with_close, serve_fuel_enough, Hf. Qed.
Print Assumptions C08_ends_with_close_enough_fuel.

Theorem C08_exactly_one_logout_enough_fuel : forall fuel cfg be phases,
  conv_fuel phases <= fuel ->
  forall pre h t post, serve fuel cfg be phases = pre ++ ENewSession h t BNil :: post ->
    exists mid rest,
      post = mid ++ ELogout :: rest
      /\ Forall (fun e => negb (is_logout e) && negb (is_ns e) && negb (is_close e) = true) mid
      /\ Forall (fun e => negb (is_session_event e) = true) (until is_ns_ok rest).
Proof. intros fuel cfg be phases Hf. apply C08_exactly_one_logout, serve_fuel_enough, Hf. Qed.
Print Assumptions C08_exactly_one_logout_enough_fuel.

(* non-vacuity: the conversation of TraceExamples.ex1 has two sessions (one
   ended by STARTTLS, one by QUIT), each with exactly one Logout, and a NOOP
   pipelined behind QUIT that is never read: nothing but the deferred Close
   follows the first Close. *)
Example C08_witness :
  map show_kind ex1_trace = ex1_shape /\ ~ In EOutOfFuel ex1_trace /\
  count is_ns_ok ex1_trace = 2%nat /\ count is_logout ex1_trace = 2%nat /\
  (exists h t, nth 2 ex1_trace EPanic = ENewSession h t BNil) /\
  map show_kind (skipn 43 ex1_trace) = ["Close"; "Close"]%string /\
  existsb (fun e => match e with ECmd l => bytes_eqb l (bs "NOOP") | _ => false end) ex1_trace = false.
Proof.
  split; [exact ex1_shape_ok|]. split; [exact ex1_fuel_ok|].
  split; [vm_compute; reflexivity|]. split; [vm_compute; reflexivity|].
  split; [do 2 eexists; vm_compute; reflexivity|].
  split; vm_compute; reflexivity.
Qed.
