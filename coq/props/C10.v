(* C10 (server half) - STARTTLS discards all plaintext state and input.

   For EVERY configuration, backend script, network schedule and fuel:
   C10_starttls_guarded: a STARTTLS handshake is attempted only in plaintext
   and only when TLS is configured.
   C10_logout_after_starttls: after a successful handshake a session that was
   live gets its Logout (not a Reset) before anything else is called on a
   session, before a new session is created, before the next command is read
   and before the connection is closed.
   C10_newsession_sees_tls (part of C03_order): the TLS flag shown to
   NewSession is the TLS state at that point - in particular [true] for every
   session created after a successful handshake.
   C10_state_erased: if the handshake succeeds (the model's [ETlsStart true]:
   the peer starts it exactly after the STARTTLS line, i.e. no raw plaintext
   is pending) the connection state afterwards is the initial one with TLS
   on: greeting name empty, no session, not authenticated, no sender, no
   recipients, no chunked transfer, and the transport is the TLS phase with an
   EMPTY buffer - plaintext octets buffered behind the STARTTLS line are
   dropped, never interpreted inside TLS.  (Un-fetched plaintext behind the
   command makes the handshake fail: [t_raw (c_t c) = []] is necessary.) *)
From Smtp Require Import Bytes Transport Reply Conn Order OrderStrict ConnProofs TraceProps ConnNoPanic
  TraceExamples.

Theorem C10_starttls_guarded : forall fuel cfg be phases,
  TraceProps.C10_starttls_guarded cfg (serve fuel cfg be phases).
Proof. intros fuel cfg be phases. apply accepted_C10_starttls_guarded, serve_accepted_strict. Qed.
Print Assumptions C10_starttls_guarded.

Theorem C10_logout_after_starttls : forall fuel cfg be phases,
  TraceProps.C10_logout_after_starttls (serve fuel cfg be phases).
Proof. intros fuel cfg be phases. apply (accepted_C10_logout_after_starttls cfg), serve_accepted_strict. Qed.
Print Assumptions C10_logout_after_starttls.

Theorem C10_newsession_sees_tls : forall fuel cfg be phases,
  TraceProps.C03_order cfg (serve fuel cfg be phases).
Proof. intros fuel cfg be phases. apply accepted_C03_order, serve_accepted_strict. Qed.
Print Assumptions C10_newsession_sees_tls.

Theorem C10_state_erased : forall cfg c,
  In (ETlsStart true) (snd (handle_starttls cfg c)) ->
  exists ph phs,
    c_phases c = ph :: phs /\ t_raw (c_t c) = [] /\ c_tls c = false /\ cf_tls_config cfg = true
    /\ fst (handle_starttls cfg c)
       = mkC (mkT [] ph 0 (cf_max_line cfg) false) phs (c_be c) [] false (c_errs c) (c_binarymime c)
             false [] false (c_closed c) true None 0%Z.
Proof. exact starttls_state_erased. Qed.
Print Assumptions C10_state_erased.

(* non-vacuity: in ex1 an authenticated plaintext session with an accepted
   MAIL is upgraded; its Logout follows the handshake at once and the session
   created afterwards sees tls = true *)
Example C10_server_witness :
  map show_kind ex1_trace = ex1_shape /\
  nth 35 ex1_trace EPanic = ETlsStart true /\ live (firstn 35 ex1_trace) = true /\
  nth 36 ex1_trace EPanic = ELogout /\
  (exists h, nth 38 ex1_trace EPanic = ENewSession h true BNil).
Proof.
  split; [exact ex1_shape_ok|]. repeat split; try (vm_compute; reflexivity).
  eexists. vm_compute. reflexivity.
Qed.

(* ---------------- client half ---------------- *)
From Smtp Require Import ClientReply Client ClientProofs.

Theorem C10_client_no_downgrade : forall c r c',
  quiet c -> c_init_starttls c = (r, c') ->
  exists ls, c_out c' = c_out c ++ lines ls /\ Forall (tls_line c) ls
    /\ (r <> RNil -> c_tls c' = c_tls c)
    /\ (r = RNil -> c_tls c' = true /\ c_did_hello c' = false).
Proof. exact ClientProofs.C10_client_no_downgrade. Qed.

Theorem C10_client_needs_offer_and_220 : forall c c',
  c_init_starttls c = (RNil, c') ->
  exists c1 c2 code msg,
    c_hello c = (RNil, c1)
    /\ has_ext (c_ext c1) (bs "STARTTLS") = true
    /\ c_cmd c1 220 (bs "STARTTLS") = ((code, msg, RNil), c2) /\ code = 220%Z
    /\ c' = switch_to_tls c2.
Proof. exact ClientProofs.C10_client_needs_offer_and_220. Qed.

Theorem C10_client_not_offered : forall c c1,
  c_hello c = (RNil, c1) -> has_ext (c_ext c1) (bs "STARTTLS") = false ->
  c_init_starttls c = (RLocal err_no_starttls, c1).
Proof. exact ClientProofs.C10_client_not_offered. Qed.

(* the plaintext input that was still unread - buffered behind the 220 in the
   same segment, or not yet received - plays no role after the switch *)
Theorem C10_client_plaintext_dropped : forall c x, switch_to_tls (set_in c x) = switch_to_tls c.
Proof. reflexivity. Qed.

Theorem C10_client_rehello : forall c c3,
  c_did_hello c = false -> c_did_greet c = true ->
  c_hello c = (RNil, c3) ->
  c_ext c3 = None
  \/ exists c1 code msg rest,
       printf_line (set_did_hello c true) (hello_verb c ++ c_local c) = (true, c1)
       /\ client_read_response 250 (c_in c) = ((code, msg, CNil), rest)
       /\ c_ext c3 = Some (parse_ext msg).
Proof. exact ClientProofs.C10_client_rehello. Qed.

Print Assumptions C10_client_no_downgrade.
Print Assumptions C10_client_needs_offer_and_220.
Print Assumptions C10_client_not_offered.
Print Assumptions C10_client_plaintext_dropped.
Print Assumptions C10_client_rehello.
