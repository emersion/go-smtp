(* C04 - one well-formed reply per command, in order, reporting its outcome.

   The server model is the function [serve fuel cfg be phases] from a
   configuration, a backend script and, per TLS phase, a schedule of raw reads
   (what every future net.Conn.Read returns: this is the quantification over
   all segmentations, lock-step or pipelined) to the list of observable events:
   [EWire b] = octets written, [ECmd line] = ghost event, the command loop
   consumed a line.  [codes_of ev] reads the reply codes off the octets written
   by [ev] the way an observer does (CheckOracle.reply_codes: one code per reply
   GROUP, "ddd-..." continues a group, "ddd ..." ends it).

   1. Count and order.
      [C04_one_group_per_write]: writeResponse with a three-digit code, ANY
      enhanced code and ANY texts (LF, bare CR, NUL, 8-bit included) puts
      exactly one group on the wire.
      [C04_handler_groups]: for every configuration, every open reachable
      connection state ([Inv]: the loop invariant of ConnProofs.v; [CI]: the
      backend's *SMTPError codes have three digits) and every command, the
      groups written by the handler have the shape of the verb
      ([group_shape]): one reply; [c; 500] when the command made errCount
      pass the threshold (and then the connection is closed); DATA: one
      refusal, or 354 + one final reply (SMTP, also 354 421 after a panic) /
      one per accepted recipient (LMTP; a panicking plain backend: 354 421);
      BDAT: one reply, the LAST chunk in LMTP mode one per recipient; AUTH:
      k x 334 + at most one final reply ([C04_auth_groups]: none only when the
      input ends inside the exchange); STARTTLS: 220 | 220 550 | 502.
      [C04_one_reply_group]: for every fuel, configuration, backend script
      (three-digit codes) and every schedule: the trace splits at the ECmd
      events into the greeting (one group 220) and one block per command whose
      groups have the shape of its verb, n being the number of recipients
      accepted in the open transaction; after the last command at most one
      closing reply of the loop (500 line too long / 421) and then only the
      events of Close ([trailer]).  Lines consumed inside an AUTH exchange, a
      DATA message, a BDAT chunk or a failed TLS handshake are not commands.
      [C04_nothing_after_close] (= C08): nothing is written after Close.
      [C04_rendered]: every EWire of a trace is the output of ONE writeResponse
      call with a three-digit code (by inspection of the model, handler by
      handler: the relation [Rn]).

   2. Verdict attribution, sequential part.
      [C04_verdict_data]: a Data call returning [ret] is followed IMMEDIATELY
      by the reply rendered from [data_error_to_status ret] (SMTP; LMTP with a
      plain backend: one per recipient); 421 after a panic.
      [C04_verdict_bdat]: the first reply to a BDAT command is, for an
      accepted LAST chunk, rendered from the value of the ONE delivery
      recorded since the EBdatStart of THIS transfer; a failed chunk reports
      that delivery's error / its own read error; the delivery of an earlier
      or aborted transfer precedes the EBdatStart and cannot be reported.
      [C04_verdict_bdat_positive]: in particular the reply renders nil (250 OK:
      queued) only if this transfer's delivery returned nil without panic.
      The model runs the delivery goroutine in lock step with the command loop;
      its completion at arbitrary times (finding F4) is the subject of the
      interleaving model of C20, not of these theorems.

   3. Well-formedness.
      [C04_wf_partial]: if the backend's errors are class-consistent with
      printable texts ([backend_replies_ok]), the server's own names are
      printable ([cfg_texts_ok]) and the client octets echoed in replies are
      printable ([echo_ok] for every consumed command line), every reply on
      the wire passes the strict RFC 5321 recogniser [reply_wf] and, unless it
      is the greeting, an EHLO reply or a 3xx reply, carries on every line an
      enhanced code of the class of the reply code.
      [C04_wf_refuted] (known finding F22): without the echo hypothesis the
      claim is false - "EHLO a<CR>b" is answered with a bare CR on the wire.

   Not proved here: that the hypothesis [echo_ok] follows from "the command
   line is printable ASCII" (it is stated directly on the echoed pieces, as a
   decidable predicate of the line); LMTP verdicts per recipient (C13). *)
From Smtp Require Import Bytes Transport Reply Conn ReplySpec CheckOracle.
From Smtp Require Import ConnProofs TraceProps ReplyGroups ReplyVerdict ReplyWf.

(* ---------- 1. count and order ---------- *)

Theorem C04_one_group_per_write code ec texts :
  (100 <= code <= 999)%Z -> reply_codes (write_response code ec texts) = [Z.to_N code].
Proof. exact (reply_codes_write_response code ec texts). Qed.
Print Assumptions C04_one_group_per_write.

Theorem C04_one_group_per_error code ec e :
  (100 <= code <= 999)%Z -> e <> BNil -> berr_code_ok e = true ->
  reply_codes (write_error code ec e) = [Z.to_N (berr_code code e)].
Proof.
  intros Hc Hn Hok. destruct (write_error_rendered code ec e Hn) as (ec' & m & ->).
  apply reply_codes_write_response, berr_code_ok_range; assumption.
Qed.
Print Assumptions C04_one_group_per_error.

Theorem C04_one_group_per_status a e :
  berr_code_ok e = true -> codes_of [status_reply a e] = [Z.to_N (status_code e)].
Proof.
  intros H. destruct (status_reply_rendered a e) as (ec & m & ->).
  unfold codes_of. cbn [wire_of map List.concat]. rewrite app_nil_r.
  apply reply_codes_write_response, status_code_range, H.
Qed.
Print Assumptions C04_one_group_per_status.

Theorem C04_handler_groups cfg c cmd arg :
  Inv c -> c_closed c = false -> CI c ->
  group_shape cfg (List.length (c_rcpts c)) (verb_of_cmd cmd) arg
              (codes_of (snd (handle cfg c cmd arg))) (c_closed (fst (handle cfg c cmd arg)))
  /\ CI (fst (handle cfg c cmd arg)).
Proof. intros HI Hc HC. exact (HS_codes _ _ (handle_groups cfg c cmd arg HI Hc HC)). Qed.
Print Assumptions C04_handler_groups.

Theorem C04_unparsable_groups c :
  CI c ->
  shape_other (codes_of (snd (protocol_error c 501 (5, 5, 2)%Z (bs "Bad command"))))
              (c_closed (fst (protocol_error c 501 (5, 5, 2)%Z (bs "Bad command"))))
  /\ CI (fst (protocol_error c 501 (5, 5, 2)%Z (bs "Bad command"))).
Proof. intros HC. exact (HS_codes _ _ (unparsable_groups c HC)). Qed.
Print Assumptions C04_unparsable_groups.

Theorem C04_auth_groups cfg c arg :
  Inv c -> c_closed c = false -> CI c ->
  shape_auth_x c (codes_of (snd (handle_auth cfg c arg))).
Proof. intros _ _ HC. exact (proj1 (HS_codes _ _ (handle_auth_hs cfg c arg HC))). Qed.
Print Assumptions C04_auth_groups.

Theorem C04_one_reply_group fuel cfg be phases :
  backend_codes_ok be = true ->
  let B := blocks_from 0 (serve fuel cfg be phases) in
  (exists tl, fst B = greeting cfg :: tl /\ codes_of [greeting cfg] = [220%N]
              /\ match snd B with [] => trailer false tl | _ :: _ => tl = [] end)
  /\ blocks_ok cfg (snd B).
Proof. exact (serve_groups fuel cfg be phases). Qed.
Print Assumptions C04_one_reply_group.

Theorem C04_blocks_are_the_trace n tr :
  tr = fst (blocks_from n tr)
       ++ flat_map (fun '(_, line, ev) => ECmd line :: ev) (snd (blocks_from n tr)).
Proof.
  revert n. induction tr as [|e tr IH]; intros n; [reflexivity|].
  destruct e; cbn [blocks_from];
    match goal with
    | |- context [blocks_from ?k tr] =>
        let H := fresh in pose proof (IH k) as H; destruct (blocks_from k tr) as [p bl];
        cbn [fst snd flat_map app] in *; rewrite <- H; reflexivity
    end.
Qed.
Print Assumptions C04_blocks_are_the_trace.

Theorem C04_nothing_after_close fuel cfg be phases :
  C08_nothing_after_close (serve fuel cfg be phases).
Proof. exact (serve_C08_nothing_after_close fuel cfg be phases). Qed.
Print Assumptions C04_nothing_after_close.

Theorem C04_rendered fuel cfg be phases :
  backend_codes_ok be = true ->
  forall b, In (EWire b) (serve fuel cfg be phases) -> is_rendered b.
Proof. exact (serve_rendered fuel cfg be phases). Qed.
Print Assumptions C04_rendered.

(* ---------- 2. verdict attribution ---------- *)

Theorem C04_verdict_data fuel cfg be phases : data_adj cfg (serve fuel cfg be phases).
Proof. exact (serve_data_verdict fuel cfg be phases). Qed.
Print Assumptions C04_verdict_data.

Theorem C04_verdict_bdat fuel cfg be phases pre line post :
  serve fuel cfg be phases = pre ++ ECmd line :: post ->
  cf_lmtp cfg = false -> fst (line_verb line) = VBdat ->
  exists evA w evB,
    post = evA ++ EWire w :: evB /\ no_wire evA
    /\ bdat_verdict (deliveries_since_start (pre ++ ECmd line :: evA)) (bdat_last (snd (line_verb line))) w.
Proof. exact (serve_bdat_verdict fuel cfg be phases pre line post). Qed.
Print Assumptions C04_verdict_bdat.

Theorem C04_deliveries_since_start tr :
  deliveries_since_start tr
  = if existsb is_start tr then Some (filter is_deliv (since is_start tr)) else None.
Proof.
  unfold deliveries_since_start. induction tr as [|e tr IH] using rev_ind; [reflexivity|].
  rewrite dl_run_app, IH, existsb_app, since_snoc. cbn [dl_run fold_left existsb].
  destruct e; cbn [dl_step is_start orb]; rewrite ?orb_false_r, ?orb_true_r;
    try (destruct (existsb is_start tr); cbn [option_map]; rewrite ?filter_app; cbn [filter is_deliv];
         rewrite ?app_nil_r; reflexivity).
Qed.
Print Assumptions C04_deliveries_since_start.

Theorem C04_verdict_bdat_positive st w :
  bdat_verdict st true w ->
  exists e code ec msg,
    data_error_to_status e = (code, ec, msg) /\ w = write_response code ec [msg]
    /\ (e = BNil -> exists g t, st = Some [EDelivery g t BNil false])
    /\ ((exists g t r p, st = Some [EDelivery g t r p] /\ (e = delivered r p \/ e = pipe_err (delivered r p)))
        \/ (exists te, e = berr_of_rerr (rerr_of_copy te))
        \/ In (code, ec, msg) bdat_refusals).
Proof. exact (bdat_verdict_last st w). Qed.
Print Assumptions C04_verdict_bdat_positive.

(* ---------- 3. well-formedness ---------- *)

Theorem C04_wf_partial fuel cfg be phases :
  backend_replies_ok be = true -> cfg_texts_ok cfg = true ->
  (forall line, In (ECmd line) (serve fuel cfg be phases) -> echo_ok line = true) ->
  forall b, In (EWire b) (serve fuel cfg be phases) ->
    reply_wf b = true /\ (reply_ec_class_ok b = true \/ exempt cfg b).
Proof. exact (serve_wf_partial fuel cfg be phases). Qed.
Print Assumptions C04_wf_partial.

Theorem C04_wf_refuted :
  exists fuel cfg be phases b,
    backend_replies_ok be = true /\ cfg_texts_ok cfg = true
    /\ In (EWire b) (serve fuel cfg be phases) /\ reply_wf b = false.
Proof. exact C04Refuted.serve_wf_refuted. Qed.
Print Assumptions C04_wf_refuted.

(* ---------- non-vacuity ---------- *)

(* a pipelined conversation - EHLO, an unknown command, MAIL, RCPT x2, DATA +
   message (refused by the backend: 554), MAIL, RCPT, BDAT x2, AUTH with one
   334 step, garbage lines up to the error threshold - and the same octets one
   per raw read: the reply groups per command *)
Example C04_witness :
  backend_codes_ok C04Example.be = true
  /\ C04Example.show_blocks (serve 40 C04Example.cfg C04Example.be [[C04Example.raw_of C04Example.stream]])
     = C04Example.expected
  /\ C04Example.show_blocks (serve 40 C04Example.cfg C04Example.be
                               [map (fun c => RData c []) C04Example.stream])
     = C04Example.expected.
Proof. exact (conj C04Example.hypotheses (conj C04Example.pipelined C04Example.octet_by_octet)). Qed.

(* the hypotheses of C04_wf_partial hold on that conversation *)
Example C04_wf_witness :
  backend_replies_ok C04Example.be = true /\ cfg_texts_ok C04Example.cfg = true
  /\ forallb (fun e => match e with ECmd l => echo_ok l | _ => true end)
             (serve 40 C04Example.cfg C04Example.be [[C04Example.raw_of C04Example.stream]]) = true
  /\ forallb (fun e => match e with EWire b => reply_wf b | _ => true end)
             (serve 40 C04Example.cfg C04Example.be [[C04Example.raw_of C04Example.stream]]) = true.
Proof. exact C04Refuted.wf_hypotheses. Qed.


(* ---------------- obligations over the reply-site table regenerated from /repo on every run ---------------- *)
From Smtp Require Import ReplySitesProofs.
From SmtpGen Require Import ReplySites.

(* every literal reply of the source has a reply code in 200..599 and an enhanced code of its class
   (or leaves it to writeResponse's defaulting; NoEnhancedCode only for greeting, EHLO reply and 3xx) *)
Theorem C04_sites_class_ok : forallb site_class_ok reply_sites = true.
Proof. exact sites_class_ok. Qed.
Print Assumptions C04_sites_class_ok.

(* the model and the source contain the same reply literals (code, enhanced code, text) *)
Theorem C04_code_replies_in_model : unmatched_sites = nil.
Proof. exact every_code_reply_is_in_the_model. Qed.
Print Assumptions C04_code_replies_in_model.

Theorem C04_model_replies_in_code : unmatched_model = nil.
Proof. exact every_model_reply_is_in_the_code. Qed.
Print Assumptions C04_model_replies_in_code.
