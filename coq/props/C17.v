(* C17 - backend errors reach the peer and the client with code, class and
   text intact.

   Server side: Reply.v ([write_error], [write_response],
   [data_error_to_status] = conn.go writeError / writeResponse /
   dataErrorToStatus).  Client side: ClientReply.v ([client_read_response] =
   Client.readResponse over net/textproto's ReadResponse, strconv.Atoi,
   toSMTPErr, parseEnhancedCode).  [envelope_reply e] is what session
   creation, MAIL and RCPT write for a backend error e (writeError with the
   451 4.0.0 defaults), [data_reply e] what DATA writes
   (writeResponse(dataErrorToStatus(e))).

   C17_roundtrip: for every reply code 400..599, every enhanced code other
   than NoEnhancedCode (unset = {0,0,0}, or any three ints), EVERY message
   text (any octets and any number of LF-separated lines: empty, leading or
   trailing spaces, lines that themselves look like an enhanced code,
   non-ASCII, ...), every expectCode that does not accept the code (all the
   client's call sites: 250, 354, 220, 221, 25, ...) and whatever follows the
   reply on the stream: the real pipeline "render, then parse" returns the
   reply code, SMTPError{code, default_ec code ec, msg} - the unset enhanced
   code having become X.0.0 of the code's class - and leaves exactly the
   following octets unread.  [wire_msg ..] is the raw message readResponse
   returns next to the error (each line still prefixed by the enhanced code).

   C17_generic: any other error is 451 4.0.0 <text> (envelope commands) resp.
   554 5.0.0 "Error: transaction failed: " <text> (DATA), and the client
   returns exactly that SMTPError.

   C17_no_enhanced_code_image / _refuted: NoEnhancedCode (explicitly absent)
   cannot round-trip - the wire format cannot express it; the exact image is
   toSMTPErr of the bare text (EnhancedCodeNotSet, or a look-alike parsed out
   of the text), with three concrete instances.

   C17_expect_zero: with expectCode 0 (AUTH only) textproto never reports an
   error; the caller gets code and raw text. *)
From Smtp Require Import Bytes Reply ClientReply ReplyProofs.

Theorem C17_roundtrip code ec msg expect rest :
  (400 <= code <= 599)%Z ->
  ec_eqb ec no_ec = false -> ec_int ec ->
  expect_mismatch expect code = true ->
  client_read_response expect (envelope_reply (BSmtp code ec msg) ++ rest)
  = ((code, wire_msg (default_ec code ec) (split_byte LF msg),
      CSmtp code (default_ec code ec) msg), rest)
  /\
  client_read_response expect (data_reply (BSmtp code ec msg) ++ rest)
  = ((code, wire_msg (default_ec code ec) (split_byte LF msg),
      CSmtp code (default_ec code ec) msg), rest).
Proof. exact (ReplyProofs.C17_roundtrip code ec msg expect rest). Qed.
Print Assumptions C17_roundtrip.

Theorem C17_expect_rejects_4xx5xx expect code :
  (400 <= code <= 599)%Z ->
  (1 <= expect < 4 \/ 10 <= expect < 40 \/ 100 <= expect < 400)%Z ->
  expect_mismatch expect code = true.
Proof. exact (expect_mismatch_4xx5xx expect code). Qed.
Print Assumptions C17_expect_rejects_4xx5xx.

Theorem C17_unset_becomes_class_default code :
  (200 <= code <= 299 \/ 400 <= code <= 599)%Z ->
  default_ec code ec_not_set = (code / 100, 0, 0)%Z /\
  ec_class_is code (default_ec code ec_not_set).
Proof. exact (defaulting_ok code). Qed.
Print Assumptions C17_unset_becomes_class_default.

Theorem C17_roundtrip_any_code dcode dec code ec msg expect rest :
  (100 <= code <= 999)%Z ->
  ec_eqb (default_ec code ec) no_ec = false -> ec_int (default_ec code ec) ->
  expect_mismatch expect code = true ->
  client_read_response expect (write_error dcode dec (BSmtp code ec msg) ++ rest)
  = ((code, wire_msg (default_ec code ec) (split_byte LF msg),
      CSmtp code (default_ec code ec) msg), rest).
Proof.
  intros Hc Hne Hi Hm. cbn [write_error].
  rewrite roundtrip_response, Hm by assumption. reflexivity.
Qed.
Print Assumptions C17_roundtrip_any_code.

Theorem C17_generic m expect rest :
  envelope_reply (BPlain m) = write_response 451 (4, 0, 0)%Z [m] /\
  data_reply (BPlain m) =
    write_response 554 (5, 0, 0)%Z [bs "Error: transaction failed: " ++ m] /\
  (expect_mismatch expect 451 = true ->
   client_read_response expect (envelope_reply (BPlain m) ++ rest)
   = ((451%Z, wire_msg (4, 0, 0)%Z (split_byte LF m), CSmtp 451 (4, 0, 0)%Z m), rest)) /\
  (expect_mismatch expect 554 = true ->
   client_read_response expect (data_reply (BPlain m) ++ rest)
   = ((554%Z, wire_msg (5, 0, 0)%Z (split_byte LF (bs "Error: transaction failed: " ++ m)),
       CSmtp 554 (5, 0, 0)%Z (bs "Error: transaction failed: " ++ m)), rest)).
Proof. exact (ReplyProofs.C17_generic m expect rest). Qed.
Print Assumptions C17_generic.

Theorem C17_no_enhanced_code_image code msg expect rest :
  (100 <= code <= 999)%Z ->
  expect_mismatch expect code = true ->
  client_read_response expect (envelope_reply (BSmtp code no_ec msg) ++ rest)
  = ((code, msg, let '(c, e, m) := to_smtp_err code msg in CSmtp c e m), rest)
  /\
  client_read_response expect (data_reply (BSmtp code no_ec msg) ++ rest)
  = ((code, msg, let '(c, e, m) := to_smtp_err code msg in CSmtp c e m), rest).
Proof. exact (ReplyProofs.C17_no_enhanced_code_image code msg expect rest). Qed.
Print Assumptions C17_no_enhanced_code_image.

Theorem C17_no_enhanced_code_refuted :
  client_read_response 250 (envelope_reply (BSmtp 550 no_ec (bs "mailbox unavailable")))
  = ((550%Z, bs "mailbox unavailable", CSmtp 550 ec_not_set (bs "mailbox unavailable")), [])
  /\
  client_read_response 250 (envelope_reply (BSmtp 550 no_ec (bs "5.1.1 x" ++ LF :: bs "5.1.1 y")))
  = ((550%Z, bs "5.1.1 x" ++ LF :: bs "5.1.1 y", CSmtp 550 (5, 1, 1)%Z (bs "x" ++ LF :: bs "y")), [])
  /\
  client_read_response 250 (envelope_reply (BSmtp 550 no_ec (bs "-1.-1.-1 z")))
  = ((550%Z, bs "-1.-1.-1 z", CSmtp 550 no_ec (bs "z")), []).
Proof. vm_compute. repeat split; reflexivity. Qed.
Print Assumptions C17_no_enhanced_code_refuted.

Theorem C17_expect_zero code ec msg rest :
  (400 <= code <= 599)%Z -> ec_eqb ec no_ec = false -> ec_int ec ->
  client_read_response 0 (envelope_reply (BSmtp code ec msg) ++ rest)
  = ((code, wire_msg (default_ec code ec) (split_byte LF msg), CNil), rest).
Proof. exact (ReplyProofs.C17_expect_zero code ec msg rest). Qed.
Print Assumptions C17_expect_zero.

(* non-vacuity: three-line message with leading/trailing spaces, an empty
   line, lines that look like the reply's own enhanced code, non-ASCII octets *)
Example C17_witness :
  let msg := bs " 5.1.1 looks like a code " ++ LF :: [] ++ LF :: bs "5.1.1 na" ++ [n_byte 195; n_byte 175] ++ bs "ve  " in
  ec_eqb (5, 1, 1)%Z no_ec = false /\ ec_int (5, 1, 1)%Z /\ expect_mismatch 250 550 = true /\
  envelope_reply (BSmtp 550 (5, 1, 1)%Z msg)
  = bs "550-5.1.1  5.1.1 looks like a code " ++ crlf ++ bs "550-5.1.1 " ++ crlf ++
    bs "550 5.1.1 5.1.1 na" ++ [n_byte 195; n_byte 175] ++ bs "ve  " ++ crlf /\
  client_read_response 250 (envelope_reply (BSmtp 550 (5, 1, 1)%Z msg) ++ bs "250 next")
  = ((550%Z, wire_msg (5, 1, 1)%Z (split_byte LF msg), CSmtp 550 (5, 1, 1)%Z msg), bs "250 next").
Proof. exact C17_roundtrip_ex. Qed.
