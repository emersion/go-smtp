(* C15 - the client writes one command line per protocol step and only
   negotiated parameters.

   Model: Client.v (client.go operation by operation + net/textproto's
   Conn.Cmd / Writer.PrintfLine / DotWriter over a 4096-octet bufio.Writer),
   tied to the real client by the "cli" correspondence cases
   (harness/gencli.go, CheckCli.v).

   Vocabulary (ClientProofs.v):
     clean l        no CR and no LF in l
     lines ls       the wire image: every l in ls followed by CRLF
     quiet c        nothing is pending in textproto's write buffer and no
                    dotWriter is open (or the writer is dead): the state
                    between API calls when the data writer is used according
                    to its contract.  An invariant: C15_invariant.
     cmd_call k     k is Hello, Verify, Mail, Rcpt, Data, LMTPData, Reset,
                    Noop, Quit, Extension, or Auth with a mechanism NAME free
                    of CR/LF (the name comes from the sasl.Client, Auth does
                    not check it - outside the property's statement)
     hello_line c l l = "EHLO "/"LHLO " ++ localName  or  "HELO " ++ localName
     own_shape k o  o = [] or exactly the method's command line carrying the
                    argument verbatim (for Auth: the AUTH line followed by one
                    line per further step, each base64 or "*")
     param_ok ext p p is one token "KEYWORD" or "KEYWORD=value" without CR, LF
                    or SP, KEYWORD in {BODY, SIZE, REQUIRETLS, SMTPUTF8, RET,
                    ENVID, NOTIFY, ORCPT, AUTH, RRVS} and the extension key
                    that licenses it (ext_for: 8BITMIME for BODY=7BIT and
                    BODY=8BITMIME, BINARYMIME for BODY=BINARYMIME, SIZE,
                    REQUIRETLS, SMTPUTF8, DSN, AUTH, RRVS) is in ext
     body_refused ext o  Body is 7BIT / 8BITMIME and 8BITMIME is not in ext, or
                    BINARYMIME and BINARYMIME is not in ext, or any other
                    non-empty string
   [c_ext] is the map parsed by ehlo() from the most recent EHLO reply
   (c_ehlo_parsed, has_ext_parse_ext; helo() sets it to nil). *)
From Smtp Require Import Bytes ClientReply Conn Client ClientProofs.

Theorem C15_one_line : forall c k,
  quiet c -> clean (c_local c) -> cmd_call k ->
  (forall a, line_arg k = Some a -> clean a) ->
  exists hl own,
    c_out (snd (run_call c k)) = c_out c ++ lines (hl ++ own)
    /\ Forall clean (hl ++ own)
    /\ Forall (hello_line (hello_client c k)) hl /\ (List.length hl <= 2)%nat
    /\ (says_hello k = false -> hl = [])
    /\ own_shape k own.
Proof. exact ClientProofs.C15_one_line. Qed.

Theorem C15_invalid_argument : forall c k a,
  line_arg k = Some a -> ~ clean a ->
  run_call c k = (mkR (RLocal err_line) None [], c).
Proof. exact ClientProofs.C15_invalid_argument. Qed.

Theorem C15_invariant : forall c k,
  quiet c -> clean (c_local c) -> cmd_call k ->
  (forall a, line_arg k = Some a -> clean a) ->
  clean (c_local (snd (run_call c k)))
  /\ (match k with
      | KData | KLmtpData _ => r_err (fst (run_call c k)) <> RNil -> quiet (snd (run_call c k))
      | _ => quiet (snd (run_call c k))
      end).
Proof. exact ClientProofs.C15_invariant. Qed.

Theorem C15_only_negotiated_mail : forall from opts c r c',
  quiet c -> c_mail_step from opts c = (r, c') ->
  (exists e, mail_params (c_ext c) opts = inr e /\ r = RLocal e /\ c_out c' = c_out c)
  \/ (exists ps own, c_out c' = c_out c ++ lines own /\ at_most (mail_line from ps) own
                     /\ Forall (param_ok (c_ext c)) ps).
Proof. exact ClientProofs.C15_only_negotiated_mail. Qed.

Theorem C15_only_negotiated_rcpt : forall c to opts r c',
  quiet c -> clean to -> c_rcpt c to opts = (r, c') ->
  (exists e, rcpt_params (c_ext c) opts = inr e /\ r = RLocal e /\ c' = c)
  \/ (exists ps own, c_out c' = c_out c ++ lines own /\ at_most (rcpt_line to ps) own
                     /\ Forall (param_ok (c_ext c)) ps).
Proof. exact ClientProofs.C15_only_negotiated_rcpt. Qed.

Theorem C15_requested_not_offered : forall from o c,
  body_refused (c_ext c) o
  \/ (mo_requiretls o = true /\ has_ext (c_ext c) (key "REQUIRETLS") = false)
  \/ (mo_utf8 o = true /\ has_ext (c_ext c) (key "SMTPUTF8") = false) ->
  exists e, c_mail_step from (Some o) c = (RLocal e, set_rcpts c [])
            /\ (body_err e \/ e = err_requiretls \/ e = err_smtputf8).
Proof. exact ClientProofs.C15_requested_not_offered. Qed.

(* a requested Body whose extension was not offered, or an unknown Body value,
   is a local error too (never a silent BODY=8BITMIME), each with its own text *)
Theorem C15_body_not_offered : forall from o c,
  body_refused (c_ext c) o ->
  exists e, c_mail_step from (Some o) c = (RLocal e, set_rcpts c [])
            /\ ((mo_body o = bs "7BIT" \/ mo_body o = bs "8BITMIME") -> e = err_8bitmime)
            /\ (mo_body o = bs "BINARYMIME" -> e = err_binarymime)
            /\ (mo_body o <> bs "7BIT" -> mo_body o <> bs "8BITMIME" -> mo_body o <> bs "BINARYMIME"
                -> e = err_body).
Proof. exact ClientProofs.C15_body_not_offered. Qed.

(* what param_ok says about the BODY parameter, spelled out: BODY=BINARYMIME
   only with BINARYMIME offered, any other BODY value only with 8BITMIME *)
Theorem C15_body_param_licensed : forall ext v,
  param_ok ext (bs "BODY" ++ "="%char :: v) ->
  if bytes_eqb v (bs "BINARYMIME") then has_ext ext (bs "BINARYMIME") = true
  else has_ext ext (bs "8BITMIME") = true.
Proof. exact ClientProofs.C15_body_param_licensed. Qed.

(* Mail = validateLine; hello(); the step above on the state hello() left *)
Theorem C15_mail_is_hello_then_step : forall c from opts,
  clean from -> c_mail c from opts = with_hello c (c_mail_step from opts).
Proof. exact ClientProofs.c_mail_unfold. Qed.

(* [ext] after a successful ehlo() is the parse of the reply to THIS EHLO,
   and a key is in it iff it is the keyword of an extension line of that reply *)
Theorem C15_ext_is_latest_ehlo : forall c c',
  c_ehlo c = (RNil, c') ->
  exists c1 code msg rest,
    printf_line c (hello_verb c ++ c_local c) = (true, c1)
    /\ client_read_response 250 (c_in c1) = ((code, msg, CNil), rest)
    /\ c_ext c' = Some (parse_ext msg) /\ c_in c' = rest.
Proof. exact ClientProofs.c_ehlo_parsed. Qed.

Theorem C15_ext_keys : forall msg k,
  has_ext (Some (parse_ext msg)) k = true <-> In k (map ext_key (ext_lines msg)).
Proof. exact ClientProofs.has_ext_parse_ext. Qed.

Print Assumptions C15_one_line.
Print Assumptions C15_invalid_argument.
Print Assumptions C15_invariant.
Print Assumptions C15_only_negotiated_mail.
Print Assumptions C15_only_negotiated_rcpt.
Print Assumptions C15_requested_not_offered.
Print Assumptions C15_body_not_offered.
Print Assumptions C15_body_param_licensed.
Print Assumptions C15_mail_is_hello_then_step.
Print Assumptions C15_ext_is_latest_ehlo.
Print Assumptions C15_ext_keys.
