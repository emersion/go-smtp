(* C18 - the LMTP client reports each recipient's own status, transaction
   after transaction.

   Model: Client.v (rcpts bookkeeping in Mail / Rcpt / Reset, LMTPData, the
   reply loop of dataCloser.Close), tied by the "cli" cases.

   Vocabulary (ClientProofs.v):
     txn            a transaction: sender, recipients each with the outcome of
                    its RCPT as the client reads it (CNil = accepted), the body
                    as a list of Write portions, the per-recipient verdicts
     accepted t     the recipients of t whose RCPT was answered positively
     txn_stream t s s'   HYPOTHESIS ON THE SERVER: from s the stream holds a
                    non-error reply to MAIL (read with expectCode 250), one
                    reply per RCPT (expectCode 25) with the stated outcome, a
                    non-error reply to DATA (354), then exactly one well-formed
                    reply per ACCEPTED recipient (serves250: read with 250,
                    yielding nil or an SMTPError), and then s'
     txns_stream    the concatenation for a list of transactions, followed by
                    an arbitrary rest (e.g. the next command's reply)
     txn_ok t       sender / recipient strings without CR / LF (validateLine),
                    one verdict per accepted recipient
     lmtp_ready c   LMTP client, hello done, connection working, no data
                    writer open
     run_txn cb     Mail; Rcpt for every recipient; LMTPData (cb: with status
                    callback); Write per portion; Close
     first_neg      the first negative verdict (nil if all are nil)
   The stream hypothesis is satisfied by what the go-smtp server emits:
   serves250_data_replies (replies rendered by writeResponse(dataErrorToStatus
   e) for each status of Lmtp.v), reads_rendered; Example ex18_hypotheses. *)
From Smtp Require Import Bytes Client ClientProofs ReplyProofs.

Theorem C18_callbacks : forall cb ts c rest,
  lmtp_ready c -> Forall txn_ok ts -> txns_stream ts (c_in c) rest ->
  exists c',
    run_txns cb c ts
    = (map (fun t => if cb then RNil else first_neg RNil (t_verdicts t)) ts, c')
    /\ c_cbs c' = c_cbs c ++ (if cb then flat_map (fun t => combine (accepted t) (t_verdicts t)) ts else [])
    /\ c_in c' = rest /\ lmtp_ready c'.
Proof. exact ClientProofs.C18_callbacks. Qed.

Theorem C18_no_callback : forall c t s' pre code ec msg post,
  lmtp_ready c -> txn_ok t -> txn_stream t (c_in c) s' ->
  t_verdicts t = pre ++ RSmtp code ec msg :: post -> Forall (fun v => v = RNil) pre ->
  fst (run_txn false c t) = RSmtp code ec msg.
Proof. exact ClientProofs.C18_no_callback. Qed.

Theorem C18_stream_hypothesis_satisfiable : forall statuses rest,
  Forall status_ok statuses ->
  serves250 (flat_map data_reply statuses ++ rest) (map verdict_of statuses) rest.
Proof. exact ClientProofs.serves250_data_replies. Qed.

Print Assumptions C18_callbacks.
Print Assumptions C18_no_callback.
Print Assumptions C18_stream_hypothesis_satisfiable.
