(* Proofs about reply rendering (Reply.v), the strict recogniser
   (ReplySpec.v) and the client's reply parsing (ClientReply.v):
   C04 well-formedness ([render_wf], [render_ec_class], [defaulting_ok]) and
   the C17 round trip. *)
From Smtp Require Import Bytes Reply ClientReply ReplySpec.
From Coq Require Import DecimalN DecimalPos.
Local Open Scope char_scope.

Lemma mem_byte_app c a b : mem_byte c (a ++ b) = mem_byte c a || mem_byte c b.
Proof.
  induction a as [|x a IH]; cbn [mem_byte app]; [reflexivity|].
  rewrite IH. apply orb_assoc.
Qed.

Lemma forallb_not_mem (P : ascii -> bool) c s :
  forallb P s = true -> P c = false -> mem_byte c s = false.
Proof.
  intros HP Hc. induction s as [|x s IH]; cbn [mem_byte]; [reflexivity|].
  cbn [forallb] in HP. apply andb_true_iff in HP as [Hx Hs].
  rewrite (IH Hs), orb_false_r.
  destruct (Ascii.eqb c x) eqn:E; [|reflexivity].
  apply Ascii.eqb_eq in E. subst. congruence.
Qed.

Lemma forallb_impl {A} (P Q : A -> bool) s :
  (forall c, P c = true -> Q c = true) -> forallb P s = true -> forallb Q s = true.
Proof.
  intros H. induction s as [|x s IH]; cbn [forallb]; [reflexivity|].
  intros HP. apply andb_true_iff in HP as [Hx Hs].
  rewrite (H _ Hx), (IH Hs). reflexivity.
Qed.

Lemma mem_false_forallb c s :
  mem_byte c s = false -> forallb (fun x => negb (Ascii.eqb c x)) s = true.
Proof.
  induction s as [|x s IH]; cbn [mem_byte forallb]; [reflexivity|].
  intros H. apply orb_false_iff in H as [H1 H2]. rewrite H1, (IH H2). reflexivity.
Qed.

Lemma cut_byte_app c a s :
  mem_byte c a = false -> cut_byte c (a ++ c :: s) = Some (a, s).
Proof.
  induction a as [|x a IH]; cbn [mem_byte app cut_byte]; intros H.
  - rewrite Ascii.eqb_refl. reflexivity.
  - apply orb_false_iff in H as [H1 H2]. rewrite H1, (IH H2). reflexivity.
Qed.

Lemma cut_byte_none c a : mem_byte c a = false -> cut_byte c a = None.
Proof.
  induction a as [|x a IH]; cbn [mem_byte cut_byte]; intros H; [reflexivity|].
  apply orb_false_iff in H as [H1 H2]. rewrite H1, (IH H2). reflexivity.
Qed.

Lemma split_byte_single c a : mem_byte c a = false -> split_byte c a = [a].
Proof.
  induction a as [|x a IH]; cbn [mem_byte split_byte]; intros H; [reflexivity|].
  apply orb_false_iff in H as [H1 H2]. rewrite (IH H2), H1. reflexivity.
Qed.

Lemma split_byte_nonempty c s : split_byte c s <> [].
Proof.
  destruct s as [|x s]; cbn [split_byte]; [discriminate|].
  destruct (split_byte c s); [discriminate|].
  destruct (Ascii.eqb c x); discriminate.
Qed.

Lemma split_byte_app c a s :
  mem_byte c a = false -> split_byte c (a ++ c :: s) = a :: split_byte c s.
Proof.
  induction a as [|x a IH]; cbn [mem_byte app]; intros H.
  - cbn [split_byte]. rewrite Ascii.eqb_refl.
    destruct (split_byte c s) eqn:E; [exfalso; exact (split_byte_nonempty c s E)|reflexivity].
  - apply orb_false_iff in H as [H1 H2]. cbn [split_byte]. rewrite (IH H2), H1. reflexivity.
Qed.

Lemma join_cons2 sep x y r : join sep (x :: y :: r) = x ++ sep ++ join sep (y :: r).
Proof. reflexivity. Qed.

Lemma join_split_byte c s : join [c] (split_byte c s) = s.
Proof.
  induction s as [|x s IH]; cbn [split_byte]; [reflexivity|].
  destruct (split_byte c s) as [|h r] eqn:E; [exfalso; exact (split_byte_nonempty c s E)|].
  destruct (Ascii.eqb c x) eqn:Ex.
  - apply Ascii.eqb_eq in Ex. subst x. rewrite join_cons2. cbn [app]. rewrite IH. reflexivity.
  - destruct r as [|h' r'].
    + cbn [join] in *. rewrite IH. reflexivity.
    + rewrite join_cons2 in *. cbn [app] in *. rewrite IH. reflexivity.
Qed.

Lemma split_byte_forall (P : ascii -> bool) c s :
  forallb (fun x => P x || Ascii.eqb x c) s = true ->
  Forall (fun l => forallb P l = true) (split_byte c s).
Proof.
  induction s as [|x s IH]; cbn [split_byte forallb]; intros H.
  - constructor; [reflexivity|constructor].
  - apply andb_true_iff in H as [Hx Hs]. specialize (IH Hs).
    destruct (split_byte c s) as [|h r] eqn:E; [exfalso; exact (split_byte_nonempty c s E)|].
    inversion IH as [|h' r' Hh Hr]; subst.
    destruct (Ascii.eqb c x) eqn:Ex.
    + constructor; [reflexivity|]. constructor; assumption.
    + constructor; [|assumption]. cbn [forallb]. rewrite Hh, andb_true_r.
      apply orb_true_iff in Hx as [Hx|Hx]; [assumption|].
      rewrite Ascii.eqb_sym in Hx. congruence.
Qed.

(* no piece contains [c] when every [c] of the string is a separator *)
Lemma split_byte_not c d s :
  forallb (fun x => negb (Ascii.eqb c x) || Ascii.eqb x d) s = true ->
  Forall (fun l => mem_byte c l = false) (split_byte d s).
Proof.
  intros K. apply split_byte_forall in K.
  eapply Forall_impl; [|exact K]. intros l Hl. cbv beta in *.
  eapply forallb_not_mem; [exact Hl|]. cbv beta. rewrite Ascii.eqb_refl. reflexivity.
Qed.

Lemma split_byte_no_sep c s : Forall (fun l => mem_byte c l = false) (split_byte c s).
Proof.
  apply split_byte_not, forallb_forall. intros x _. rewrite (Ascii.eqb_sym x c). apply orb_negb_l.
Qed.

Definition dfold (acc : N) (s : bytes) : N :=
  fold_left (fun acc c => acc * 10 + digit_val c)%N s acc.

Lemma dfold_acc u acc :
  dfold (Npos acc) (uint_to_bytes u) = Npos (Pos.of_uint_acc u acc).
Proof.
  revert acc. induction u; intros acc; cbn [uint_to_bytes Pos.of_uint_acc]; [reflexivity|..];
    rewrite <- IHu; unfold dfold; cbn [fold_left]; f_equal; unfold digit_val, byte_n; simpl N_of_ascii; lia.
Qed.

Lemma dfold_uint u : dfold 0 (uint_to_bytes u) = N.of_uint u.
Proof.
  unfold N.of_uint.
  induction u; cbn [uint_to_bytes Pos.of_uint]; [reflexivity|exact IHu|..]; apply dfold_acc.
Qed.

Lemma dec_value_dec_of_N n : dec_value (dec_of_N n) = n.
Proof.
  unfold dec_value, dec_of_N. change (fold_left _ ?s 0%N) with (dfold 0 s).
  rewrite dfold_uint. apply DecimalN.Unsigned.of_to.
Qed.

Lemma uint_digits u : forallb is_digit (uint_to_bytes u) = true.
Proof.
  induction u; cbn [uint_to_bytes forallb]; [reflexivity|..]; rewrite IHu; reflexivity.
Qed.

Lemma dec_of_N_digits n : forallb is_digit (dec_of_N n) = true.
Proof. apply uint_digits. Qed.

Lemma dec_of_N_nonempty n : dec_of_N n <> [].
Proof.
  intros H. pose proof (dec_value_dec_of_N n) as Hv. rewrite H in Hv.
  cbn in Hv. subst n. discriminate.
Qed.

(* octets of a rendered integer / enhanced code *)
Definition zch (c : ascii) : bool := is_digit c || Ascii.eqb c "-".
Definition ecch (c : ascii) : bool := zch c || Ascii.eqb c ".".

Lemma dec_of_Z_zch z : forallb zch (dec_of_Z z) = true.
Proof.
  assert (H : forall n, forallb zch (dec_of_N n) = true).
  { intros n. eapply forallb_impl; [|apply dec_of_N_digits]. intros c Hc. unfold zch. rewrite Hc. reflexivity. }
  unfold dec_of_Z. destruct (z <? 0)%Z; [cbn [forallb]; rewrite H; reflexivity | apply H].
Qed.

Lemma ec_text_ecch ec : forallb ecch (ec_text ec) = true.
Proof.
  destruct ec as [[a b] c]. unfold ec_text.
  assert (Hz : forall z, forallb ecch (dec_of_Z z) = true).
  { intros z. eapply forallb_impl; [|apply dec_of_Z_zch]. intros x Hx. unfold ecch. rewrite Hx. reflexivity. }
  rewrite forallb_app. cbn [forallb]. rewrite forallb_app. cbn [forallb].
  rewrite !Hz. reflexivity.
Qed.

Lemma zch_not c x : zch c = false -> mem_byte c (dec_of_Z x) = false.
Proof. intros H. eapply forallb_not_mem; [apply dec_of_Z_zch|exact H]. Qed.

Lemma in_range_mono lo hi lo' hi' c :
  (lo' <= lo)%N -> (hi <= hi')%N -> in_range lo hi c = true -> in_range lo' hi' c = true.
Proof. unfold in_range. rewrite !andb_true_iff, !N.leb_le. lia. Qed.

Lemma ecch_text c : ecch c = true -> text_octet c = true.
Proof.
  unfold ecch, zch, text_octet.
  intros [[H|H%Ascii.eqb_eq]%orb_true_iff|H%Ascii.eqb_eq]%orb_true_iff; subst; try reflexivity.
  rewrite (in_range_mono 48 57 32 126 c) by (assumption || lia). apply orb_true_r.
Qed.

Lemma is_digit_not_sign c : is_digit c = true -> Ascii.eqb c "-" = false /\ Ascii.eqb c "+" = false.
Proof.
  intros H. split; apply not_true_is_false; intros E%Ascii.eqb_eq; subst c; discriminate H.
Qed.

(* strconv.Atoi reads back what fmt printed *)

Definition int_ok (z : Z) : Prop := (int_min <= z <= int_max)%Z.

Lemma atoi_digits d :
  d <> [] -> forallb is_digit d = true -> (Z.of_N (dec_value d) <= int_max)%Z ->
  atoi d = Some (Z.of_N (dec_value d)).
Proof.
  intros Hne Hd Hmax. destruct d as [|c t]; [congruence|].
  unfold atoi.
  pose proof Hd as Hd'. cbn [forallb] in Hd'. apply andb_true_iff in Hd' as [Hc _].
  destruct (is_digit_not_sign c Hc) as [H1 H2]. rewrite H1, H2, Hd.
  assert (Hlo : (int_min <= Z.of_N (dec_value (c :: t)))%Z) by (unfold int_min; lia).
  apply Z.leb_le in Hlo. apply Z.leb_le in Hmax. rewrite Hlo, Hmax. reflexivity.
Qed.

Lemma atoi_dec_of_Z z : int_ok z -> atoi (dec_of_Z z) = Some z.
Proof.
  intros [Hlo Hhi]. unfold dec_of_Z. destruct (z <? 0)%Z eqn:Hneg.
  - apply Z.ltb_lt in Hneg. unfold atoi.
    change (Ascii.eqb "-" "-") with true. cbv iota beta.
    destruct (dec_of_N (Z.to_N (- z))) as [|c t] eqn:E; [exfalso; exact (dec_of_N_nonempty _ E)|].
    rewrite <- E, dec_of_N_digits, dec_value_dec_of_N.
    rewrite Z2N.id by lia. rewrite Z.opp_involutive.
    apply Z.leb_le in Hlo. apply Z.leb_le in Hhi. rewrite Hlo, Hhi. reflexivity.
  - apply Z.ltb_ge in Hneg.
    rewrite atoi_digits.
    + rewrite dec_value_dec_of_N, Z2N.id by lia. reflexivity.
    + apply dec_of_N_nonempty.
    + apply dec_of_N_digits.
    + rewrite dec_value_dec_of_N, Z2N.id by lia. exact Hhi.
Qed.

(* three-digit reply codes: by enumeration *)

Definition code3_ok (code : Z) : bool :=
  match dec_of_Z code with
  | [a; b; c] =>
      is_digit a && is_digit b && is_digit c &&
      bytes_eqb (dec_of_Z (code / 100)) [a]
  | _ => false
  end.

Lemma code3_table : forallb (fun n => code3_ok (Z.of_nat n)) (seq 100 900) = true.
Proof. vm_compute. reflexivity. Qed.

Lemma code3 code : (100 <= code <= 999)%Z -> code3_ok code = true.
Proof.
  intros H. pose proof code3_table as T. rewrite forallb_forall in T.
  specialize (T (Z.to_nat code)). rewrite Z2Nat.id in T by lia. apply T.
  apply in_seq. lia.
Qed.

Lemma code3_shape code :
  (100 <= code <= 999)%Z ->
  exists a b c, dec_of_Z code = [a; b; c] /\ is_digit a = true /\ is_digit b = true /\
                is_digit c = true /\ dec_of_Z (code / 100) = [a].
Proof.
  intros H. pose proof (code3 code H) as K. unfold code3_ok in K.
  destruct (dec_of_Z code) as [|a [|b [|c [|d r]]]]; try discriminate.
  apply andb_true_iff in K as [K K4]. apply andb_true_iff in K as [K K3].
  apply andb_true_iff in K as [K1 K2]. apply bytes_eqb_eq in K4.
  exists a, b, c. repeat split; assumption.
Qed.

(* the class of a reply code: its first digit *)
Lemma class_bounds code lo hi :
  (100 * lo <= code < 100 * (hi + 1))%Z -> (lo <= code / 100 <= hi)%Z.
Proof.
  intros H. split; [apply Z.div_le_lower_bound|apply Z.lt_succ_r, Z.div_lt_upper_bound]; lia.
Qed.

(* what precedes the text on each line *)
Definition ec_pre (ec : ecode) : bytes :=
  if ec_eqb ec no_ec then [] else ec_text ec ++ [" "].

Definition rline (code : Z) (ec : ecode) (sep : ascii) (t : bytes) : bytes :=
  dec_of_Z code ++ sep :: ec_pre ec ++ t.

(* the separator of a line is decided by what follows it *)
Definition sep_before (r : list bytes) : ascii := match r with [] => " " | _ :: _ => "-" end.

Lemma sep_before_cases r : sep_before r = " " \/ sep_before r = "-".
Proof. destruct r; auto. Qed.

Lemma reply_lines_step code ec t r :
  reply_lines code ec (t :: r) = rline code ec (sep_before r) t :: reply_lines code ec r.
Proof.
  unfold rline, ec_pre. destruct r; cbn [reply_lines sep_before];
    (destruct (ec_eqb ec no_ec); [reflexivity|]); rewrite <- app_assoc; reflexivity.
Qed.

Lemma write_response_eq code ec texts :
  write_response code ec texts =
  flat_map (fun l => l ++ crlf)
    (reply_lines code (default_ec code ec) (split_byte LF (join [LF] texts))).
Proof. reflexivity. Qed.

Lemma ec_pre_ecch ec : forallb (fun c => ecch c || Ascii.eqb c " ") (ec_pre ec) = true.
Proof.
  unfold ec_pre. destruct (ec_eqb ec no_ec); [reflexivity|].
  rewrite forallb_app. cbn [forallb]. rewrite andb_true_r.
  eapply forallb_impl; [|apply ec_text_ecch]. intros c Hc. rewrite Hc. reflexivity.
Qed.

Lemma rline_not c code ec sep t :
  ecch c = false -> Ascii.eqb c " " = false -> Ascii.eqb c sep = false ->
  mem_byte c t = false -> mem_byte c (rline code ec sep t) = false.
Proof.
  intros H1 H2 H3 H4.
  assert (Hp : mem_byte c (ec_pre ec) = false)
    by (eapply forallb_not_mem; [apply ec_pre_ecch|]; cbv beta; rewrite H1, H2; reflexivity).
  unfold rline. rewrite mem_byte_app. cbn [mem_byte].
  rewrite mem_byte_app, H3, H4, Hp, zch_not; [reflexivity|].
  unfold ecch in H1. apply orb_false_iff in H1 as [H1 _]. exact H1.
Qed.

Lemma reply_lines_not c code ec ts :
  ecch c = false -> Ascii.eqb c " " = false -> Ascii.eqb c "-" = false ->
  Forall (fun t => mem_byte c t = false) ts ->
  Forall (fun l => mem_byte c l = false) (reply_lines code ec ts).
Proof.
  intros H1 H2 H3 Hts. induction Hts as [|t r Ht Hr IH]; [constructor|].
  rewrite reply_lines_step. constructor; [|exact IH].
  apply rline_not; try assumption. destruct r; assumption.
Qed.

Lemma crlf_lines_app l s :
  mem_byte CR l = false -> mem_byte LF l = false ->
  crlf_lines (l ++ crlf ++ s) = option_map (cons l) (crlf_lines s).
Proof.
  induction l as [|x l IH]; cbn [mem_byte app]; intros H1 H2.
  - reflexivity.
  - apply orb_false_iff in H1 as [H1 H1']. apply orb_false_iff in H2 as [H2 H2'].
    cbn [crlf_lines]. rewrite (Ascii.eqb_sym x LF), H2, (Ascii.eqb_sym x CR), H1.
    rewrite (IH H1' H2'). destruct (crlf_lines s); reflexivity.
Qed.

Lemma crlf_lines_flat_map ls :
  Forall (fun l => mem_byte CR l = false) ls -> Forall (fun l => mem_byte LF l = false) ls ->
  crlf_lines (flat_map (fun l => l ++ crlf) ls) = Some ls.
Proof.
  induction ls as [|l ls IH]; intros H1 H2; [reflexivity|].
  inversion H1; inversion H2; subst. cbn [flat_map]. rewrite <- app_assoc.
  rewrite crlf_lines_app by assumption. rewrite IH by assumption. reflexivity.
Qed.

(* the lines writeResponse prints the texts on: joined by LF, then cut at
   every LF *)
Definition lines_of (texts : list bytes) : list bytes := split_byte LF (join [LF] texts).

Lemma lines_of_no_lf texts : Forall (fun l => mem_byte LF l = false) (lines_of texts).
Proof. apply split_byte_no_sep. Qed.

Lemma mem_byte_join c sep ts :
  mem_byte c sep = false -> Forall (fun t => mem_byte c t = false) ts ->
  mem_byte c (join sep ts) = false.
Proof.
  intros Hs H. induction H as [|t r Ht Hr IH]; [reflexivity|].
  destruct r as [|t' r']; [exact Ht|].
  rewrite join_cons2, !mem_byte_app, Ht, Hs, IH. reflexivity.
Qed.

Lemma forallb_join (P : ascii -> bool) sep ts :
  forallb P sep = true -> Forall (fun t => forallb P t = true) ts ->
  forallb P (join sep ts) = true.
Proof.
  intros Hs H. induction H as [|t r Ht Hr IH]; [reflexivity|].
  destruct r as [|t' r']; [exact Ht|].
  rewrite join_cons2, forallb_app, forallb_app, Ht, Hs. exact IH.
Qed.

Lemma split_no_other c d s :
  mem_byte c s = false -> Forall (fun l => mem_byte c l = false) (split_byte d s).
Proof.
  intros H. apply split_byte_not.
  eapply forallb_impl; [|apply mem_false_forallb, H]. intros x Hx. cbv beta in *. rewrite Hx. reflexivity.
Qed.

Lemma lines_of_no_cr texts :
  Forall (fun t => mem_byte CR t = false) texts ->
  Forall (fun l => mem_byte CR l = false) (lines_of texts).
Proof.
  intros H. apply split_no_other. apply mem_byte_join; [reflexivity|exact H].
Qed.

Definition printable_or_lf (c : ascii) : bool := text_octet c || Ascii.eqb c LF.

Lemma lines_of_printable texts :
  Forall (fun t => forallb printable_or_lf t = true) texts ->
  Forall (fun l => forallb text_octet l = true) (lines_of texts).
Proof.
  intros H. apply split_byte_forall. apply forallb_join; [reflexivity|exact H].
Qed.

(* a rendered reply splits back into the lines that were printed *)
Lemma crlf_lines_rendered code ec texts :
  Forall (fun t => mem_byte CR t = false) texts ->
  crlf_lines (write_response code ec texts)
  = Some (reply_lines code (default_ec code ec) (lines_of texts)).
Proof.
  intros H. rewrite write_response_eq. fold (lines_of texts).
  apply crlf_lines_flat_map; apply reply_lines_not; try reflexivity;
    [apply lines_of_no_cr, H|apply lines_of_no_lf].
Qed.

Lemma line_ok_rline a b c code ec sep t :
  dec_of_Z code = [a; b; c] -> forallb text_octet t = true ->
  line_ok [a; b; c] sep (rline code ec sep t) = true.
Proof.
  intros Hc Ht. unfold rline. rewrite Hc. cbn [app]. unfold line_ok.
  rewrite bytes_eqb_refl, Ascii.eqb_refl, forallb_app, Ht. cbn [andb].
  rewrite andb_true_r. eapply forallb_impl; [|apply ec_pre_ecch].
  intros x Hx. cbv beta in Hx. apply orb_true_iff in Hx as [Hx|Hx].
  - apply ecch_text. exact Hx.
  - apply Ascii.eqb_eq in Hx. subst x. reflexivity.
Qed.

Lemma lines_wf_cons2 code l l' ls :
  lines_wf code (l :: l' :: ls) = line_ok code "-" l && lines_wf code (l' :: ls).
Proof. reflexivity. Qed.

Lemma lines_wf_reply_lines a b c code ec ts :
  dec_of_Z code = [a; b; c] -> ts <> [] ->
  Forall (fun t => forallb text_octet t = true) ts ->
  lines_wf [a; b; c] (reply_lines code ec ts) = true.
Proof.
  intros Hc Hne H. induction H as [|t r Ht Hr IH]; [congruence|].
  rewrite reply_lines_step. destruct r as [|t' r'].
  - cbn [reply_lines lines_wf sep_before]. apply line_ok_rline; assumption.
  - rewrite (reply_lines_step _ _ t' r'), lines_wf_cons2, <- reply_lines_step.
    cbn [sep_before]. rewrite line_ok_rline by assumption. apply IH. discriminate.
Qed.

Lemma reply_code_of_reply_lines a b c code ec ts :
  dec_of_Z code = [a; b; c] -> ts <> [] ->
  reply_code_of (reply_lines code ec ts) = [a; b; c].
Proof.
  intros Hc Hne. destruct ts as [|t r]; [congruence|].
  rewrite reply_lines_step. unfold rline. rewrite Hc. reflexivity.
Qed.

(* C04 (well-formedness): every reply writeResponse prints for a code in
   200..599, ANY enhanced code and any list of texts over HT / 0x20-0x7E / LF
   (LF separates lines; the list may even be empty) is exactly one RFC 5321
   reply for the strict recogniser. *)
Theorem render_wf code ec texts :
  (200 <= code <= 599)%Z ->
  Forall (fun t => forallb printable_or_lf t = true) texts ->
  reply_wf (write_response code ec texts) = true.
Proof.
  intros Hcode Ht.
  destruct (code3_shape code ltac:(lia)) as (a & b & c & Hc & Da & Db & Dc & Hcls).
  assert (Hne : lines_of texts <> []) by apply split_byte_nonempty.
  unfold reply_wf. rewrite crlf_lines_rendered.
  - rewrite (reply_code_of_reply_lines a b c) by assumption.
    rewrite (lines_wf_reply_lines a b c) by (assumption || apply lines_of_printable, Ht).
    unfold code_ok. rewrite Db, Dc, !andb_true_r.
    assert (K : (code / 100 = 2 \/ code / 100 = 3 \/ code / 100 = 4 \/ code / 100 = 5)%Z)
      by (pose proof (class_bounds code 2 5); lia).
    destruct K as [K|[K|[K|K]]]; rewrite K in Hcls; injection Hcls as <-; reflexivity.
  - eapply Forall_impl; [|exact Ht]. intros t H. eapply forallb_not_mem; [exact H|reflexivity].
Qed.

Example render_wf_ex :
  Forall (fun t => forallb printable_or_lf t = true) [bs "first"; bs "second" ++ LF :: bs "third"]
  /\ write_response 250 ec_not_set [bs "first"; bs "second" ++ LF :: bs "third"]
     = bs "250-2.0.0 first" ++ crlf ++ bs "250-2.0.0 second" ++ crlf ++ bs "250 2.0.0 third" ++ crlf.
Proof. split; [repeat constructor|vm_compute; reflexivity]. Qed.

Lemma digits_then_ok stop d seen r :
  forallb is_digit d = true -> (d <> [] \/ seen = true) -> is_digit stop = false ->
  digits_then stop seen (d ++ stop :: r) = Some r.
Proof.
  intros Hd. revert seen. induction d as [|x d IH]; intros seen Hs Hstop.
  - destruct Hs as [Hs|Hs]; [congruence|]. subst seen. cbn [app digits_then].
    rewrite Hstop, Ascii.eqb_refl. reflexivity.
  - cbn [forallb] in Hd. apply andb_true_iff in Hd as [Hx Hd].
    cbn [app digits_then]. rewrite Hx. apply IH; [exact Hd|right; reflexivity|exact Hstop].
Qed.

Lemma dec_of_Z_nonneg z : (0 <= z)%Z -> dec_of_Z z = dec_of_N (Z.to_N z).
Proof. intros H. unfold dec_of_Z. destruct (z <? 0)%Z eqn:E; [apply Z.ltb_lt in E; lia|reflexivity]. Qed.

Definition ec_class_is (code : Z) (ec : ecode) : Prop :=
  let '(a, b, c) := ec in a = (code / 100)%Z /\ (0 <= b)%Z /\ (0 <= c)%Z.

Lemma line_ec_ok_rline code a b c sep t :
  (100 <= code <= 999)%Z -> (0 <= b)%Z -> (0 <= c)%Z -> a = (code / 100)%Z ->
  line_ec_ok (rline code (a, b, c) sep t) = true.
Proof.
  intros Hcode Hb Hc Ha.
  destruct (code3_shape code Hcode) as (x & y & z & Hd & _ & _ & _ & Hcls).
  assert (Hne : ec_eqb (a, b, c) no_ec = false).
  { unfold ec_eqb, no_ec. destruct (b =? -1)%Z eqn:E; [apply Z.eqb_eq in E; lia|].
    rewrite andb_false_r. reflexivity. }
  unfold rline, ec_pre. rewrite Hne, Hd. cbn [app line_ec_ok].
  unfold ec_text. subst a. rewrite Hcls. cbn [app]. unfold starts_with_ec.
  rewrite !Ascii.eqb_refl. cbn [andb].
  rewrite !dec_of_Z_nonneg by assumption.
  rewrite <- !app_assoc. cbn [app].
  rewrite digits_then_ok; [|apply dec_of_N_digits|left; apply dec_of_N_nonempty|reflexivity].
  rewrite digits_then_ok; [reflexivity|apply dec_of_N_digits|left; apply dec_of_N_nonempty|reflexivity].
Qed.

(* C04 (class): when the enhanced code that is sent (after defaulting) has the
   class of the reply code and non-negative subject/detail, every line of the
   reply starts with it.  Texts must not contain CR (else the reply is not a
   sequence of CRLF lines at all). *)
Theorem render_ec_class code ec texts :
  (100 <= code <= 999)%Z ->
  ec_class_is code (default_ec code ec) ->
  Forall (fun t => mem_byte CR t = false) texts ->
  reply_ec_class_ok (write_response code ec texts) = true.
Proof.
  intros Hcode Hcls Ht. unfold reply_ec_class_ok. rewrite crlf_lines_rendered by exact Ht.
  destruct (default_ec code ec) as [[a b] c]. destruct Hcls as (Ha & Hb & Hc).
  assert (K : forall ts, forallb line_ec_ok (reply_lines code (a, b, c) ts) = true).
  { induction ts as [|t r IH]; [reflexivity|]. rewrite reply_lines_step. cbn [forallb].
    rewrite line_ec_ok_rline by assumption. exact IH. }
  destruct (lines_of texts) as [|t r] eqn:E; [destruct (split_byte_nonempty _ _ E)|].
  specialize (K (t :: r)). rewrite reply_lines_step in *. exact K.
Qed.

(* EnhancedCodeNotSet becomes X.0.0 of the code's class for 2xx/4xx/5xx, and
   that default satisfies the hypothesis of [render_ec_class] *)
Theorem defaulting_ok code :
  (200 <= code <= 299 \/ 400 <= code <= 599)%Z ->
  default_ec code ec_not_set = (code / 100, 0, 0)%Z /\
  ec_class_is code (default_ec code ec_not_set).
Proof.
  intros H. unfold default_ec. change (ec_eqb ec_not_set ec_not_set) with true. cbv iota.
  assert (K : (code / 100 = 2 \/ code / 100 = 4 \/ code / 100 = 5)%Z)
    by (pose proof (class_bounds code 2 2); pose proof (class_bounds code 4 5); lia).
  destruct K as [K|[K|K]]; rewrite K; cbn; repeat split; lia.
Qed.

Example render_ec_class_ex :
  ec_class_is 550 (default_ec 550 (5, 1, 1)%Z) /\ ec_class_is 451 (default_ec 451 ec_not_set)
  /\ reply_ec_class_ok (write_response 550 (5, 1, 1)%Z [bs "a" ++ LF :: bs "b"]) = true.
Proof. split; [|split]; vm_compute; repeat split; congruence. Qed.

(* textproto's ReadLine on a CRLF-terminated line *)

Lemma strip_cr_snoc l : strip_cr (l ++ [CR]) = l.
Proof.
  induction l as [|x l IH]; [reflexivity|].
  cbn [app strip_cr]. destruct (l ++ [CR]) as [|y r] eqn:E; [destruct l; discriminate|].
  rewrite IH. reflexivity.
Qed.

Lemma read_line_crlf l r :
  mem_byte LF l = false -> read_line (l ++ crlf ++ r) = Some (l, r).
Proof.
  intros H. replace (l ++ crlf ++ r) with ((l ++ [CR]) ++ LF :: r)
    by (rewrite <- app_assoc; reflexivity).
  unfold read_line.
  destruct ((l ++ [CR]) ++ LF :: r) as [|c s] eqn:E.
  - apply app_eq_nil in E as [_ E]. discriminate.
  - rewrite <- E. rewrite cut_byte_app.
    + rewrite strip_cr_snoc. reflexivity.
    + rewrite mem_byte_app, H. reflexivity.
Qed.

(* textproto's parseCodeLine on a line that starts with a printed code *)

Lemma parse_code_line_code code sep m expect :
  (100 <= code <= 999)%Z -> sep = " " \/ sep = "-" ->
  parse_code_line (dec_of_Z code ++ sep :: m) expect =
  (code, Ascii.eqb sep "-", m, if expect_mismatch expect code then TPError code m else TPNone).
Proof.
  intros Hcode Hsep.
  destruct (code3_shape code Hcode) as (a & b & c & Hd & _).
  assert (Ha : atoi [a; b; c] = Some code).
  { rewrite <- Hd. apply atoi_dec_of_Z. unfold int_ok, int_min, int_max. lia. }
  rewrite Hd. cbn [app]. unfold parse_code_line. rewrite Ha.
  assert (Hlt : (code <? 100)%Z = false) by (apply Z.ltb_ge; lia). rewrite Hlt.
  destruct Hsep as [-> | ->]; reflexivity.
Qed.

Lemma expect_mismatch_0 code : expect_mismatch 0 code = false.
Proof. reflexivity. Qed.

(* textproto's continuation loop over the remaining rendered lines *)

Lemma rline_no_lf code ec sep t :
  sep = " " \/ sep = "-" -> mem_byte LF t = false -> mem_byte LF (rline code ec sep t) = false.
Proof. intros [-> | ->] H; apply rline_not; try reflexivity; exact H. Qed.

Lemma read_more_lines code ec rest :
  (100 <= code <= 999)%Z ->
  forall r, r <> [] -> Forall (fun t => mem_byte LF t = false) r ->
  forall fuel message, (List.length r <= fuel)%nat ->
  read_more fuel code message
    (flat_map (fun l => l ++ crlf) (reply_lines code ec r) ++ rest)
  = Some (message ++ List.concat (map (cons LF) (map (app (ec_pre ec)) r)), rest).
Proof.
  intros Hcode r Hne H. induction H as [|t r Ht Hr IH]; [congruence|].
  intros fuel message Hfuel. destruct fuel as [|f]; [cbn [List.length] in Hfuel; lia|].
  rewrite reply_lines_step. cbn [flat_map]. rewrite <- !app_assoc.
  cbn [read_more]. rewrite read_line_crlf by (apply rline_no_lf; [apply sep_before_cases|exact Ht]).
  unfold rline at 1. rewrite parse_code_line_code by (assumption || apply sep_before_cases).
  rewrite expect_mismatch_0. cbn [tp_is_err orb]. rewrite Z.eqb_refl. cbn [negb].
  destruct r as [|t' r']; cbn [sep_before map List.concat].
  - rewrite app_nil_r. reflexivity.
  - change (Ascii.eqb "-" "-") with true. cbv iota.
    rewrite IH; [|discriminate|cbn [List.length] in *; lia].
    cbn [map List.concat]. rewrite <- !app_assoc. reflexivity.
Qed.

Lemma reply_lines_length code ec ts : List.length (reply_lines code ec ts) = List.length ts.
Proof.
  induction ts as [|t r IH]; [reflexivity|].
  rewrite reply_lines_step. cbn [List.length]. rewrite IH. reflexivity.
Qed.

Lemma flat_map_crlf_length (ls : list bytes) :
  (List.length ls <= List.length (flat_map (fun l => l ++ crlf) ls))%nat.
Proof.
  induction ls as [|l ls IH]; [reflexivity|].
  cbn [flat_map]. rewrite !app_length. cbn [List.length crlf]. lia.
Qed.

(* the message textproto assembles: the lines' texts (with the enhanced code
   still in front of each), joined by LF *)
Definition wire_msg (ec : ecode) (lines : list bytes) : bytes :=
  join [LF] (map (app (ec_pre ec)) lines).

Lemma join_concat (x : bytes) l : join [LF] (x :: l) = x ++ List.concat (map (cons LF) l).
Proof.
  revert x. induction l as [|y l IH]; intros x.
  - cbn [join map List.concat]. rewrite app_nil_r. reflexivity.
  - rewrite join_cons2, IH. reflexivity.
Qed.

Lemma nonempty_app_cons (a : bytes) c b :
  match a ++ c :: b with [] => true | _ :: _ => false end = false.
Proof. destruct a; reflexivity. Qed.

Lemma read_response_rendered code ec lines expect rest :
  (100 <= code <= 999)%Z -> lines <> [] ->
  Forall (fun t => mem_byte LF t = false) lines ->
  read_response expect (flat_map (fun l => l ++ crlf) (reply_lines code ec lines) ++ rest)
  = ((code, wire_msg ec lines,
      if expect_mismatch expect code then TPError code (wire_msg ec lines) else TPNone), rest).
Proof.
  intros Hcode Hne H. destruct lines as [|t r]; [congruence|].
  inversion H as [|? ? Ht Hr]; subst.
  rewrite reply_lines_step. cbn [flat_map]. rewrite <- !app_assoc. unfold read_response.
  rewrite read_line_crlf by (apply rline_no_lf; [apply sep_before_cases|exact Ht]).
  unfold rline at 1. rewrite parse_code_line_code by (assumption || apply sep_before_cases).
  destruct r as [|t' r]; cbn [sep_before].
  - reflexivity.
  - change (Ascii.eqb "-" "-") with true. cbv iota.
    rewrite read_more_lines; [|assumption|discriminate|assumption|].
    + unfold wire_msg. cbn [map]. rewrite join_concat.
      cbn [map List.concat app]. rewrite nonempty_app_cons.
      destruct (expect_mismatch expect code); reflexivity.
    + pose proof (flat_map_crlf_length (reply_lines code ec (t' :: r))) as L.
      rewrite reply_lines_length in L. rewrite app_length. lia.
Qed.

(* toSMTPErr on the assembled message *)

Lemma is_prefix_app p s : is_prefix p (p ++ s) = true.
Proof.
  induction p as [|x p IH]; [reflexivity|]. cbn [app is_prefix].
  rewrite Ascii.eqb_refl, IH. reflexivity.
Qed.

Lemma replace_skip pat rep l s :
  replace_all_f pat rep (List.length l) (l ++ s) = replace_all_f pat rep O s.
Proof.
  induction l as [|x l IH]; [reflexivity|]. cbn [List.length app replace_all_f]. exact IH.
Qed.

Lemma replace_at_match c p rep s :
  replace_all_f (c :: p) rep O ((c :: p) ++ s) = rep ++ replace_all_f (c :: p) rep O s.
Proof.
  cbn [app]. cbn [replace_all_f].
  change (c :: p ++ s) with ((c :: p) ++ s). rewrite is_prefix_app.
  cbn [List.length Nat.pred]. rewrite replace_skip. reflexivity.
Qed.

Lemma replace_no_lf p rep t s :
  mem_byte LF t = false ->
  replace_all_f (LF :: p) rep O (t ++ s) = t ++ replace_all_f (LF :: p) rep O s.
Proof.
  induction t as [|x t IH]; cbn [mem_byte app]; intros H; [reflexivity|].
  apply orb_false_iff in H as [H1 H2].
  cbn [replace_all_f is_prefix]. rewrite H1. cbn [andb]. rewrite (IH H2). reflexivity.
Qed.

Lemma replace_nil pat rep : replace_all_f pat rep O [] = [].
Proof. reflexivity. Qed.

(* stripping the repeated enhanced code gives back the lines *)
Lemma replace_lines pre r :
  Forall (fun t => mem_byte LF t = false) r ->
  forall t0, mem_byte LF t0 = false ->
  replace_all (LF :: pre) [LF] (t0 ++ List.concat (map (cons LF) (map (app pre) r)))
  = t0 ++ List.concat (map (cons LF) r).
Proof.
  unfold replace_all. intros H. induction H as [|t1 r Ht1 Hr IH]; intros t0 Ht0.
  - cbn [map List.concat]. rewrite replace_no_lf by exact Ht0. reflexivity.
  - cbn [map List.concat]. rewrite replace_no_lf by exact Ht0.
    change (LF :: pre ++ t1) with ((LF :: pre) ++ t1). rewrite <- app_assoc.
    rewrite replace_at_match. rewrite (IH t1 Ht1). reflexivity.
Qed.

Definition ec_int (ec : ecode) : Prop :=
  let '(a, b, c) := ec in int_ok a /\ int_ok b /\ int_ok c.

Lemma parse_enhanced_code_text ec : ec_int ec -> parse_enhanced_code (ec_text ec) = (ec, true).
Proof.
  destruct ec as [[a b] c]. intros (Ha & Hb & Hc).
  unfold parse_enhanced_code, ec_text.
  rewrite split_byte_app by (apply zch_not; reflexivity).
  rewrite split_byte_app by (apply zch_not; reflexivity).
  rewrite split_byte_single by (apply zch_not; reflexivity).
  rewrite !atoi_dec_of_Z by assumption. reflexivity.
Qed.

Lemma to_smtp_err_wire code ec lines :
  ec_eqb ec no_ec = false -> ec_int ec -> lines <> [] ->
  Forall (fun t => mem_byte LF t = false) lines ->
  to_smtp_err code (wire_msg ec lines) = (code, ec, join [LF] lines).
Proof.
  intros Hne Hint Hl H. destruct lines as [|t0 r]; [congruence|].
  inversion H as [|? ? Ht0 Hr]; subst.
  unfold wire_msg. cbn [map]. rewrite !join_concat.
  unfold ec_pre. rewrite Hne. rewrite <- !app_assoc. cbn [app].
  unfold to_smtp_err.
  rewrite cut_byte_app by (eapply forallb_not_mem; [apply ec_text_ecch|reflexivity]).
  rewrite parse_enhanced_code_text by exact Hint.
  rewrite (replace_lines (ec_text ec ++ [" "]) r Hr t0 Ht0). reflexivity.
Qed.

Lemma wire_msg_no_ec lines : wire_msg no_ec lines = join [LF] lines.
Proof.
  unfold wire_msg, ec_pre. change (ec_eqb no_ec no_ec) with true. cbv iota.
  rewrite (map_ext _ (fun x => x)) by reflexivity. rewrite map_id. reflexivity.
Qed.

Lemma ec_eqb_eq a b : ec_eqb a b = true -> a = b.
Proof.
  destruct a as [[a1 a2] a3], b as [[b1 b2] b3]. unfold ec_eqb. intros H.
  apply andb_true_iff in H as [H H3]. apply andb_true_iff in H as [H1 H2].
  apply Z.eqb_eq in H1, H2, H3. subst. reflexivity.
Qed.

(* what Client.readResponse returns for one rendered reply followed by [rest],
   whatever the enhanced code: code and raw message, and toSMTPErr of that
   message when expectCode rejects the code *)
Lemma client_read_rendered code ec texts expect rest :
  (100 <= code <= 999)%Z ->
  client_read_response expect (write_response code ec texts ++ rest) =
  let w := wire_msg (default_ec code ec) (split_byte LF (join [LF] texts)) in
  ((code, w, if expect_mismatch expect code then cerr_of_tp (TPError code w) else CNil), rest).
Proof.
  intros Hcode. rewrite write_response_eq. unfold client_read_response.
  rewrite read_response_rendered;
    [|assumption|apply split_byte_nonempty|apply split_byte_no_sep].
  destruct (expect_mismatch expect code); reflexivity.
Qed.

(* the enhanced code that was sent is present: it is stripped from every line *)
Theorem roundtrip_response code ec msg expect rest :
  (100 <= code <= 999)%Z ->
  ec_eqb (default_ec code ec) no_ec = false -> ec_int (default_ec code ec) ->
  client_read_response expect (write_response code ec [msg] ++ rest) =
  ((code, wire_msg (default_ec code ec) (split_byte LF msg),
    if expect_mismatch expect code then CSmtp code (default_ec code ec) msg else CNil), rest).
Proof.
  intros Hcode Hne Hint. rewrite client_read_rendered by assumption. cbn [cerr_of_tp join].
  rewrite to_smtp_err_wire;
    [|assumption|assumption|apply split_byte_nonempty|apply split_byte_no_sep].
  rewrite join_split_byte. reflexivity.
Qed.

(* ... and when no enhanced code is sent (NoEnhancedCode, or unset with a code
   outside 2xx/4xx/5xx): the client sees the bare message and applies
   toSMTPErr to it *)
Theorem roundtrip_response_no_ec code ec msg expect rest :
  (100 <= code <= 999)%Z ->
  ec_eqb (default_ec code ec) no_ec = true ->
  client_read_response expect (write_response code ec [msg] ++ rest) =
  ((code, msg,
    if expect_mismatch expect code
    then let '(c, e, m) := to_smtp_err code msg in CSmtp c e m else CNil), rest).
Proof.
  intros Hcode He. apply ec_eqb_eq in He.
  rewrite client_read_rendered, He, wire_msg_no_ec, join_split_byte by assumption. reflexivity.
Qed.

(* for a 4xx/5xx reply, defaulting sends an enhanced code the client can read *)
Lemma default_ec_sent code ec :
  (400 <= code <= 599)%Z -> ec_eqb ec no_ec = false -> ec_int ec ->
  ec_eqb (default_ec code ec) no_ec = false /\ ec_int (default_ec code ec).
Proof.
  intros Hc Hne Hi. unfold default_ec. destruct (ec_eqb ec ec_not_set); [|split; assumption].
  pose proof (class_bounds code 4 5) as K.
  assert (E : (code / 100 = 4 \/ code / 100 = 5)%Z) by lia.
  destruct E as [-> | ->]; split; cbn; unfold int_ok, int_min, int_max; (reflexivity || lia).
Qed.

(* every expectCode the client passes for a command whose success reply is
   2xx or 3xx (250, 354, 220, 221, 235, 25, 2, ...) rejects a 4xx/5xx reply *)
Lemma expect_mismatch_4xx5xx expect code :
  (400 <= code <= 599)%Z ->
  (1 <= expect < 4 \/ 10 <= expect < 40 \/ 100 <= expect < 400)%Z ->
  expect_mismatch expect code = true.
Proof.
  intros Hc He. unfold expect_mismatch.
  pose proof (class_bounds code 4 5) as H100.
  assert (H10 : (40 <= code / 10)%Z) by (apply Z.div_le_lower_bound; lia).
  rewrite !orb_true_iff, !andb_true_iff, !negb_true_iff, !Z.leb_le, !Z.ltb_lt, !Z.eqb_neq. lia.
Qed.

(* the reply octets for a backend error e:
   NewSession / Mail / Rcpt: writeError(451, {4,0,0}, e)  (conn.go:250, 443, 751);
   Data: writeResponse(dataErrorToStatus(e))               (conn.go:951, 1074, 1098) *)
Definition envelope_reply (e : berr) : bytes := write_error 451 (4, 0, 0)%Z e.
Definition data_reply (e : berr) : bytes :=
  let '(c, ec, m) := data_error_to_status e in write_response c ec [m].

(* C17, SMTPError.  For EVERY message text (any octets: empty, leading /
   trailing spaces, lines that look like an enhanced code or like a reply
   line, non-ASCII, CR, any number of LF-separated lines), every reply code
   400..599, every enhanced code other than NoEnhancedCode (unset, or any
   three ints - class consistency and non-negativity are not needed), every
   expectCode that does not accept the code, and whatever follows on the
   stream: the client returns the reply's code and
   SMTPError{code, default_ec code ec, msg}, having consumed exactly the
   reply.  Same for the reply written on the Data path. *)
Theorem C17_roundtrip code ec msg expect rest :
  (400 <= code <= 599)%Z ->
  ec_eqb ec no_ec = false -> ec_int ec ->
  expect_mismatch expect code = true ->
  client_read_response expect (envelope_reply (BSmtp code ec msg) ++ rest)
  = ((code, wire_msg (default_ec code ec) (split_byte LF msg),
      CSmtp code (default_ec code ec) msg), rest)
  /\
  client_read_response expect (data_reply (BSmtp code ec msg) ++ rest)
  = ((code, wire_msg (default_ec code ec) (split_byte LF msg),
      CSmtp code (default_ec code ec) msg), rest).
Proof.
  intros Hc Hne Hi Hm. destruct (default_ec_sent code ec Hc Hne Hi) as [Hne' Hi'].
  assert (R := roundtrip_response code ec msg expect rest ltac:(lia) Hne' Hi').
  rewrite Hm in R. split; exact R.
Qed.

(* expectCode = 0, which textproto never rejects (the client uses it for AUTH
   only and inspects the code itself): readResponse returns no error, the
   caller gets the code and the raw message, enhanced code still in front of
   every line *)
Corollary C17_expect_zero code ec msg rest :
  (400 <= code <= 599)%Z -> ec_eqb ec no_ec = false -> ec_int ec ->
  client_read_response 0 (envelope_reply (BSmtp code ec msg) ++ rest)
  = ((code, wire_msg (default_ec code ec) (split_byte LF msg), CNil), rest).
Proof.
  intros Hc Hne Hi. destruct (default_ec_sent code ec Hc Hne Hi) as [Hne' Hi'].
  exact (roundtrip_response code ec msg 0 rest ltac:(lia) Hne' Hi').
Qed.

(* C17, any other error: 451 4.0.0 + its text for session creation, MAIL and
   RCPT; 554 5.0.0 "Error: transaction failed: " + its text for DATA; and the
   client gets exactly that back *)
Theorem C17_generic m expect rest :
  envelope_reply (BPlain m) = write_response 451 (4, 0, 0)%Z [m] /\
  data_reply (BPlain m) =
    write_response 554 (5, 0, 0)%Z [bs "Error: transaction failed: " ++ m] /\
  (expect_mismatch expect 451 = true ->
   client_read_response expect (envelope_reply (BPlain m) ++ rest)
   = ((451%Z, wire_msg (4, 0, 0)%Z (split_byte LF m), CSmtp 451 (4, 0, 0)%Z m), rest)) /\
  (expect_mismatch expect 554 = true ->
   client_read_response expect (data_reply (BPlain m) ++ rest)
   = ((554%Z, wire_msg (5, 0, 0)%Z (split_byte LF (bs "Error: transaction failed: " ++ m)),
       CSmtp 554 (5, 0, 0)%Z (bs "Error: transaction failed: " ++ m)), rest)).
Proof.
  split; [reflexivity|]. split; [reflexivity|]. split; intros Hm.
  - assert (R := roundtrip_response 451 (4, 0, 0)%Z m expect rest ltac:(lia) eq_refl).
    rewrite Hm in R. apply R. cbn. unfold int_ok, int_min, int_max. lia.
  - assert (R := roundtrip_response 554 (5, 0, 0)%Z
                   (bs "Error: transaction failed: " ++ m) expect rest ltac:(lia) eq_refl).
    rewrite Hm in R. apply R. cbn. unfold int_ok, int_min, int_max. lia.
Qed.

(* C17, NoEnhancedCode (explicitly absent): the wire format has no place to
   say "absent", so equality is impossible in general; the exact image is
   toSMTPErr applied to the bare message: EnhancedCodeNotSet and the message
   unchanged, unless the message's first word parses as an enhanced code, in
   which case that look-alike is taken (and stripped from the start of every
   line that repeats it). *)
Theorem C17_no_enhanced_code_image code msg expect rest :
  (100 <= code <= 999)%Z ->
  expect_mismatch expect code = true ->
  client_read_response expect (envelope_reply (BSmtp code no_ec msg) ++ rest)
  = ((code, msg, let '(c, e, m) := to_smtp_err code msg in CSmtp c e m), rest)
  /\
  client_read_response expect (data_reply (BSmtp code no_ec msg) ++ rest)
  = ((code, msg, let '(c, e, m) := to_smtp_err code msg in CSmtp c e m), rest).
Proof.
  intros Hc Hm.
  assert (R := roundtrip_response_no_ec code no_ec msg expect rest Hc eq_refl).
  rewrite Hm in R. split; exact R.
Qed.

(* toSMTPErr on a message without SP, or whose first word is not an enhanced
   code, changes nothing *)
Lemma to_smtp_err_plain code msg :
  (match cut_byte " " msg with
   | None => True
   | Some (w, _) => snd (parse_enhanced_code w) = false
   end) ->
  to_smtp_err code msg = (code, ec_not_set, msg).
Proof.
  unfold to_smtp_err. destruct (cut_byte " " msg) as [[w r]|]; [|reflexivity].
  destruct (parse_enhanced_code w) as [e ok]. cbn [snd]. intros ->. reflexivity.
Qed.

(* non-vacuity and the message shapes named by the property *)
Example C17_roundtrip_ex :
  let msg := bs " 5.1.1 looks like a code " ++ LF :: [] ++ LF :: bs "5.1.1 na" ++ [n_byte 195; n_byte 175] ++ bs "ve  " in
  ec_eqb (5, 1, 1)%Z no_ec = false /\ ec_int (5, 1, 1)%Z /\ expect_mismatch 250 550 = true /\
  envelope_reply (BSmtp 550 (5, 1, 1)%Z msg)
  = bs "550-5.1.1  5.1.1 looks like a code " ++ crlf ++ bs "550-5.1.1 " ++ crlf ++
    bs "550 5.1.1 5.1.1 na" ++ [n_byte 195; n_byte 175] ++ bs "ve  " ++ crlf /\
  client_read_response 250 (envelope_reply (BSmtp 550 (5, 1, 1)%Z msg) ++ bs "250 next")
  = ((550%Z, wire_msg (5, 1, 1)%Z (split_byte LF msg), CSmtp 550 (5, 1, 1)%Z msg), bs "250 next").
Proof.
  cbv zeta. split; [reflexivity|]. split; [cbn; unfold int_ok, int_min, int_max; lia|].
  split; [reflexivity|]. split; vm_compute; reflexivity.
Qed.

Example C17_unset_and_empty_ex :
  client_read_response 25 (data_reply (BSmtp 452 ec_not_set []) ++ bs "x")
  = ((452%Z, bs "4.0.0 ", CSmtp 452 (4, 0, 0)%Z []), bs "x")
  /\ data_reply (BSmtp 452 ec_not_set []) = bs "452 4.0.0 " ++ crlf.
Proof. split; vm_compute; reflexivity. Qed.

Example expect_mismatch_call_sites :
  forallb (fun e => expect_mismatch e 550 && expect_mismatch e 421)
          [250; 354; 25; 220; 221; 235; 334; 2; 3]%Z = true
  /\ expect_mismatch 0 550 = false /\ expect_mismatch 550 550 = false
  /\ expect_mismatch 5 550 = false /\ expect_mismatch 55 550 = false.
Proof. vm_compute. repeat split; reflexivity. Qed.
