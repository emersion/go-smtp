(* The C13 oracle (CheckLmtp.v) accepts everything the models can do: the
   sequential collector of Lmtp.v, every finished run of the two-task model
   LmtpConc.v under every schedule, and the plain-backend shape.  Also: how
   Conn.v's reply events relate to the specification's rendering. *)
From Smtp Require Import Bytes Reply Lmtp LmtpSpec LmtpProofs CheckLmtp Conn.

Lemma list_bytes_eqb_refl l : list_bytes_eqb l l = true.
Proof. induction l as [|x l IH]; [reflexivity|]. cbn. rewrite bytes_eqb_refl, IH. reflexivity. Qed.

(* the oracle's comparison is the only thing that looks at the observation;
   it accepts every possible outcome *)
Lemma oracle_core_accepts same single loose rcpts calls ret panic out p :
  outcome rcpts calls ret panic out p -> same out = true ->
  oracle_core same single loose true rcpts calls ret panic = true.
Proof.
  intros (pre & ([post Hc] & Hp & Hok) & ->) Hs. unfold oracle_core.
  destruct (contract_ok rcpts calls) eqn:Ec.
  - destruct (Hok eq_refl) as [-> ->]. destruct panic; [rewrite Hs; reflexivity | exact Hs].
  - destruct p.
    + apply orb_true_iff. left. apply orb_true_iff. right.
      apply existsb_exists. exists (List.length pre). split.
      * apply in_seq. rewrite Hc, app_length. lia.
      * rewrite Hc, firstn_app, Nat.sub_diag, firstn_all. cbn [firstn]. rewrite app_nil_r. exact Hs.
    + destruct (Hp eq_refl) as [-> ->]. rewrite Hs. reflexivity.
Qed.

Lemma oracle_core_loose same single loose sess rcpts calls ret panic :
  oracle_core same single false sess rcpts calls ret panic = true ->
  oracle_core same single loose sess rcpts calls ret panic = true.
Proof.
  unfold oracle_core.
  destruct sess, (contract_ok rcpts calls), panic; rewrite ?orb_false_r; intros H; rewrite ?H; auto.
Qed.

(* what the server model hands out *)
Definition model_statuses (lmtp_session : bool) (rcpts : list bytes) (calls : list (bytes * berr))
           (ret : berr) (panic : bool) : list (bytes * berr) :=
  if lmtp_session then fst (lmtp_statuses rcpts calls ret panic)
  else plain_statuses rcpts (if panic then err_panic else ret).

Lemma oracle_core_accepts_model same single loose sess rcpts calls ret panic :
  same (model_statuses sess rcpts calls ret panic) = true ->
  oracle_core same single loose sess rcpts calls ret panic = true.
Proof.
  unfold model_statuses. destruct sess.
  - apply oracle_core_accepts with (p := snd (lmtp_statuses rcpts calls ret panic)).
    apply lmtp_statuses_outcome.
  - unfold oracle_core. destruct panic; intros Hs; rewrite Hs; reflexivity.
Qed.

(* the oracle is not trivially true *)
Example oracle_rejects_swapped :
  let rc := [ex_a; ex_b] in let cl := [(ex_a, ex_e 1); (ex_b, ex_e 2)] in
  lmtp_oracle true rc cl BNil false (render [(ex_a, ex_e 1); (ex_b, ex_e 2)]) = true /\
  lmtp_oracle true rc cl BNil false (render [(ex_a, ex_e 2); (ex_b, ex_e 1)]) = false /\
  lmtp_oracle true rc cl BNil false (render [(ex_b, ex_e 2); (ex_a, ex_e 1)]) = false /\
  lmtp_oracle true rc cl BNil false (render [(ex_a, ex_e 1)]) = false /\
  lmtp_oracle true rc cl BNil false (render [(ex_a, ex_e 1); (ex_b, ex_e 2); (ex_b, BNil)]) = false /\
  lmtp_oracle false rc [] (ex_e 3) false (render [(ex_a, ex_e 3); (ex_b, BNil)]) = false /\
  lmtp_oracle true rc cl BNil true (render [(ex_a, ex_e 1); (ex_b, err_panic)]) = true /\
  lmtp_oracle true rc cl BNil true [bs "garbage"; bs "garbage"] = false /\
  lmtp_oracle_strict true rc cl BNil true (render [(ex_a, err_panic); (ex_b, err_panic)]) = false.
Proof. vm_compute. repeat split; reflexivity. Qed.

Example wire_replies_example :
  wire_replies (List.concat (render [(ex_a, BSmtp 552 (5, 2, 2)%Z (bs "over quota" ++ [LF] ++ bs "really")); (ex_b, BNil)]))
  = Some (render [(ex_a, BSmtp 552 (5, 2, 2)%Z (bs "over quota" ++ [LF] ++ bs "really")); (ex_b, BNil)]) /\
  replies_name [ex_a; ex_b]
    (render [(ex_a, BSmtp 552 (5, 2, 2)%Z (bs "over quota" ++ [LF] ++ bs "really")); (ex_b, BNil)]) = true /\
  replies_name [ex_b; ex_a]
    (render [(ex_a, BSmtp 552 (5, 2, 2)%Z (bs "over quota" ++ [LF] ++ bs "really")); (ex_b, BNil)]) = false.
Proof. vm_compute. repeat split; reflexivity. Qed.

Lemma status_reply_bytes_eq a e : status_reply a e = EWire (status_reply_bytes a e).
Proof.
  unfold status_reply, status_reply_bytes. destruct (data_error_to_status e) as [[code ec] msg]. reflexivity.
Qed.

Lemma status_replies_render sts :
  map (fun '(a, e) => status_reply a e) sts = map EWire (render sts).
Proof.
  unfold render. rewrite map_map. apply map_ext. intros [a e]. apply status_reply_bytes_eq.
Qed.

(* DATA with a plain backend (Conn.handle_data) and BDAT LAST with a plain
   backend: everybody gets the single result *)
Lemma plain_replies_render rcpts ret :
  map (fun a => status_reply a ret) rcpts = map EWire (render (plain_statuses rcpts ret)).
Proof.
  unfold render, plain_statuses. rewrite !map_map. apply map_ext. intros a. apply status_reply_bytes_eq.
Qed.

(* BDAT LAST in LMTP mode (Conn.bdat_lmtp_replies) with a per-recipient
   backend: all SetStatus calls precede the emission, so the final replies are
   the sequential ones, filled with the error [err] the handler passes to
   fillRemaining, or with errPanic if the recording says the delivery panicked *)
Lemma bdat_lmtp_replies_session cfg b err :
  cf_lmtp_session cfg = true ->
  bdat_lmtp_replies cfg b err =
  (map EWire (render (expected_statuses (bd_rcpts b) (ok_calls (bd_rcpts b) (dp_status (bd_plan b)))
                                        (if bd_panics b then err_panic else err))),
   bd_panics b).
Proof.
  intros Hs. unfold bdat_lmtp_replies. rewrite Hs.
  destruct (run_statuses_mk (bd_rcpts b) (dp_status (bd_plan b))) as (c' & -> & He).
  destruct (bd_panics b); rewrite He, status_replies_render; reflexivity.
Qed.

Lemma bdat_lmtp_replies_plain cfg b err :
  cf_lmtp_session cfg = false ->
  bdat_lmtp_replies cfg b err =
  (map EWire (render (plain_statuses (bd_rcpts b)
     (if bd_panics b then err_panic else match bd_done b with Some v => v | None => BNil end))),
   bd_panics b).
Proof.
  intros Hs. unfold bdat_lmtp_replies. rewrite Hs.
  destruct (bd_panics b); rewrite status_replies_render; reflexivity.
Qed.

(* non-vacuity of the hypotheses of C13_bdat_replies *)
Example bdat_lmtp_replies_example :
  let cfg := mkCfg true false (bs "d") 0%N 0%Z 2000%N false false false false false false true None false in
  let plan := mkDP [4096%nat] None BNil true false [(ex_b, ex_e 1); (ex_a, ex_e 2)] in
  let b := mkBD plan [] (Some BNil) [ex_a; ex_b; ex_a] false in
  cf_lmtp_session cfg = true /\
  contract_ok (bd_rcpts b) (dp_status (bd_plan b)) = true /\
  dp_panic (bd_plan b) = false /\ bd_panics b = false /\
  bdat_lmtp_replies cfg b BNil =
  (map EWire (render [(ex_a, ex_e 2); (ex_b, ex_e 1); (ex_a, BNil)]), false).
Proof. vm_compute. repeat split; reflexivity. Qed.
