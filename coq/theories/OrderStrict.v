(* A stricter version of the monitor of Order.v, used only inside the proofs:
   the same automaton plus one bit ("the session that was live when STARTTLS
   succeeded has not been logged out yet") and three extra guards:
   - between the end of a transaction (the final DATA outcome, a successful
     STARTTLS) and the Reset / Logout that signals it, no backend callback
     begins (Order.v only forbids the next command there);
   - a session that must be logged out after STARTTLS gets Logout, not Reset,
     before the next command;
   - the AUTH exchange does not succeed twice in a session.
   Every trace accepted by the strict monitor is accepted by Order.mon_run
   (smon_run_mon_run), so acceptance by the strict monitor is the stronger
   theorem; the trace properties of TraceProps.v are derived from it. *)
From Smtp Require Import Bytes Conn Order.

Definition smon := (mon * bool)%type.

Definition smon_init (tls : bool) : smon := (mon_init tls, false).

(* the extra guards *)
Definition strict_bad (m : mon) (ml : bool) (e : event) : bool :=
  match e with
  | ECmd _ => ml
  | ENewSession _ _ _ | EMail _ _ _ | ERcpt _ _ _ | EData _ _ _ _ | EBdatStart
  | EAuth _ _ | EAuthNext _ _ _ _ => m_must_reset m || ml
  | EAuthOk => m_authed m
  | EReset => ml
  | _ => false
  end.

Definition next_ml (m : mon) (ml : bool) (e : event) : bool :=
  match e with
  | ETlsStart true => m_session m
  | ELogout => false
  | _ => ml
  end.

Definition smon_step (cfg : config) (s : smon) (e : event) : option smon :=
  if strict_bad (fst s) (snd s) e then None
  else match mon_step cfg (fst s) e with
       | Some m' => Some (m', next_ml (fst s) (snd s) e)
       | None => None
       end.

Fixpoint smon_run (cfg : config) (s : smon) (evs : list event) : option smon :=
  match evs with
  | [] => Some s
  | e :: r => match smon_step cfg s e with Some s' => smon_run cfg s' r | None => None end
  end.

Lemma smon_run_app cfg s a b :
  smon_run cfg s (a ++ b) = match smon_run cfg s a with Some s' => smon_run cfg s' b | None => None end.
Proof.
  revert s; induction a as [|e a IH]; intros s; cbn; [reflexivity|].
  destruct (smon_step cfg s e); [apply IH|reflexivity].
Qed.

Lemma smon_step_mon_step cfg s e s' :
  smon_step cfg s e = Some s' -> mon_step cfg (fst s) e = Some (fst s').
Proof.
  unfold smon_step. destruct (strict_bad (fst s) (snd s) e); [discriminate|].
  destruct (mon_step cfg (fst s) e); [|discriminate]. intros H. inversion H. reflexivity.
Qed.

Lemma smon_run_mon_run cfg evs : forall s s',
  smon_run cfg s evs = Some s' -> mon_run cfg (fst s) evs = Some (fst s').
Proof.
  induction evs as [|e r IH]; intros s s' H; cbn in *.
  - inversion H. reflexivity.
  - destruct (smon_step cfg s e) as [s1|] eqn:E; [|discriminate].
    rewrite (smon_step_mon_step _ _ _ _ E). apply IH, H.
Qed.
