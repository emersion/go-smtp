(* C16: the client's dot-writer composed with the server's DATA reader. *)
From Smtp Require Import Bytes Transport DataReader DataProofs DotWriter DotWriterProofs.

(* Whatever the body, whatever partition of it into Write calls, whatever
   segmentation of the resulting octets by the network, whatever buffer sizes
   the backend reads with: the backend reads what the specification extracts
   from the writer's output, followed by EOF, and the server's command stream
   resumes at the octets that follow.  (For a body with CR only in CRLF that
   is normalise(body): norm_w_normalise.) *)
Theorem client_message_framed (t : transport) (parts : list bytes) (tail : bytes) (sizes : list nat) :
  transparent t ->
  tstream t = dot_write_all parts ++ tail ->
  let '(out, e, d', t') := backend_reads sizes None (new_data_reader 0) t in
  out = dw_received (List.concat parts) /\ e = Some REOF /\ tstream t' = tail /\ transparent t'.
Proof.
  intros Htr Hs.
  pose proof (data_byte_exact t sizes Htr) as H.
  destruct (backend_reads sizes None (new_data_reader 0) t) as [[[out e] d'] t'].
  rewrite Hs, (dot_roundtrip_parts_any parts tail) in H.
  destruct H as (A & B & C & D & _). auto.
Qed.
