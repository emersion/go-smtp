(* The fuel of the model's command loop: every iteration consumes at least one
   buffered octet or one raw read result, or ends the loop, so the bound used
   by the checker (CheckConv.run_conv) is enough: the trace contains no
   EOutOfFuel marker. *)
From Smtp Require Import Bytes GoStrings Transport DataReader Parse Base64 Conn
  ConnProofs CheckConv.

Fixpoint rsize (rs : list raw) : nat :=
  match rs with
  | [] => 0
  | RData _ d :: r => 2 + List.length d + rsize r
  | RFail _ :: r => 1 + rsize r
  end.

Definition tsize (t : transport) : nat := List.length (t_buf t) + rsize (t_raw t).

Lemma cut_byte_shorter c s l rest : cut_byte c s = Some (l, rest) -> List.length rest < List.length s.
Proof.
  revert l rest; induction s as [|x s IH]; intros l rest H; cbn in H; [discriminate|].
  destruct (Ascii.eqb c x).
  - inversion H; subst. cbn. lia.
  - destruct (cut_byte c s) as [[a b]|]; [|discriminate]. inversion H; subst.
    specialize (IH _ _ eq_refl). cbn. lia.
Qed.

Lemma take_N_len n s : forall a b m, take_N n s = (a, b, m) -> List.length b <= List.length s.
Proof.
  revert n; induction s as [|c s IH]; intros n a b m H; cbn in H.
  - inversion H; subst. cbn. lia.
  - destruct (n =? 0)%N; [inversion H; subst; cbn; lia|].
    destruct (take_N (N.pred n) s) as [[a' b'] m'] eqn:E. inversion H; subst.
    specialize (IH _ _ _ _ E). cbn. lia.
Qed.

Lemma take_N_rest_nil n s : forall a b m, take_N n s = (a, b, m) -> m <> 0%N -> b = [].
Proof.
  revert n; induction s as [|c s IH]; intros n a b m H Hm; cbn in H.
  - inversion H; subst. reflexivity.
  - destruct (n =? 0)%N; [inversion H; subst; congruence|].
    destruct (take_N (N.pred n) s) as [[a' b'] m'] eqn:E. inversion H; subst.
    eapply IH; eassumption.
Qed.

Lemma raw_read_size t res t' :
  raw_read t = (res, t') ->
  t_buf t' = t_buf t /\ rsize (t_raw t') <= rsize (t_raw t)
  /\ match res with inl ch => rsize (t_raw t') + List.length ch + 1 <= rsize (t_raw t) | inr _ => True end.
Proof.
  unfold raw_read. destruct (too_long t); [intros H; inversion H; subst; repeat split; lia|].
  destruct (t_closed t); [intros H; inversion H; subst; repeat split; lia|].
  destruct (t_raw t) as [|[c d|e] r] eqn:Hr.
  - intros H; inversion H; subst. rewrite Hr. repeat split; lia.
  - destruct (t_limit t =? 0)%N.
    + intros H; inversion H; subst. cbn. repeat split; lia.
    + destruct (lim_scan (t_limit t) (t_cur t) (c :: d)) as [tr cur'].
      destruct tr; intros H; inversion H; subst; cbn; repeat split; lia.
  - intros H; inversion H; subst. cbn. repeat split; lia.
Qed.

Lemma read_byte_size t res t' :
  t_read_byte t = (res, t') ->
  tsize t' <= tsize t /\ match res with inl _ => tsize t' < tsize t | inr _ => True end.
Proof.
  unfold t_read_byte, tsize. destruct (t_buf t) as [|c b] eqn:Hb.
  - destruct (raw_read t) as [[ch|e] t1] eqn:Hr.
    + destruct (raw_read_size _ _ _ Hr) as (H1 & H2 & H3).
      destruct ch as [|c d]; intros H; inversion H; subst; cbn in *; rewrite ?H1, ?Hb; cbn; split; lia.
    + destruct (raw_read_size _ _ _ Hr) as (H1 & H2 & _).
      intros H; inversion H; subst. rewrite H1, Hb. cbn. split; [lia|exact I].
  - intros H; inversion H; subst. cbn. split; lia.
Qed.

Lemma unread_size c t : tsize (t_unread_byte c t) = S (tsize t).
Proof. reflexivity. Qed.

Lemma rl_go_size limit closed : forall raws cur buf res b r cur',
  rl_go limit closed raws cur buf = (res, (b, r, cur')) ->
  List.length b + rsize r <= List.length buf + rsize raws
  /\ match res with inl _ => List.length b + rsize r < List.length buf + rsize raws | inr _ => True end.
Proof.
  assert (Hp : forall (buf : bytes) e (n m : nat),
            n <= m ->
            List.length (@nil ascii) + n <= List.length buf + m
            /\ match partial_or_err buf e with
               | inl _ => List.length (@nil ascii) + n < List.length buf + m
               | inr _ => True
               end).
  { intros buf e n m H1. split; [cbn; lia|]. destruct buf; cbn; [exact I|lia]. }
  induction raws as [|x raws IH]; intros cur buf res b r cur' H; cbn [rl_go] in H.
  - destruct (too_long_b limit cur); [|destruct closed]; inversion H; subst; apply Hp; cbn; lia.
  - destruct (too_long_b limit cur); [inversion H; subst; apply Hp; cbn; lia|].
    destruct closed; [inversion H; subst; apply Hp; cbn; lia|].
    destruct x as [c d|e].
    + destruct (if (limit =? 0)%N then (false, cur) else lim_scan limit cur (c :: d)) as [tr cur1].
      destruct tr; [inversion H; subst; apply Hp; cbn; lia|].
      destruct (cut_byte LF (c :: d)) as [[l rest]|] eqn:Hcut.
      * inversion H; subst. apply cut_byte_shorter in Hcut. cbn in *. split; lia.
      * specialize (IH _ _ _ _ _ _ H). rewrite app_length in IH. cbn in *.
        destruct IH as [IH1 IH2]. split; [lia|]. destruct res; [lia|exact I].
    + inversion H; subst. apply Hp. cbn. lia.
Qed.

Lemma read_line_size t res t' :
  t_read_line t = (res, t') ->
  tsize t' <= tsize t /\ match res with inl _ => tsize t' < tsize t | inr _ => True end.
Proof.
  unfold t_read_line, tsize. destruct (cut_byte LF (t_buf t)) as [[l rest]|] eqn:Hcut.
  - intros H; inversion H; subst. apply cut_byte_shorter in Hcut. cbn. split; lia.
  - destruct (rl_go (t_limit t) (t_closed t) (t_raw t) (t_cur t) (t_buf t)) as [res' [[b r] cur]] eqn:Hg.
    intros H; inversion H; subst. cbn. exact (rl_go_size _ _ _ _ _ _ _ _ _ Hg).
Qed.

Lemma cp_go_size limit closed : forall raws cur n acc got e b r cur',
  cp_go limit closed raws cur n acc = (got, e, (b, r, cur')) ->
  List.length b + rsize r <= rsize raws.
Proof.
  induction raws as [|x raws IH]; intros cur n acc got e b r cur' H; cbn [cp_go] in H.
  - destruct (n =? 0)%N; [|destruct (too_long_b limit cur); [|destruct closed]];
      inversion H; subst; cbn; lia.
  - destruct (n =? 0)%N; [inversion H; subst; cbn; lia|].
    destruct (too_long_b limit cur); [inversion H; subst; cbn; lia|].
    destruct closed; [inversion H; subst; cbn; lia|].
    destruct x as [c d|e'].
    + destruct (if (limit =? 0)%N then (false, cur) else lim_scan limit cur (c :: d)) as [tr cur1].
      destruct tr; [inversion H; subst; cbn; lia|].
      destruct (take_N n (c :: d)) as [[a b'] m] eqn:Ht.
      destruct (m =? 0)%N.
      * inversion H; subst. apply take_N_len in Ht. cbn in *. lia.
      * specialize (IH _ _ _ _ _ _ _ _ H). cbn. lia.
    + inversion H; subst. cbn. lia.
Qed.

Lemma copy_n_size n t got e t' : t_copy_n n t = (got, e, t') -> tsize t' <= tsize t.
Proof.
  unfold t_copy_n, tsize. destruct (take_N n (t_buf t)) as [[a b] m] eqn:Ht.
  destruct (m =? 0)%N.
  - intros H; inversion H; subst. apply take_N_len in Ht. cbn. lia.
  - destruct (cp_go (t_limit t) (t_closed t) (t_raw t) (t_cur t) m a) as [[got' e'] [[b' r] cur]] eqn:Hg.
    intros H; inversion H; subst. apply cp_go_size in Hg. cbn. lia.
Qed.

Lemma dr_loop_size fuel : forall s t room o e s' t',
  dr_loop fuel s t room = (o, e, s', t') -> tsize t' <= tsize t.
Proof.
  induction fuel as [|f IH]; intros s t room o e s' t' H; cbn [dr_loop] in H.
  - inversion H; subst. lia.
  - destruct room as [|room']; [inversion H; subst; lia|].
    destruct (dstate_eqb s SEOF); [inversion H; subst; lia|].
    destruct (t_read_byte t) as [[c|er] t1] eqn:Hr.
    + destruct (read_byte_size _ _ _ Hr) as [_ H1].
      destruct (dr_step s c) as [s1|s1 x|s1 x].
      * apply IH in H. lia.
      * destruct (dr_loop f s1 t1 room') as [[[o1 e1] s2] t2] eqn:E. inversion H; subst.
        apply IH in E. lia.
      * destruct (dr_loop f s1 (t_unread_byte c t1) room') as [[[o1 e1] s2] t2] eqn:E.
        inversion H; subst. apply IH in E. rewrite unread_size in E. lia.
    + destruct (read_byte_size _ _ _ Hr) as [H1 _]. inversion H; subst. exact H1.
Qed.

Lemma dr_read_size d t lenb o e d' t' : dr_read d t lenb = (o, e, d', t') -> tsize t' <= tsize t.
Proof.
  unfold dr_read. destruct (d_limited d).
  - destruct (d_n d =? 0)%Z.
    + destruct (dr_loop (dr_fuel t 1) (d_state d) t 1) as [[[o1 e1] s1] t1] eqn:E.
      apply dr_loop_size in E. destruct o1; intros H; inversion H; subst; exact E.
    + destruct (d_n d <? 0)%Z; [intros H; inversion H; subst; lia|].
      cbv zeta. destruct (dr_loop _ _ t _) as [[[o1 e1] s1] t1] eqn:E.
      apply dr_loop_size in E. intros H; inversion H; subst; exact E.
  - destruct (dr_loop (dr_fuel t lenb) (d_state d) t lenb) as [[[o1 e1] s1] t1] eqn:E.
    apply dr_loop_size in E. intros H; inversion H; subst; exact E.
Qed.

Lemma be_read_size fuel : forall sizes cur stop got d t o e d' t',
  be_read fuel sizes cur stop got d t = (o, e, d', t') -> tsize t' <= tsize t.
Proof.
  induction fuel as [|f IH]; intros sizes cur stop got d t o e d' t' H; cbn [be_read] in H.
  - inversion H; subst. lia.
  - destruct (match stop with Some k => (k <=? blen got)%N | None => false end);
      [inversion H; subst; lia|].
    destruct (next_size sizes cur) as [sz cur1].
    destruct (dr_read d t (pos_size sz)) as [[[o1 e1] d1] t1] eqn:E. apply dr_read_size in E.
    destruct e1; [inversion H; subst; exact E|]. apply IH in H. lia.
Qed.

Lemma dr_drain_size d t e d' t' : dr_drain d t = (e, d', t') -> tsize t' <= tsize t.
Proof.
  (* 4096 is a unary numeral: it is put out of sight before anything looks at the term *)
  unfold dr_drain. generalize (be_fuel t), [4096], (mkDR (d_state d) false (d_n d)). intros f sz d0.
  destruct (be_read f sz [] None [] d0 t) as [[[o1 e1] d1] t1] eqn:E.
  apply be_read_size in E. intros H; inversion H; subst; exact E.
Qed.

Lemma hs_consume_size rs : forall have, rsize (hs_consume rs have) <= rsize rs.
Proof.
  induction rs as [|[c d|e] r IH]; intros have; cbn [hs_consume rsize]; [lia| |lia].
  destruct (5 <=? have + S (List.length d))%nat; [lia|]. specialize (IH (have + S (List.length d))%nat). lia.
Qed.

Fixpoint psize (phs : list (list raw)) : nat :=
  match phs with [] => 0 | p :: r => rsize p + 4 + psize r end.

Definition mu (c : conn) : nat := tsize (c_t c) + psize (c_phases c).

Lemma conn_read_line_mu c res c1 :
  conn_read_line c = (res, c1) ->
  mu c1 <= mu c /\ match res with inl _ => mu c1 < mu c | inr _ => True end.
Proof.
  unfold conn_read_line, mu. destruct (t_read_line (c_t c)) as [r t'] eqn:E.
  destruct (read_line_size _ _ _ E) as [H1 H2].
  destruct r as [line|e].
  - destruct (too_long t'); intros H; inversion H; subst; cbn; split; try exact I; lia.
  - intros H; inversion H; subst; cbn; split; [lia|exact I].
Qed.

Lemma auth_loop_mu steps : forall c resp, mu (fst (fst (auth_loop steps c resp))) <= mu c.
Proof.
  induction steps as [|[ch done err] rest IH]; intros c resp; cbn [auth_loop]; [cbn; lia|].
  destruct err; [|cbn; lia..]. destruct done; [cbn; lia|].
  destruct (conn_read_line c) as [[line|e] c1] eqn:E; apply conn_read_line_mu in E as [E1 _]; [|cbn; lia].
  destruct (bytes_eqb line (bs "*")); [cbn; lia|].
  destruct (decode_sasl_response line) as [r|]; [|cbn; lia].
  specialize (IH c1 (Some r)). destruct (auth_loop rest c1 (Some r)) as [[c3 ev3] ok3]. cbn in *. lia.
Qed.

Lemma call_data_size p d t got term ret d1 t1 :
  call_data p d t = (got, term, ret, d1, t1) -> tsize t1 <= tsize t.
Proof.
  unfold call_data. destruct (backend_reads (dp_sizes p) (dp_stop p) d t) as [[[g te] d'] t'] eqn:E.
  apply be_read_size in E. intros H; inversion H; subst. exact E.
Qed.

Definition not_oof (e : event) : Prop := e <> EOutOfFuel.

Lemma abort_ev_oof bd : Forall not_oof (abort_ev bd).
Proof. apply Forall_abort_ev. discriminate. Qed.

Lemma close_ev_oof c : Forall not_oof (close_ev c).
Proof. apply Forall_close_ev; [apply abort_ev_oof|discriminate..]. Qed.

Lemma bd_end_oof b term : Forall not_oof (snd (bd_end b term)).
Proof. apply Forall_bd_end. discriminate. Qed.

Lemma bd_feed_oof b chunk : Forall not_oof (snd (fst (bd_feed b chunk))).
Proof. apply Forall_bd_feed. discriminate. Qed.

Lemma bd_new_oof p rc sp : Forall not_oof (snd (bd_new p rc sp)).
Proof. apply Forall_bd_new; discriminate. Qed.

Lemma wires_oof l : forallb is_wire l = true -> Forall not_oof l.
Proof. apply Forall_wires. discriminate. Qed.

Lemma auth_loop_oof steps c resp : Forall not_oof (snd (fst (auth_loop steps c resp))).
Proof. apply Forall_auth_evs; [discriminate..|apply auth_loop_spec]. Qed.

Section Fuel.
Variable cfg : config.

Definition FGood (c : conn) (r : hres) : Prop :=
  mu (fst r) <= mu c /\ Forall not_oof (snd r).

(* what the equations collected on the way say about sizes and events *)
Ltac harvest :=
  repeat match goal with
  | H : t_copy_n _ _ = (_, _, _) |- _ => apply copy_n_size in H
  | H : call_data _ _ _ = _ |- _ => apply call_data_size in H
  | H : dr_drain _ _ = _ |- _ => apply dr_drain_size in H
  | H : bd_end ?b ?t = (_, _) |- _ =>
      let H' := fresh in pose proof (bd_end_oof b t) as H'; rewrite H in H'; clear H
  | H : bd_feed ?b ?ch = (_, _, _) |- _ =>
      let H' := fresh in pose proof (bd_feed_oof b ch) as H'; rewrite H in H'; clear H
  | H : bd_new ?p ?rc ?sp = (_, _) |- _ =>
      let H' := fresh in pose proof (bd_new_oof p rc sp) as H'; rewrite H in H'; clear H
  | H : bdat_lmtp_replies ?cf ?b ?e = (_, _) |- _ =>
      let H' := fresh in
      pose proof (wires_oof _ (bdat_lmtp_replies_wires cf b e)) as H'; rewrite H in H'; clear H
  | H : auth_loop ?s ?c ?r = (_, _, _) |- _ =>
      let H1 := fresh in let H2 := fresh in
      pose proof (auth_loop_mu s c r) as H1; pose proof (auth_loop_oof s c r) as H2;
      rewrite H in H1, H2; clear H
  end.

(* a leaf: the measure by arithmetic, the events one by one *)
Ltac fleaf :=
  harvest; unfold FGood, reset_c, close_c; cs; split;
  [ unfold mu, tsize in *; cs;
    cbn [t_buf t_raw set_limit set_closed set_raw_cur psize rsize List.length] in *; try lia
  | repeat first
      [ assumption
      | apply Forall_nil
      | apply Forall_cons; [discriminate|]
      | apply Forall_reset_ev; [apply abort_ev_oof|discriminate]
      | apply close_ev_oof
      | apply wires_oof; first [apply forallb_map_status_reply|apply forallb_map_status_reply2]
      | apply Forall_app; split
      | match goal with |- Forall _ (if ?b then _ else _) => destruct b end ] ].

Lemma handle_greet_fuel c enh arg : FGood c (handle_greet cfg c enh arg).
Proof. unfold handle_greet. walk; fleaf. Qed.

Lemma handle_mail_fuel c arg : FGood c (handle_mail cfg c arg).
Proof. unfold handle_mail, pop_mail. walk; fleaf. Qed.

Lemma handle_rcpt_fuel c arg : FGood c (handle_rcpt cfg c arg).
Proof. unfold handle_rcpt, pop_rcpt. walk; fleaf. Qed.

Lemma protocol_error_fuel c code ec msg : FGood c (protocol_error c code ec msg).
Proof. unfold protocol_error. walk; fleaf. Qed.

Lemma handle_auth_fuel c arg : FGood c (handle_auth cfg c arg).
Proof. unfold handle_auth, pop_auth. walk; fleaf. Qed.

Lemma handle_data_fuel c arg : FGood c (handle_data cfg c arg).
Proof. unfold handle_data, pop_data, close_unless. walk; fleaf. Qed.

(* a handshake that succeeds trades the rest of the plaintext schedule and the next phase for
   the transport of that phase; one that fails swallows part of the schedule *)
Lemma handle_starttls_fuel c : FGood c (handle_starttls cfg c).
Proof.
  unfold handle_starttls. walk; fleaf.
  all: repeat match goal with H : _ = _ |- _ => rewrite H in *; clear H end.
  all: try match goal with |- context [hs_consume ?rs 0] => pose proof (hs_consume_size rs 0) end.
  all: cbn [psize rsize List.length] in *; lia.
Qed.

Lemma handle_bdat_fuel c arg : FGood c (handle_bdat cfg c arg).
Proof.
  unfold handle_bdat.
  destruct (fields arg) as [|a0 more]; [fleaf|].
  match goal with
  | |- FGood ?c (match more with [] => ?B | _ :: _ => _ end) => assert (Hbody : FGood c B)
  end.
  2:{ destruct more as [|a1 [|a2 more]]; [exact Hbody|exact Hbody|fleaf]. }
  unfold pop_data, discard_chunk, close_unless. walk; fleaf.
Qed.

Lemma handle_fuel c cmd arg : FGood c (handle cfg c cmd arg).
Proof.
  apply handle_cases; intros;
    auto using handle_greet_fuel, handle_mail_fuel, handle_rcpt_fuel, handle_bdat_fuel, handle_data_fuel,
      handle_auth_fuel, handle_starttls_fuel, protocol_error_fuel;
    fleaf.
Qed.

Lemma serve_loop_fuel : forall fuel c,
  mu c + 2 <= fuel -> Forall not_oof (serve_loop fuel cfg c).
Proof.
  apply (serve_loop_ind cfg (fun fuel c tr => mu c + 2 <= fuel -> Forall not_oof tr)).
  - intros c Hf. lia.
  - intros f c _ _. apply close_ev_oof.
  - intros f c e t _ _. apply Forall_app. split; [apply wires_oof, read_failure_reply_wires|apply close_ev_oof].
  - intros f c line t _ E r -> IH Hf. apply conn_read_line_mu in E as [_ E].
    assert (Hr : FGood (upd_t c t) (command_step cfg (upd_t c t) line)).
    { unfold command_step. destruct (parse_cmd line) as [[cmd arg]|];
        [apply handle_fuel|apply protocol_error_fuel]. }
    destruct Hr as [H1 H2]. constructor; [discriminate|]. apply Forall_app. split; [exact H2|].
    apply IH. lia.
Qed.

End Fuel.

Lemma raws_size_rsize rs : raws_size rs = rsize rs.
Proof.
  unfold raws_size.
  assert (H : forall n, fold_left (fun (n : nat) (r : raw) =>
              match r with RData _ d => n + 2 + List.length d | RFail _ => n + 1 end)%nat rs n
              = (n + rsize rs)%nat).
  { induction rs as [|[c d|e] r IH]; intros n; cbn [fold_left rsize]; [lia| |]; rewrite IH; lia. }
  apply H.
Qed.

Lemma conv_fuel_psize phases : forall n,
  fold_left (fun n p => n + raws_size p + 4)%nat phases n = (n + psize phases)%nat.
Proof.
  induction phases as [|p r IH]; intros n; cbn [fold_left psize]; [lia|].
  rewrite IH, raws_size_rsize. lia.
Qed.

(* the fuel used by the checker (CheckConv.run_conv) always suffices *)
Theorem serve_fuel_enough fuel cfg be phases :
  fold_left (fun n p => n + raws_size p + 4)%nat phases 16%nat <= fuel ->
  ~ In EOutOfFuel (serve fuel cfg be phases).
Proof.
  intros Hf Hin. rewrite conv_fuel_psize in Hf.
  assert (H : Forall not_oof (serve fuel cfg be phases)).
  { constructor; [discriminate|].
    apply serve_loop_fuel. unfold mu, init_conn, tsize.
    destruct phases as [|p r]; cbn [c_t c_phases t_buf t_raw List.length psize rsize] in *; lia. }
  rewrite Forall_forall in H. exact (H _ Hin eq_refl).
Qed.
Print Assumptions serve_fuel_enough.

Corollary run_conv_no_out_of_fuel cfg be phases : ~ In EOutOfFuel (run_conv cfg be phases).
Proof. unfold run_conv. apply serve_fuel_enough. lia. Qed.

Definition conv_fuel (phases : list (list raw)) : nat :=
  fold_left (fun n p => n + raws_size p + 4)%nat phases 16%nat.
