(* BDAT (RFC 3030 chunking): framing by octet count, binary transparency,
   resumption of the command stream behind the declared size, the size limit
   and the replies - proofs about Transport.t_copy_n, Conn.discard_chunk,
   the pipe model (bd_new / bd_feed / bd_end) and Conn.handle_bdat.

   Everything here starts from the state in which the BDAT command line has
   been read: the copy runs with LineLimit = 0, so the line limiter is out of
   the picture whatever its counter is.  What happened to payload octets that
   were pulled into the bufio buffer together with the command line (they
   passed the limiter while it was still on: finding F6) is outside. *)
From Smtp Require Import Bytes GoStrings Transport DataReader Reply Lmtp Conn
  LmtpProofs ConnProofs.
Local Open Scope N_scope.

Lemma blen_nil : blen [] = 0.
Proof. reflexivity. Qed.

Lemma blen_cons c s : blen (c :: s) = N.succ (blen s).
Proof. unfold blen. cbn [List.length]. lia. Qed.

Lemma blen_app a b : blen (a ++ b) = blen a + blen b.
Proof. unfold blen. rewrite app_length. lia. Qed.

Lemma blen_zero s : blen s = 0 -> s = [].
Proof. destruct s; [reflexivity|]. rewrite blen_cons. lia. Qed.

Lemma take_N_zero s : take_N 0 s = ([], s, 0).
Proof. destruct s; reflexivity. Qed.

Lemma take_N_cons n c t :
  n <> 0 -> take_N n (c :: t) = let '(a, b, m) := take_N (N.pred n) t in (c :: a, b, m).
Proof. intros H. cbn [take_N]. apply N.eqb_neq in H. rewrite H. reflexivity. Qed.

Lemma take_N_split s : forall n a b m,
  take_N n s = (a, b, m) -> s = a ++ b /\ blen a + m = n /\ (m = 0 \/ b = []).
Proof.
  induction s as [|c t IH]; intros n a b m H.
  - cbn in H. inversion H; subst. split; [reflexivity|]. split; [rewrite blen_nil; lia|right; reflexivity].
  - destruct (N.eq_dec n 0) as [-> | Hn].
    + rewrite take_N_zero in H. inversion H; subst. split; [reflexivity|]. split; [reflexivity|left; reflexivity].
    + rewrite take_N_cons in H by exact Hn.
      destruct (take_N (N.pred n) t) as [[a' b'] m'] eqn:E.
      inversion H; subst. destruct (IH _ _ _ _ E) as (H1 & H2 & H3).
      subst t. split; [reflexivity|]. split; [rewrite blen_cons; lia|exact H3].
Qed.

Lemma take_N_len n s : blen (fst (fst (take_N n s))) <= blen s.
Proof.
  destruct (take_N n s) as [[a b] m] eqn:E. destruct (take_N_split _ _ _ _ _ E) as (-> & _).
  cbn [fst]. rewrite blen_app. lia.
Qed.

Lemma take_N_all s n : blen s <= n -> take_N n s = (s, [], n - blen s).
Proof.
  intros Hl. destruct (take_N n s) as [[a b] m] eqn:E.
  destruct (take_N_split _ _ _ _ _ E) as (H1 & H2 & H3).
  destruct H3 as [-> | ->].
  - assert (Hb : blen s = blen a + blen b) by (rewrite H1; apply blen_app).
    assert (Hb0 : b = []) by (apply blen_zero; lia). subst b.
    rewrite app_nil_r in H1. subst a. f_equal. lia.
  - rewrite app_nil_r in H1. subst a. f_equal. lia.
Qed.

Lemma take_N_rest n s a b m : take_N n s = (a, b, m) -> (m =? 0) = (n <=? blen s).
Proof.
  intros E. destruct (take_N_split _ _ _ _ _ E) as (-> & H2 & H3). rewrite blen_app.
  destruct (N.eqb_spec m 0), (N.leb_spec n (blen a + blen b)); try reflexivity; destruct H3; subst; try lia.
  rewrite blen_nil in *. lia.
Qed.

Lemma take_N_app_gen x : forall n y,
  take_N n (x ++ y)
  = let '(a, b, m) := take_N n x in
    if m =? 0 then (a, b ++ y, 0) else let '(a', b', m') := take_N m y in (a ++ a', b', m').
Proof.
  induction x as [|c t IH]; intros n y.
  - cbn [app take_N]. destruct (n =? 0) eqn:E; [|destruct (take_N n y) as [[a' b'] m']; reflexivity].
    apply N.eqb_eq in E. subst n. apply take_N_zero.
  - destruct (N.eq_dec n 0) as [-> | Hn]; [reflexivity|].
    cbn [app]. rewrite !take_N_cons by exact Hn. rewrite IH.
    destruct (take_N (N.pred n) t) as [[a b] m]. destruct (m =? 0); [reflexivity|].
    destruct (take_N m y) as [[a' b'] m']. reflexivity.
Qed.

Lemma take_N_app p r : take_N (blen p) (p ++ r) = (p, r, 0).
Proof. rewrite take_N_app_gen, take_N_all, N.sub_diag by lia. reflexivity. Qed.

Lemma too_long_b_zero cur : too_long_b 0 cur = false.
Proof. reflexivity. Qed.

(* With the limiter off the copy takes [take_N n] of the stream, for EVERY
   segmentation of the stream into raw reads: all n octets and no error,
   leaving exactly the rest; or, the schedule failing first, what there was
   and that failure, continuing behind it. *)
Lemma cp_go_take raws : forall cur n acc,
  let '(a, rest, m) := take_N n (raws_bytes raws) in
  exists b r cur',
    cp_go 0 false raws cur n acc
    = (acc ++ a, if m =? 0 then None else Some (raws_term raws), (b, r, cur')) /\
    if m =? 0 then b ++ raws_bytes r = rest /\ raws_term r = raws_term raws
    else b = [] /\ r = raws_after raws.
Proof.
  induction raws as [|[c d|e] raws IH]; intros cur n acc; cbn [cp_go raws_bytes raws_term raws_after].
  (* the end of the script, or a failure: the stream is empty *)
  1,3: cbn [take_N]; destruct (n =? 0); rewrite app_nil_r; eexists _, _, _; split; try reflexivity; split; reflexivity.
  (* a read: take from it, then from the rest of the stream *)
  change (c :: d ++ raws_bytes raws) with ((c :: d) ++ raws_bytes raws). rewrite take_N_app_gen.
  destruct (n =? 0) eqn:En.
  { apply N.eqb_eq in En. subst n. cbn. rewrite app_nil_r. exists [], (RData c d :: raws), cur. repeat split. }
  rewrite too_long_b_zero. change (0 =? 0) with true. cbv iota beta.
  destruct (take_N n (c :: d)) as [[a b] m]. destruct (m =? 0) eqn:Em.
  - exists b, raws, cur. repeat split.
  - specialize (IH cur m (acc ++ a)). destruct (take_N m (raws_bytes raws)) as [[a' rest'] m'].
    destruct IH as (b' & r & cur' & -> & H). rewrite app_assoc. exists b', r, cur'. split; [reflexivity|exact H].
Qed.

(* in general (any limit, any state): never more than n octets, and exactly n
   when no error is reported *)
Lemma cp_go_len limit closed raws : forall cur n acc,
  let '(got, e, _) := cp_go limit closed raws cur n acc in
  blen got <= blen acc + n /\ (e = None -> blen got = blen acc + n).
Proof.
  induction raws as [|x raws IH]; intros cur n acc; cbn [cp_go].
  all: destruct (n =? 0) eqn:En; [apply N.eqb_eq in En; subst n; split; lia|].
  all: destruct (too_long_b limit cur); [split; [lia|discriminate]|].
  all: destruct closed; [split; [lia|discriminate]|].
  1: split; [lia|discriminate].
  destruct x as [c d|e0]; [|split; [lia|discriminate]].
  destruct (if limit =? 0 then (false, cur) else lim_scan limit cur (c :: d)) as [tr cur'].
  destruct tr; [split; [lia|discriminate]|].
  destruct (take_N n (c :: d)) as [[a b] m] eqn:Et.
  destruct (take_N_split _ _ _ _ _ Et) as (H1 & H2 & H3).
  destruct (m =? 0) eqn:Em.
  - apply N.eqb_eq in Em. subst m. rewrite blen_app. split; lia.
  - specialize (IH cur' m (acc ++ a)). destruct (cp_go limit false raws cur' m (acc ++ a)) as [[got e] st].
    rewrite blen_app in IH. destruct IH as [Ha Hb]. split; [lia|]. intros He. specialize (Hb He). lia.
Qed.

Lemma t_copy_n_len n t got e t' :
  t_copy_n n t = (got, e, t') -> blen got <= n /\ (e = None -> blen got = n).
Proof.
  unfold t_copy_n. destruct (take_N n (t_buf t)) as [[a b] m] eqn:Et.
  destruct (take_N_split _ _ _ _ _ Et) as (H1 & H2 & H3).
  destruct (m =? 0) eqn:Em.
  - apply N.eqb_eq in Em. subst m. intros H. inversion H; subst. split; lia.
  - pose proof (cp_go_len (t_limit t) (t_closed t) (t_raw t) (t_cur t) m a) as Hc.
    destruct (cp_go _ _ _ _ m a) as [[got' e'] [[b' r] cur]].
    intros H. inversion H; subst. destruct Hc as [Ha Hb]. split; [lia|].
    intros He. specialize (Hb He). lia.
Qed.

Lemma t_copy_n_take t n :
  t_closed t = false -> t_limit t = 0 ->
  let '(a, rest, m) := take_N n (tstream t) in
  exists t',
    t_copy_n n t = (a, if m =? 0 then None else Some (tterm t), t') /\
    t_closed t' = false /\ t_limit t' = 0 /\
    if m =? 0 then tstream t' = rest /\ tterm t' = tterm t
    else t_buf t' = [] /\ t_raw t' = raws_after (t_raw t).
Proof.
  intros Hcl Hlim. unfold t_copy_n, tstream, tterm. rewrite take_N_app_gen, Hcl, Hlim.
  destruct (take_N n (t_buf t)) as [[a b] m]. destruct (m =? 0) eqn:Em.
  - eexists. split; [reflexivity|]. cbn. auto.
  - pose proof (cp_go_take (t_raw t) (t_cur t) m a) as H.
    destruct (take_N m (raws_bytes (t_raw t))) as [[a' rest'] m'].
    destruct H as (b' & r & cur' & -> & H). eexists. split; [reflexivity|]. cbn. auto.
Qed.

(* For EVERY transport state with the limiter off - whatever is buffered,
   whatever the schedule of future raw reads, whatever the limiter's counter -
   whose stream starts with n octets: the copy returns exactly these n octets,
   no error, and leaves exactly the rest of the stream. *)
Theorem copy_n_exact (t : transport) (n : N) (payload rest : bytes) :
  t_closed t = false -> t_limit t = 0 ->
  tstream t = payload ++ rest -> blen payload = n ->
  exists t',
    t_copy_n n t = (payload, None, t') /\
    tstream t' = rest /\ t_closed t' = false /\ t_limit t' = 0 /\ tterm t' = tterm t.
Proof.
  intros Hcl Hlim Hs <-. pose proof (t_copy_n_take t (blen payload) Hcl Hlim) as H.
  rewrite Hs, take_N_app in H. destruct H as (t' & H1 & H2 & H3 & H4 & H5). exists t'. auto.
Qed.

(* The stream ends inside the chunk: the copy returns the octets there were
   and the failure that ended the schedule (EOF, timeout, network error);
   nothing is left buffered and the schedule continues behind that failure
   (so when the failure is the end of the script the stream is empty). *)
Theorem copy_n_short (t : transport) (n : N) :
  t_closed t = false -> t_limit t = 0 -> blen (tstream t) < n ->
  exists t',
    t_copy_n n t = (tstream t, Some (tterm t), t') /\
    t_buf t' = [] /\ t_raw t' = raws_after (t_raw t) /\ t_closed t' = false /\ t_limit t' = 0.
Proof.
  intros Hcl Hlim Hn. pose proof (t_copy_n_take t n Hcl Hlim) as H.
  rewrite take_N_all in H by lia. assert (E : n - blen (tstream t) =? 0 = false) by (apply N.eqb_neq; lia).
  rewrite E in H. destruct H as (t' & H1 & H2 & H3 & H4 & H5). exists t'. auto.
Qed.

Corollary copy_n_short_eof (t : transport) (n : N) :
  t_closed t = false -> t_limit t = 0 -> blen (tstream t) < n -> raws_after (t_raw t) = [] ->
  exists t', t_copy_n n t = (tstream t, Some (tterm t), t') /\ tstream t' = [].
Proof.
  intros Hcl Hlim Hn Ha. destruct (copy_n_short t n Hcl Hlim Hn) as (t' & Hc & Hb & Hr & _).
  exists t'. split; [exact Hc|]. unfold tstream. rewrite Hb, Hr, Ha. reflexivity.
Qed.

Lemma tstream_set_limit t l : tstream (set_limit t l) = tstream t.
Proof. reflexivity. Qed.
Lemma tterm_set_limit t l : tterm (set_limit t l) = tterm t.
Proof. reflexivity. Qed.

(* the declared octets are consumed - whatever they are, however they are
   segmented - and the line limit is switched back on *)
Theorem discard_chunk_resume (cfg : config) (c : conn) (n : N) (payload rest : bytes) :
  t_closed (c_t c) = false ->
  tstream (c_t c) = payload ++ rest -> blen payload = n ->
  exists t',
    discard_chunk cfg c n = (upd_t c t', []) /\
    tstream t' = rest /\ t_limit t' = cf_max_line cfg /\ t_closed t' = false /\
    tterm t' = tterm (c_t c).
Proof.
  intros Hcl Hs Hn. unfold discard_chunk.
  destruct (copy_n_exact (set_limit (c_t c) 0) n payload rest) as (t1 & Hc & Hr & Hcl1 & _ & Ht);
    [exact Hcl|reflexivity|exact Hs|exact Hn|].
  rewrite Hc. eexists. split; [reflexivity|]. repeat split; assumption.
Qed.

(* the stream ends (or a read fails) before the declared octets have been
   read: what could be read is consumed, and the connection is CLOSED - the
   rest of the chunk, should it arrive later, is not run as commands *)
Theorem discard_chunk_short (cfg : config) (c : conn) (n : N) :
  t_closed (c_t c) = false -> blen (tstream (c_t c)) < n ->
  exists t',
    discard_chunk cfg c n = do_close (upd_t c t') /\
    t_buf t' = [] /\ t_raw t' = raws_after (t_raw (c_t c)) /\ t_limit t' = cf_max_line cfg.
Proof.
  intros Hcl Hn. unfold discard_chunk.
  destruct (copy_n_short (set_limit (c_t c) 0) n) as (t1 & Hc & Hb & Hr & _); [exact Hcl|reflexivity|exact Hn|].
  rewrite Hc. eexists. split; [reflexivity|]. repeat split; assumption.
Qed.

(* in general: discardChunk either skips the declared octets and adds no event,
   or closes the connection *)
Definition discard_c (cfg : config) (c : conn) (size : N) : conn := fst (discard_chunk cfg c size).
Definition discard_ev (cfg : config) (c : conn) (size : N) : list event := snd (discard_chunk cfg c size).

Lemma discard_pair cfg c size : discard_chunk cfg c size = (discard_c cfg c size, discard_ev cfg c size).
Proof. unfold discard_c, discard_ev. destruct (discard_chunk cfg c size); reflexivity. Qed.

Lemma discard_cases cfg c size :
  (discard_short c size = false /\
   discard_c cfg c size = upd_t c (discard_t cfg c size) /\ discard_ev cfg c size = [])
  \/ (discard_short c size = true /\
      discard_c cfg c size = close_c (upd_t c (discard_t cfg c size)) /\
      discard_ev cfg c size = close_ev c).
Proof.
  unfold discard_c, discard_ev. rewrite discard_chunk_eq.
  destruct (discard_short c size); [right|left]; cbn [fst snd]; rewrite ?close_ev_upd_t; auto.
Qed.

(* the optional second argument *)
Definition bdat_last_ok (more : list bytes) : option bool :=
  match more with
  | [] => Some false
  | a1 :: _ => if equal_fold a1 (bs "LAST") then Some true else None
  end.

(* the size check *)
Definition bdat_over (cfg : config) (c : conn) (size : N) : bool :=
  negb (cf_max_bytes cfg =? 0)%Z && (cf_max_bytes cfg <? c_received c + Z.of_N size)%Z.

(* the transfer the chunk goes to: the running one, or a new one *)
Definition bdat_start (cfg : config) (c : conn) : bdat * list event * conn :=
  match c_bdat c with
  | Some b => (b, [], c)
  | None =>
      let '(p, c1) := pop_data c in
      let status_panic :=
        cf_lmtp cfg && cf_lmtp_session cfg
        && snd (run_statuses (dp_status p) (mk_collector (c_rcpts c1))) in
      let '(b, ev) := bd_new p (c_rcpts c1) status_panic in
      (b, ev, c1)
  end.

(* what handle_bdat does once the copy from the transport has returned
   (chunk, cerr, t1) - verbatim *)
Definition bdat_fed (cfg : config) (c : conn) (size : N) (last : bool)
           (chunk : bytes) (cerr : option terr) (t1 : transport) : hres :=
  let '(b0, ev0, c0) := bdat_start cfg c in
  let '(b1, ev1, werr) := bd_feed b0 chunk in
  let err : option (berr * rerr) :=
    match werr with
    | Some e => Some (e, RDataReset)
    | None =>
        match cerr with
        | Some te => Some (berr_of_rerr (rerr_of_copy te), rerr_of_copy te)
        | None => None
        end
    end in
  match err with
  | Some (e, pe) =>
      let '(_, derr, t1) :=
        match werr, cerr with
        | None, Some _ => t_copy_n (size - blen chunk) t1
        | _, _ => ([], cerr, t1)
        end in
      let short := match derr with Some _ => true | None => false end in
      let c1 := upd_bdat (upd_t c0 t1) (Some b1) in
      let '(c2, evr, closeit) :=
        if last && cf_lmtp cfg then
          let '(b2, ev2) := bd_end b1 pe in
          let '(rs, _) := bdat_lmtp_replies cfg b2 e in
          (upd_bdat c1 (Some b2), ev2 ++ rs,
           (match werr with Some _ => bd_panics b1 | None => false end) || short)
        else
          let '(code, ec, msg) := data_error_to_status e in
          (c1, [reply code ec msg], (match werr with Some _ => bd_panics b1 | None => false end) || short) in
      let '(c3, ev3) := if closeit then do_close c2 else (c2, []) in
      let '(c4, ev4) := do_reset c3 in
      (upd_t c4 (set_limit (c_t c4) (cf_max_line cfg)), ev0 ++ ev1 ++ evr ++ ev3 ++ ev4)
  | None =>
      let c1 := upd_received (upd_bdat (upd_t c0 (set_limit t1 (cf_max_line cfg))) (Some b1))
                             (c_received c0 + Z.of_N size)%Z in
      if negb last then (c1, ev0 ++ ev1 ++ [reply 250 (2, 0, 0)%Z (bs "Continue")])
      else
        let '(b2, ev2) := bd_end b1 REOF in
        let ret := match bd_done b2 with Some v => v | None => BNil end in
        let c2 := upd_bdat c1 (Some b2) in
        if cf_lmtp cfg then
          let '(rs, panicked) := bdat_lmtp_replies cfg b2 ret in
          if panicked then
            let '(c3, ev3) := do_close c2 in (c3, ev0 ++ ev1 ++ ev2 ++ rs ++ ev3)
          else
            let '(c3, ev3) := do_reset c2 in (c3, ev0 ++ ev1 ++ ev2 ++ rs ++ ev3)
        else
          let '(code, ec, msg) := data_error_to_status ret in
          if bd_panics b2 then
            let '(c3, ev3) := do_close c2 in (c3, ev0 ++ ev1 ++ ev2 ++ [reply code ec msg] ++ ev3)
          else
            let '(c3, ev3) := do_reset c2 in (c3, ev0 ++ ev1 ++ ev2 ++ [reply code ec msg] ++ ev3)
  end.

(* the recipients of the transfer a chunk goes to *)
Definition transfer_rcpts (c : conn) : list bytes :=
  match c_bdat c with Some b => bd_rcpts b | None => c_rcpts c end.

(* the running transfer as it is, or a new one: no octet read yet, the
   recipients of the envelope, the connection unchanged but for the plan
   taken from the backend script *)
Lemma bdat_start_cases cfg c :
  (exists b, c_bdat c = Some b /\ bdat_start cfg c = (b, [], c))
  \/ (c_bdat c = None /\
      exists p sp be0, bdat_start cfg c
                       = (fst (bd_new p (c_rcpts c) sp), snd (bd_new p (c_rcpts c) sp), upd_be c be0)).
Proof.
  unfold bdat_start. destruct (c_bdat c) as [b|]; [left; exists b; auto|right; split; [reflexivity|]].
  unfold pop_data. destruct (pop dp_default (be_data (c_be c))) as [p rest]. cs.
  match goal with |- context [bd_new p _ ?sp] => exists p, sp end.
  eexists. destruct (bd_new _ _ _). reflexivity.
Qed.

Lemma bdat_start_state cfg c :
  let b0 := fst (fst (bdat_start cfg c)) in
  bd_rcpts b0 = transfer_rcpts c /\ (c_bdat c = Some b0 \/ bd_got b0 = []) /\
  exists be0, snd (bdat_start cfg c) = upd_be c be0.
Proof.
  unfold transfer_rcpts. destruct (bdat_start_cases cfg c) as [(b & Hb & ->) | (Hb & p & sp & be0 & ->)]; rewrite Hb; cbn [fst snd].
  - split; [reflexivity|]. split; [left; reflexivity|]. exists (c_be c). destruct c; reflexivity.
  - destruct (bd_new_cases p (c_rcpts c) sp) as [-> | ->]; cbn; eauto.
Qed.

Lemma bdat_start_Forall (P : event -> Prop) cfg c :
  P EBdatStart ->
  (let b0 := fst (fst (bdat_start cfg c)) in
   P (EDelivery (bd_got b0) None (plan_ret (bd_plan b0) None) (bd_panics b0))) ->
  Forall P (snd (fst (bdat_start cfg c))).
Proof.
  destruct (bdat_start_cases cfg c) as [(b & _ & ->) | (_ & p & sp & be0 & ->)]; [constructor|].
  cbn [fst snd]. intros H1 H2.
  destruct (bd_new_cases p (c_rcpts c) sp) as [E | E]; rewrite E in *; repeat constructor; assumption.
Qed.

Lemma bdat_start_t cfg c : c_t (snd (bdat_start cfg c)) = c_t c.
Proof. destruct (bdat_start_state cfg c) as (_ & _ & be0 & ->). reflexivity. Qed.

(* the verdict on a BDAT command line, in the order the code decides *)
Inductive bdat_verdict :=
| BvSyntax                         (* no size known: 501, nothing consumed *)
| BvNoEnvelope (size : N)          (* 502, chunk discarded *)
| BvBadLast (size : N)             (* 501, chunk discarded *)
| BvOverLimit (size : N)           (* 552, chunk discarded, transaction reset *)
| BvNilSession                     (* unreachable: no session but an envelope *)
| BvAccept (size : N) (last : bool).

Definition bdat_classify (cfg : config) (c : conn) (arg : bytes) : bdat_verdict :=
  match fields arg with
  | [] => BvSyntax
  | _ :: _ :: _ :: _ => BvSyntax
  | a0 :: more =>
      match parse_uint 32 a0 with
      | PSyntax | PRange => BvSyntax
      | POk size =>
          if negb (c_from c) || match c_rcpts c with [] => true | _ => false end then BvNoEnvelope size
          else match bdat_last_ok more with
               | None => BvBadLast size
               | Some last =>
                   if bdat_over cfg c size then BvOverLimit size
                   else if negb (c_session c) && match c_bdat c with None => true | Some _ => false end
                        then BvNilSession
                        else BvAccept size last
               end
      end
  end.

(* handle_bdat, branch by branch.  A refused chunk: the reply, then what
   discardChunk does (nothing more, or Close: [discard_cases]). *)
Theorem handle_bdat_cases (cfg : config) (c : conn) (arg : bytes) :
  match bdat_classify cfg c arg with
  | BvSyntax =>
      exists msg,
        In msg [bs "Missing chunk size argument"; bs "Too many arguments"; bs "Malformed size argument"]
        /\ handle_bdat cfg c arg = (c, [reply 501 (5, 5, 4)%Z msg])
  | BvNoEnvelope size =>
      handle_bdat cfg c arg
      = (discard_c cfg c size,
         reply 502 (5, 5, 1)%Z (bs "Missing RCPT TO command.") :: discard_ev cfg c size)
  | BvBadLast size =>
      handle_bdat cfg c arg
      = (discard_c cfg c size,
         reply 501 (5, 5, 4)%Z (bs "Unknown BDAT argument") :: discard_ev cfg c size)
  | BvOverLimit size =>
      handle_bdat cfg c arg
      = (reset_c (discard_c cfg c size),
         [reply 552 (5, 3, 4)%Z (bs "Max message size exceeded")]
         ++ discard_ev cfg c size ++ reset_ev (discard_c cfg c size))
  | BvNilSession => handle_bdat cfg c arg = (c, [EPanic])
  | BvAccept size last =>
      handle_bdat cfg c arg
      = let '(chunk, cerr, t1) := t_copy_n size (set_limit (c_t c) 0) in
        bdat_fed cfg c size last chunk cerr t1
  end.
Proof.
  unfold bdat_classify, handle_bdat, bdat_last_ok.
  destruct (fields arg) as [|a0 more]; [eexists; (split; [|reflexivity]); cbn; auto|].
  destruct (parse_uint 32 a0) as [size| |] eqn:Ep.
  2,3: destruct more as [|a1 [|a2 more]]; eexists; (split; [|reflexivity]); cbn; auto.
  rewrite (discard_pair cfg c size).
  destruct (negb (c_from c) || match c_rcpts c with [] => true | _ :: _ => false end) eqn:Eenv.
  { destruct more as [|a1 [|a2 more]]; [reflexivity|reflexivity|eexists; (split; [|reflexivity]); cbn; auto]. }
  destruct more as [|a1 [|a2 more]]; [| |eexists; (split; [|reflexivity]); cbn; auto].
  2: destruct (equal_fold a1 (bs "LAST")); [|reflexivity].
  (* without LAST and with it: the same code *)
  all: fold (bdat_over cfg c size); destruct (bdat_over cfg c size); [rewrite do_reset_eq; reflexivity|].
  all: destruct (negb (c_session c) && match c_bdat c with None => true | Some _ => false end); [reflexivity|].
  all: fold (bdat_start cfg c); unfold bdat_fed; pose proof (bdat_start_t cfg c) as Ht.
  all: destruct (bdat_start cfg c) as [[b0 ev0] c0]; cbn [snd] in Ht; rewrite Ht.
  all: destruct (t_copy_n size (set_limit (c_t c) 0)) as [[chunk cerr] t1]; reflexivity.
Qed.

Lemma lmtp_replies_panicked cfg b e : snd (bdat_lmtp_replies cfg b e) = bd_panics b.
Proof.
  unfold bdat_lmtp_replies. destruct (cf_lmtp_session cfg).
  - destruct (run_statuses _ _) as [col ?]. destruct (bd_panics b); reflexivity.
  - destruct (bd_panics b); reflexivity.
Qed.

Lemma rerr_of_copy_not_eof te : rerr_of_copy te <> REOF.
Proof. destruct te; discriminate. Qed.

(* how a chunk fails: the error the replies are made from, what the pipe is
   closed with, where the transport stands once the rest of the declared size
   has been discarded, and whether the connection has to be closed *)
Definition fed_failure (b1 : bdat) (werr : option berr) (cerr : option terr) (size : N) (chunk : bytes)
           (t1 : transport) : option (berr * rerr * transport * bool) :=
  match werr, cerr with
  | Some e, _ => Some (e, RDataReset, t1, bd_panics b1 || is_some cerr)
  | None, Some te =>
      let '(_, derr, td) := t_copy_n (size - blen chunk) t1 in
      Some (berr_of_rerr (rerr_of_copy te), rerr_of_copy te, td, is_some derr)
  | None, None => None
  end.

(* the reply to a chunk that ends the transfer: one per recipient for LMTP
   LAST, one otherwise *)
Definition fed_replies (cfg : config) (lmtp_last : bool) (b : bdat) (e : berr) : list event :=
  if lmtp_last then fst (bdat_lmtp_replies cfg b e)
  else let '(code, ec, msg) := data_error_to_status e in [reply code ec msg].

(* The events at the end of a transfer: the pipe is ended with [pe] (or left
   to reset / Close), the replies are made from the error [e], and the
   connection is closed or the transaction reset. *)
Definition fed_end_ev (cfg : config) (c0 : conn) (b1 : bdat) (endpipe ll closeit : bool) (pe : rerr)
           (e : bdat -> berr) : list event :=
  let '(bx, evd) := if endpipe then bd_end b1 pe else (b1, []) in
  let cx := upd_bdat c0 (Some bx) in
  evd ++ fed_replies cfg ll bx (e bx) ++ (if closeit then close_ev cx else reset_ev cx).

(* bdat_fed with reset and Close in closed form: a failed chunk ends the
   transfer and resets (after Close, if the position in the stream is lost
   or the delivery panicked); the LAST chunk ends it with end-of-file and
   resets, or closes after a panic; any other chunk is counted and answered
   250 *)
Lemma bdat_fed_eq cfg c size last chunk cerr t1 :
  bdat_fed cfg c size last chunk cerr t1 =
  let '(b0, ev0, c0) := bdat_start cfg c in
  let '(b1, ev1, werr) := bd_feed b0 chunk in
  let ll := last && cf_lmtp cfg in
  match fed_failure b1 werr cerr size chunk t1 with
  | Some (e, pe, tf, closeit) =>
      let c1 := upd_t c0 (set_limit tf (cf_max_line cfg)) in
      (reset_c (if closeit then close_c c1 else c1),
       ev0 ++ ev1 ++ fed_end_ev cfg c1 b1 ll ll closeit pe (fun _ => e))
  | None =>
      let c1 := upd_received (upd_t c0 (set_limit t1 (cf_max_line cfg))) (c_received c0 + Z.of_N size)%Z in
      if last then
        (if bd_panics b1 then close_c c1 else reset_c c1,
         ev0 ++ ev1 ++ fed_end_ev cfg c1 b1 true ll (bd_panics b1) REOF
                          (fun b2 => match bd_done b2 with Some v => v | None => BNil end))
      else (upd_bdat c1 (Some b1), ev0 ++ ev1 ++ [reply 250 (2, 0, 0)%Z (bs "Continue")])
  end.
Proof.
  unfold bdat_fed, fed_failure, fed_end_ev, fed_replies, is_some.
  destruct (bdat_start cfg c) as [[b0 ev0] c0]. destruct (bd_feed b0 chunk) as [[b1 ev1] werr].
  destruct werr as [e|]; [|destruct cerr as [te|]].
  3:{ destruct last; [|reflexivity]. cbn [negb andb].
      assert (Hp : bd_panics (fst (bd_end b1 REOF)) = bd_panics b1)
        by (destruct (bd_end_cases b1 REOF) as [-> | [_ ->]]; reflexivity).
      destruct (bd_end b1 REOF) as [b2 ev2]. cbn [fst] in Hp. rewrite <- Hp.
      destruct (cf_lmtp cfg).
      - pose proof (lmtp_replies_panicked cfg b2 (match bd_done b2 with Some v => v | None => BNil end)) as Hk.
        destruct (bdat_lmtp_replies cfg b2 _) as [rs pk]. cbn [fst snd] in *. subst pk.
        destruct (bd_panics b2); rewrite ?do_close_eq, ?do_reset_eq; reflexivity.
      - destruct (data_error_to_status _) as [[code ec] msg].
        destruct (bd_panics b2); rewrite ?do_close_eq, ?do_reset_eq; reflexivity. }
  2: destruct (t_copy_n (size - blen chunk) t1) as [[dg [de|]] td].
  all: cbv beta iota zeta; cbn [orb].
  all: destruct (last && cf_lmtp cfg).
  all: try (match goal with |- context [bd_end ?b ?pe] => destruct (bd_end b pe) as [b2 ev2] end).
  all: try (match goal with |- context [bdat_lmtp_replies ?a ?b ?e] => destruct (bdat_lmtp_replies a b e) as [rs pk] end).
  all: try (match goal with |- context [data_error_to_status ?e] => destruct (data_error_to_status e) as [[code ec] msg] end).
  all: cbv beta iota zeta; cbn [fst].
  all: try match goal with |- context [if ?b then do_close _ else _] => destruct b end.
  all: rewrite ?do_close_eq; cbv beta iota; rewrite do_reset_eq.
  all: rewrite ?app_nil_r, <- ?app_assoc; reflexivity.
Qed.

Lemma fed_failure_transport b1 werr cerr size chunk t1 e pe tf closeit :
  fed_failure b1 werr cerr size chunk t1 = Some (e, pe, tf, closeit) ->
  tf = t1 \/ (cerr <> None /\ tf = snd (t_copy_n (size - blen chunk) t1)).
Proof.
  unfold fed_failure. destruct werr; [intros H; inversion H; auto|]. destruct cerr; [|discriminate].
  destruct (t_copy_n _ t1) as [[dg de] td]. intros H; inversion H. right. split; [discriminate|reflexivity].
Qed.

Lemma fed_failure_not_eof b1 werr cerr size chunk t1 e pe tf closeit :
  fed_failure b1 werr cerr size chunk t1 = Some (e, pe, tf, closeit) -> pe <> REOF.
Proof.
  unfold fed_failure. destruct werr; [intros H; inversion H; discriminate|]. destruct cerr; [|discriminate].
  destruct (t_copy_n _ t1) as [[dg de] td]. intros H; inversion H. apply rerr_of_copy_not_eof.
Qed.

Lemma fed_failure_none b1 werr cerr size chunk t1 :
  fed_failure b1 werr cerr size chunk t1 = None -> cerr = None.
Proof.
  unfold fed_failure. destruct werr; [discriminate|]. destruct cerr; [|reflexivity].
  destruct (t_copy_n _ t1) as [[dg de] td]. discriminate.
Qed.

Lemma fed_replies_wires cfg ll b e : forallb is_wire (fed_replies cfg ll b e) = true.
Proof.
  unfold fed_replies. destruct ll; [apply bdat_lmtp_replies_wires|].
  destruct (data_error_to_status e) as [[code ec] msg]. reflexivity.
Qed.

(* a property of events holds of these if it holds of what the delivery can be ended with *)
Lemma fed_end_Forall (P : event -> Prop) cfg c0 b1 endpipe ll closeit pe e :
  (forall w, P (EWire w)) -> P EReset -> P ELogout -> P EClose ->
  (forall t, t = RDataReset \/ endpipe = true /\ t = pe -> bd_done b1 = None ->
     P (EDelivery (bd_got b1) (Some t) (plan_ret (bd_plan b1) (Some t)) (bd_panics b1))) ->
  Forall P (fed_end_ev cfg c0 b1 endpipe ll closeit pe e).
Proof.
  intros Hw Hr Hl Hc Hd. unfold fed_end_ev.
  assert (Hx : Forall P (snd (if endpipe then bd_end b1 pe else (b1, []))) /\
               Forall P (abort_ev (Some (fst (if endpipe then bd_end b1 pe else (b1, [])))))).
  { destruct endpipe; [split; [apply Forall_bd_end; auto|]|split; [constructor|]].
    1: destruct (bd_end_cases b1 pe) as [-> | [_ ->]].
    all: apply Forall_abort_ev; intros b [= <-]; auto; discriminate. }
  destruct (if endpipe then bd_end b1 pe else (b1, [])) as [bx evd]. destruct Hx as [H1 H2].
  repeat (apply Forall_app; split); [exact H1|apply Forall_wires; [exact Hw|apply fed_replies_wires]|].
  destruct closeit; [apply Forall_close_ev|apply Forall_reset_ev]; assumption.
Qed.

(* what a chunk does to the record of the delivery: the backend has read some
   more, at most the chunk, and if it returned that is the one event *)
Lemma bd_feed_spec b chunk :
  exists a, blen a <= blen chunk /\
    let b1 := fst (fst (bd_feed b chunk)) in
    bd_got b1 = bd_got b ++ a /\ bd_plan b1 = bd_plan b /\ bd_panics b1 = bd_panics b /\
    bd_rcpts b1 = bd_rcpts b /\
    (snd (fst (bd_feed b chunk)) = []
     \/ snd (fst (bd_feed b chunk)) = [EDelivery (bd_got b ++ a) None (plan_ret (bd_plan b) None) (bd_panics b)]).
Proof.
  destruct (bd_feed_cases b chunk) as [-> | (_ & a & Ha & E)].
  - exists []. rewrite blen_nil, app_nil_r. cbn. split; [lia|auto 8].
  - exists a. split; [destruct Ha as [-> | [n ->]]; [lia|apply take_N_len]|].
    destruct E as [-> | ->]; cbn; auto 8.
Qed.

(* The deliveries an accepted chunk can emit: of the transfer it goes to, with
   what the backend had read and at most the chunk more; the reader ends with
   end-of-file only for a LAST chunk that the copy obtained in full. *)
Lemma bdat_fed_Forall (P : event -> Prop) cfg c size last chunk cerr t1 :
  (forall e, match e with EDelivery _ _ _ _ => True | _ => P e end) ->
  (forall a t, blen a <= blen chunk -> (t = Some REOF -> last = true /\ cerr = None) ->
     let b0 := fst (fst (bdat_start cfg c)) in
     P (EDelivery (bd_got b0 ++ a) t (plan_ret (bd_plan b0) t) (bd_panics b0))) ->
  Forall P (snd (bdat_fed cfg c size last chunk cerr t1)).
Proof.
  intros Hnd Hd. rewrite bdat_fed_eq.
  assert (Hev0 : Forall P (snd (fst (bdat_start cfg c)))).
  { apply bdat_start_Forall; [exact (Hnd EBdatStart)|]. cbv zeta. rewrite <- (app_nil_r (bd_got _)).
    apply Hd; [apply N.le_0_l|discriminate]. }
  destruct (bdat_start cfg c) as [[b0 ev0] c0]. cbn [fst snd] in *.
  destruct (bd_feed_spec b0 chunk) as (a & Ha & Hb1).
  destruct (bd_feed b0 chunk) as [[b1 ev1] werr]. cbn [fst snd] in Hb1. cbv zeta in *.
  destruct Hb1 as (Hg & Hp & Hpn & _ & Hev1).
  assert (Hev1' : Forall P ev1).
  { destruct Hev1 as [-> | ->]; repeat constructor. apply Hd; [exact Ha|discriminate]. }
  assert (Hend : forall c1 endpipe ll closeit pe e,
            (pe = REOF -> last = true /\ cerr = None) ->
            Forall P (ev0 ++ ev1 ++ fed_end_ev cfg c1 b1 endpipe ll closeit pe e)).
  { intros c1 endpipe ll closeit pe e Hpe. repeat (apply Forall_app; split); try assumption.
    apply fed_end_Forall;
      [intros w; exact (Hnd (EWire w))|exact (Hnd EReset)|exact (Hnd ELogout)|exact (Hnd EClose)|].
    intros t Ht _. rewrite Hg, Hp, Hpn. apply Hd; [exact Ha|].
    intros [= ->]. destruct Ht as [Ht | [_ Ht]]; [discriminate|auto]. }
  destruct (fed_failure b1 werr cerr size chunk t1) as [[[[e pe] tf] closeit]|] eqn:Ef; [|destruct last]; cbn [snd].
  - apply Hend. intros ->. elim (fed_failure_not_eof _ _ _ _ _ _ _ _ _ _ Ef). reflexivity.
  - apply Hend. intros _. split; [reflexivity|exact (fed_failure_none _ _ _ _ _ _ Ef)].
  - repeat (apply Forall_app; split); try assumption. repeat constructor. exact (Hnd (EWire _)).
Qed.

(* whatever the copy returned and whatever the backend did: the handler
   leaves the transport where the copy left it - or, after a read error with
   the backend still reading, where the discard of the rest of the declared
   size left it - with the line limit on *)
Lemma bdat_fed_transport cfg c size last chunk cerr t1 :
  let c' := fst (bdat_fed cfg c size last chunk cerr t1) in
  exists tf,
    (tf = t1 \/ (cerr <> None /\ tf = snd (t_copy_n (size - blen chunk) t1))) /\
    t_buf (c_t c') = t_buf tf /\ t_raw (c_t c') = t_raw tf /\ t_cur (c_t c') = t_cur tf /\
    t_limit (c_t c') = cf_max_line cfg /\
    ((c_closed c' = c_closed c /\ t_closed (c_t c') = t_closed tf) \/
     (c_closed c' = true /\ t_closed (c_t c') = true)).
Proof.
  rewrite bdat_fed_eq. destruct (bdat_start_state cfg c) as (_ & _ & be0 & Hc0).
  destruct (bdat_start cfg c) as [[b0 ev0] c0]. cbn [snd] in Hc0. subst c0.
  destruct (bd_feed b0 chunk) as [[b1 ev1] werr]. cbv zeta.
  destruct (fed_failure b1 werr cerr size chunk t1) as [[[[e pe] tf] closeit]|] eqn:Ef.
  - exists tf. split; [exact (fed_failure_transport _ _ _ _ _ _ _ _ _ _ Ef)|].
    destruct closeit; cbn; auto 10.
  - exists t1. split; [left; reflexivity|]. destruct last; [destruct (bd_panics b1)|]; cbn; auto 10.
Qed.

(* the argument carries a size: one or two fields, the first a decimal < 2^32 *)
Definition bdat_size_known (arg : bytes) (n : N) : Prop :=
  exists a0 more, fields arg = a0 :: more /\ (List.length more <= 1)%nat /\ parse_uint 32 a0 = POk n.

Lemma classify_known cfg c arg a0 more n :
  fields arg = a0 :: more -> (List.length more <= 1)%nat -> parse_uint 32 a0 = POk n ->
  bdat_classify cfg c arg =
  if negb (c_from c) || match c_rcpts c with [] => true | _ => false end then BvNoEnvelope n
  else match bdat_last_ok more with
       | None => BvBadLast n
       | Some last =>
           if bdat_over cfg c n then BvOverLimit n
           else if negb (c_session c) && match c_bdat c with None => true | Some _ => false end
                then BvNilSession else BvAccept n last
       end.
Proof.
  intros Hf Hl Hp. unfold bdat_classify. rewrite Hf, Hp.
  destruct more as [|a1 [|a2 more]]; [reflexivity|reflexivity|cbn in Hl; lia].
Qed.

Lemma classify_size cfg c arg n :
  bdat_size_known arg n ->
  match bdat_classify cfg c arg with
  | BvSyntax => False
  | BvNoEnvelope s | BvBadLast s | BvOverLimit s => s = n
  | BvAccept s _ => s = n /\ bdat_over cfg c n = false
  | BvNilSession => c_session c = false /\ c_from c = true /\ c_bdat c = None
  end.
Proof.
  intros (a0 & more & Hf & Hl & Hp). rewrite (classify_known cfg c arg a0 more n Hf Hl Hp).
  destruct (c_from c); [|reflexivity]. destruct (c_rcpts c); [reflexivity|]. cbn [negb orb].
  destruct (bdat_last_ok more); [|reflexivity]. destruct (bdat_over cfg c n); [reflexivity|].
  destruct (c_session c), (c_bdat c); cbn [negb andb]; auto.
Qed.

(* no size: no argument, more than two, or not a decimal below 2^32 *)
Lemma size_known_or_syntax cfg c arg :
  (exists n, bdat_size_known arg n) \/ bdat_classify cfg c arg = BvSyntax.
Proof.
  unfold bdat_classify, bdat_size_known.
  destruct (fields arg) as [|a0 more]; [right; reflexivity|].
  destruct (parse_uint 32 a0) as [size| |] eqn:Hp.
  2,3: right; destruct more as [|a1 [|a2 more]]; reflexivity.
  destruct more as [|a1 [|a2 more]]; [left|left|right; reflexivity].
  all: exists size; eexists a0, _; split; [reflexivity|]; split; [cbn; lia|exact Hp].
Qed.

Lemma classify_syntax cfg c arg :
  bdat_classify cfg c arg = BvSyntax <-> ~ exists n, bdat_size_known arg n.
Proof.
  split.
  - intros H [n Hn]. pose proof (classify_size cfg c arg n Hn) as Hc. rewrite H in Hc. exact Hc.
  - intros H. destruct (size_known_or_syntax cfg c arg); [contradiction|assumption].
Qed.

(* The size is known and the stream holds the declared octets: in EVERY
   branch - accepted (LAST or not, delivered, refused by the backend, backend
   gone, backend panicked), refused 502 (no envelope), refused 501 (bad LAST
   token), refused 552 (over the limit) - the handler leaves the transport
   exactly behind the declared octets, with the line limit switched back on;
   this holds for every buffered/raw-read segmentation of the stream and for
   every payload.  Branches that close the connection are included (the
   stream position is the same; c_closed tells the loop to stop). *)
Theorem bdat_resume (cfg : config) (c : conn) (arg a0 : bytes) (more : list bytes)
        (n : N) (payload rest : bytes) :
  t_closed (c_t c) = false ->
  (c_from c = true -> c_session c = true) ->
  fields arg = a0 :: more -> (List.length more <= 1)%nat -> parse_uint 32 a0 = POk n ->
  tstream (c_t c) = payload ++ rest -> blen payload = n ->
  let '(c', ev) := handle_bdat cfg c arg in
  tstream (c_t c') = rest /\ t_limit (c_t c') = cf_max_line cfg /\
  tterm (c_t c') = tterm (c_t c) /\
  ((c_closed c' = c_closed c /\ t_closed (c_t c') = false) \/
   (c_closed c' = true /\ t_closed (c_t c') = true)).
Proof.
  intros Hcl Hse Hf Hl Hp Hs Hn.
  assert (Hk : bdat_size_known arg n) by (exists a0, more; auto).
  pose proof (classify_size cfg c arg n Hk) as Hsz.
  pose proof (handle_bdat_cases cfg c arg) as Hc.
  destruct (discard_chunk_resume cfg c n payload rest Hcl Hs Hn) as (td & Hd & Hd1 & Hd2 & Hd3 & Hd4).
  destruct (bdat_classify cfg c arg) as [|s|s|s| |s last].
  1: contradiction.
  (* the refusals: discardChunk has skipped the chunk *)
  1-3: rewrite Hc; unfold discard_c, discard_ev; rewrite Hsz, Hd; destruct c; cbn; auto 10.
  - destruct Hsz as (H1 & H2 & _). rewrite (Hse H2) in H1. discriminate.
  - rewrite Hc. destruct Hsz as [-> _].
    destruct (copy_n_exact (set_limit (c_t c) 0) n payload rest) as (t1 & Hcp & Hr & Hcl1 & _ & Ht);
      [exact Hcl|reflexivity|exact Hs|exact Hn|].
    rewrite Hcp.
    pose proof (bdat_fed_transport cfg c n last payload None t1) as Hft.
    destruct (bdat_fed cfg c n last payload None t1) as [c' ev]. cbn [fst] in Hft. cbv zeta in Hft.
    destruct Hft as (tf & Htf & Hb & Hr' & _ & Hlim & Hclosed).
    destruct Htf as [-> | [Hx _]]; [|exfalso; apply Hx; reflexivity].
    unfold tstream, tterm in *. rewrite Hb, Hr'. split; [exact Hr|]. split; [exact Hlim|].
    split; [exact Ht|]. rewrite Hcl1 in Hclosed. exact Hclosed.
Qed.

(* the loop invariant of ConnProofs gives the session hypothesis *)
Lemma Inv_session c : Inv c -> c_closed c = false -> c_from c = true -> c_session c = true.
Proof.
  intros (H1 & _) Hc Hf. destruct (c_session c) eqn:E; [reflexivity|].
  destruct (H1 Hc eq_refl) as (_ & H & _). congruence.
Qed.

(* the refusals: the reply, then discardChunk; no octet of the chunk reaches
   the backend or the command parser.  When the stream holds the declared
   octets the reply is the only event ([bdat_refusal_complete]); when it does
   not, the connection is closed ([bdat_refusal_short]).  The verdicts 502
   and 501 are read off [classify_known] and [handle_bdat_cases]. *)
Theorem bdat_refused_over_limit cfg c arg a0 more n last :
  fields arg = a0 :: more -> (List.length more <= 1)%nat -> parse_uint 32 a0 = POk n ->
  c_from c = true -> c_rcpts c <> [] -> bdat_last_ok more = Some last ->
  cf_max_bytes cfg <> 0%Z -> (cf_max_bytes cfg < c_received c + Z.of_N n)%Z ->
  handle_bdat cfg c arg
  = (reset_c (discard_c cfg c n),
     [reply 552 (5, 3, 4)%Z (bs "Max message size exceeded")]
     ++ discard_ev cfg c n ++ reset_ev (discard_c cfg c n)).
Proof.
  intros Hf Hl Hp Hfr Hrc Hlast Hm Hover. pose proof (handle_bdat_cases cfg c arg) as Hc.
  rewrite (classify_known cfg c arg a0 more n Hf Hl Hp), Hfr, Hlast in Hc. cbn [negb orb] in Hc.
  destruct (c_rcpts c); [congruence|].
  assert (Ho : bdat_over cfg c n = true).
  { unfold bdat_over. apply Z.eqb_neq in Hm. apply Z.ltb_lt in Hover. rewrite Hm, Hover. reflexivity. }
  rewrite Ho in Hc. exact Hc.
Qed.

(* the stream holds the declared octets: they are skipped, no event is added *)
Theorem bdat_refusal_complete cfg c n payload rest :
  t_closed (c_t c) = false -> tstream (c_t c) = payload ++ rest -> blen payload = n ->
  exists t',
    discard_c cfg c n = upd_t c t' /\ discard_ev cfg c n = [] /\
    tstream t' = rest /\ t_limit t' = cf_max_line cfg /\ t_closed t' = false /\
    tterm t' = tterm (c_t c).
Proof.
  intros Hcl Hs Hn. destruct (discard_chunk_resume cfg c n payload rest Hcl Hs Hn) as (t' & Hd & H).
  exists t'. unfold discard_c, discard_ev. rewrite Hd. auto.
Qed.

(* the stream ends, or a read fails, inside the declared octets: the
   connection is closed (a running delivery is aborted, the session logged
   out), so whatever arrives later is not run as commands *)
Theorem bdat_refusal_short cfg c n :
  t_closed (c_t c) = false -> blen (tstream (c_t c)) < n ->
  c_closed (discard_c cfg c n) = true /\ t_closed (c_t (discard_c cfg c n)) = true /\
  c_session (discard_c cfg c n) = false /\ c_bdat (discard_c cfg c n) = None /\
  discard_ev cfg c n = close_ev c.
Proof.
  intros Hcl Hn. destruct (discard_chunk_short cfg c n Hcl Hn) as (t' & Hd & _).
  unfold discard_c, discard_ev. rewrite Hd, do_close_eq. cbn [fst snd].
  rewrite close_ev_upd_t. destruct c; cbn. auto.
Qed.

(* io.Copy of successive chunks into the pipe; the write errors are recorded *)
Fixpoint bd_feed_all (b : bdat) (chunks : list bytes) : bdat * list event * list (option berr) :=
  match chunks with
  | [] => (b, [], [])
  | p :: r =>
      let '(b1, ev1, w) := bd_feed b p in
      let '(b2, ev2, ws) := bd_feed_all b1 r in
      (b2, ev1 ++ ev2, w :: ws)
  end.

(* a whole chunked transfer seen from the pipe: start of the delivery, the
   chunks, and the end of the write side - Close() after LAST ([REOF]) or
   CloseWithError (ErrDataReset on RSET/QUIT/EHLO/connection end/over-limit
   chunk, or the copy error of a failed chunk) *)
Definition pipe_run (p : data_plan) (rcpts : list bytes) (sp : bool) (chunks : list bytes) (term : rerr)
  : list event * list (option berr) :=
  let '(b0, ev0) := bd_new p rcpts sp in
  let '(b1, ev1, ws) := bd_feed_all b0 chunks in
  let '(b2, ev2) := bd_end b1 term in
  (ev0 ++ ev1 ++ ev2, ws).

Lemma feed_read_all b chunk :
  dp_stop (bd_plan b) = None -> bd_done b = None ->
  bd_feed b chunk = (mkBD (bd_plan b) (bd_got b ++ chunk) None (bd_rcpts b) (bd_panics b), [], None).
Proof.
  intros Hs Hd. unfold bd_feed. destruct chunk as [|x chunk].
  - rewrite app_nil_r. destruct b; cbn in *. subst. reflexivity.
  - rewrite Hd, Hs. reflexivity.
Qed.

Lemma feed_all_read_all chunks : forall b,
  dp_stop (bd_plan b) = None -> bd_done b = None ->
  bd_feed_all b chunks
  = (mkBD (bd_plan b) (bd_got b ++ List.concat chunks) None (bd_rcpts b) (bd_panics b), [],
     map (fun _ => None) chunks).
Proof.
  induction chunks as [|p r IH]; intros b Hs Hd; cbn [bd_feed_all List.concat map].
  - rewrite app_nil_r. destruct b; cbn in *. subst. reflexivity.
  - rewrite feed_read_all by assumption. rewrite IH by (cbn; first [assumption|reflexivity]). cbn. rewrite <- app_assoc. reflexivity.
Qed.

(* A backend that reads until its reader ends: for EVERY division into
   chunks (any number, any sizes including zero) and every payload the
   backend is called once and its reader yields exactly the concatenation of
   the chunks - no octet changed, removed or added - followed by the
   terminal condition of the pipe; no copy reports a write error. *)
Theorem pipe_read_all p rcpts sp chunks term :
  dp_stop p = None ->
  pipe_run p rcpts sp chunks term
  = ([EBdatStart; EDelivery (List.concat chunks) (Some term) (plan_ret p (Some term)) (dp_panic p || sp)],
     map (fun _ => None) chunks).
Proof.
  intros Hs. unfold pipe_run, bd_new. rewrite Hs.
  rewrite feed_all_read_all by (cbn; first [assumption|reflexivity]). cbn. reflexivity.
Qed.

(* end-of-file after LAST: the backend's own verdict is what it returns *)
Corollary pipe_read_all_eof p rcpts sp chunks :
  dp_stop p = None ->
  fst (pipe_run p rcpts sp chunks REOF)
  = [EBdatStart; EDelivery (List.concat chunks) (Some REOF) (dp_ret p) (dp_panic p || sp)].
Proof. intros Hs. rewrite pipe_read_all by exact Hs. reflexivity. Qed.

Lemma feed_done b chunk v : bd_done b = Some v -> fst (bd_feed b chunk) = (b, []).
Proof. intros Hd. unfold bd_feed. destruct chunk; [reflexivity|]. rewrite Hd. reflexivity. Qed.

Lemma feed_all_done chunks : forall b v, bd_done b = Some v -> fst (bd_feed_all b chunks) = (b, []).
Proof.
  induction chunks as [|p r IH]; intros b v Hd; cbn [bd_feed_all]; [reflexivity|].
  pose proof (feed_done b p v Hd) as H1. destruct (bd_feed b p) as [[b1 ev1] w]. cbn [fst] in H1.
  inversion H1; subst b1 ev1.
  pose proof (IH b v Hd) as H2. destruct (bd_feed_all b r) as [[b2 ev2] ws]. cbn [fst] in H2.
  inversion H2; subst. reflexivity.
Qed.

(* A backend that stops after k octets, from a state in which it still wants
   some: whatever the division into chunks, its reader yields [take_N] of
   the concatenation, and it sees the end of the pipe only if that is short. *)
Lemma feed_all_take term chunks : forall b k,
  dp_stop (bd_plan b) = Some k -> bd_done b = None -> blen (bd_got b) < k ->
  let '(a, _, m) := take_N (k - blen (bd_got b)) (List.concat chunks) in
  let t' := if m =? 0 then None else Some term in
  snd (fst (bd_feed_all b chunks)) ++ snd (bd_end (fst (fst (bd_feed_all b chunks))) term)
  = [EDelivery (bd_got b ++ a) t' (plan_ret (bd_plan b) t') (bd_panics b)].
Proof.
  induction chunks as [|ch chunks IH]; intros b k Hs Hd Hl; cbn [bd_feed_all List.concat].
  - cbn [take_N fst snd app]. assert (E : k - blen (bd_got b) =? 0 = false) by (apply N.eqb_neq; lia).
    rewrite E, app_nil_r. unfold bd_end. rewrite Hd. reflexivity.
  - rewrite take_N_app_gen. unfold bd_feed. destruct ch as [|x ch].
    { (* an empty chunk *)
      cbn [take_N]. assert (E : k - blen (bd_got b) =? 0 = false) by (apply N.eqb_neq; lia). rewrite E.
      specialize (IH b k Hs Hd Hl). destruct (take_N _ (List.concat chunks)) as [[a' b'] m'].
      destruct (bd_feed_all b chunks) as [[b2 ev2] ws]. exact IH. }
    rewrite Hd, Hs. destruct (take_N (k - blen (bd_got b)) (x :: ch)) as [[a1 b1] m1] eqn:E1.
    destruct (take_N_split _ _ _ _ _ E1) as (_ & H2 & _).
    rewrite N.ltb_antisym, <- (take_N_rest _ _ _ _ _ E1). destruct (m1 =? 0) eqn:Em; cbn [negb].
    + (* the backend stops inside, or at the end of, this chunk *)
      unfold bd_finish. cbn [bd_plan bd_got bd_done bd_rcpts bd_panics].
      set (b2 := mkBD _ _ (Some _) _ _).
      pose proof (feed_all_done chunks b2 _ eq_refl) as H4.
      destruct (blen (x :: ch) =? _); destruct (bd_feed_all b2 chunks) as [[b3 ev3] ws]; cbn [fst] in H4;
        inversion H4; subst b3 ev3; unfold bd_end, b2; cbn [bd_done fst snd app]; reflexivity.
    + (* the chunk is read completely and the backend wants more *)
      apply N.eqb_neq in Em. set (bm := mkBD _ _ _ _ _).
      specialize (IH bm k Hs eq_refl). cbn [bd_got bd_plan bd_panics bm] in IH. rewrite blen_app in IH.
      replace (k - (blen (bd_got b) + blen a1)) with m1 in IH by lia.
      destruct (take_N m1 (List.concat chunks)) as [[a' b'] m'].
      destruct (bd_feed_all bm chunks) as [[b2 ev2] ws]. cbn [fst snd app] in *.
      rewrite app_assoc. apply IH. lia.
Qed.

(* A backend that stops reading after k octets (and returns): for every
   division into chunks it is called once and has read exactly the first
   min(k, total) octets of the concatenated payloads; it sees the terminal
   condition of the pipe only if the message is shorter than k. *)
Theorem pipe_stop p rcpts sp chunks term k :
  dp_stop p = Some k ->
  let total := List.concat chunks in
  let t' := if k <=? blen total then None else Some term in
  exists got rest,
    total = got ++ rest /\ blen got = N.min k (blen total) /\
    fst (pipe_run p rcpts sp chunks term)
    = [EBdatStart; EDelivery got t' (plan_ret p t') (dp_panic p || sp)].
Proof.
  intros Hs. cbv zeta. unfold pipe_run, bd_new. rewrite Hs.
  destruct k as [|q]; cbv iota.
  - (* the backend returns without reading *)
    unfold bd_finish. cbn [bd_plan bd_got bd_done bd_rcpts bd_panics].
    set (b0 := mkBD _ _ _ _ _).
    pose proof (feed_all_done chunks b0 _ eq_refl) as H4.
    destruct (bd_feed_all b0 chunks) as [[b2 ev2] ws]. cbn [fst] in H4. inversion H4; subst b2 ev2.
    unfold bd_end, b0. cbn [bd_done fst app].
    assert (E : 0 <=? blen (List.concat chunks) = true) by (apply N.leb_le; lia). rewrite E.
    exists [], (List.concat chunks). split; [reflexivity|]. split; [rewrite blen_nil; lia|reflexivity].
  - set (b0 := mkBD p [] None rcpts (dp_panic p || sp)).
    pose proof (feed_all_take term chunks b0 (N.pos q) Hs eq_refl eq_refl) as H. cbn [bd_got bd_plan bd_panics b0 app] in H.
    rewrite blen_nil, N.sub_0_r in H.
    destruct (take_N (N.pos q) (List.concat chunks)) as [[a rest] m] eqn:E.
    rewrite (take_N_rest _ _ _ _ _ E) in H. destruct (take_N_split _ _ _ _ _ E) as (H1 & H2 & H3).
    destruct (bd_feed_all b0 chunks) as [[b1 ev1] ws]. cbn [fst snd] in *. destruct (bd_end b1 term) as [b2 ev2]. cbn [fst snd] in *.
    exists a, rest. split; [exact H1|]. split; [|cbn [app]; rewrite H; reflexivity].
    rewrite H1, blen_app. destruct H3 as [-> | ->]; [|rewrite blen_nil]; lia.
Qed.

(* a BDAT argument that is well-formed: a size and possibly LAST *)
Definition bdat_arg (arg : bytes) (n : N) (last : bool) : Prop :=
  exists a0 more, fields arg = a0 :: more /\ (List.length more <= 1)%nat /\
                  parse_uint 32 a0 = POk n /\ bdat_last_ok more = Some last.

(* a SetStatus call of the LMTP backend that the collector refuses (panic) *)
Definition status_panic_of (cfg : config) (p : data_plan) (rcpts : list bytes) : bool :=
  cf_lmtp cfg && cf_lmtp_session cfg && snd (run_statuses (dp_status p) (mk_collector rcpts)).

(* after MAIL and at least one accepted RCPT, no transfer open *)
Definition envelope_open (c : conn) : Prop :=
  c_from c = true /\ c_rcpts c <> [] /\ c_session c = true /\ c_bdat c = None /\ c_received c = 0%Z.

(* between two chunks: the delivery with plan [p] is running, its reader has
   yielded [got] so far, and that is also what was counted *)
Definition chunking (c : conn) (p : data_plan) (pan : bool) (got : bytes) : Prop :=
  c_from c = true /\ c_rcpts c <> [] /\ c_session c = true /\
  c_bdat c = Some (mkBD p got None (c_rcpts c) pan) /\ c_received c = Z.of_N (blen got).

(* either of the two: the transfer the next chunk belongs to *)
Definition transfer_at (cfg : config) (c : conn) (p : data_plan) (pan : bool) (got : bytes) : Prop :=
  (envelope_open c /\ p = fst (pop_data c) /\
   pan = dp_panic p || status_panic_of cfg p (c_rcpts c) /\ got = [])
  \/ chunking c p pan got.

Definition start_events (c : conn) : list event :=
  match c_bdat c with None => [EBdatStart] | Some _ => [] end.

(* the final reply (replies, in LMTP mode) to BDAT LAST *)
Definition bdat_final_replies (cfg : config) (p : data_plan) (pan : bool) (rcpts : list bytes)
           (total : bytes) : list event :=
  let ret := if pan then err_panic else dp_ret p in
  if cf_lmtp cfg then fst (bdat_lmtp_replies cfg (mkBD p total (Some ret) rcpts pan) ret)
  else let '(code, ec, msg) := data_error_to_status ret in [reply code ec msg].

Definition within_limit (cfg : config) (c : conn) (n : N) : Prop :=
  cf_max_bytes cfg = 0%Z \/ (c_received c + Z.of_N n <= cf_max_bytes cfg)%Z.

Lemma within_limit_over cfg c n : within_limit cfg c n -> bdat_over cfg c n = false.
Proof.
  intros [H|H]; unfold bdat_over.
  - rewrite H. reflexivity.
  - apply andb_false_iff. right. apply Z.ltb_ge. exact H.
Qed.

Lemma transfer_at_env cfg c p pan got :
  transfer_at cfg c p pan got -> c_from c = true /\ c_rcpts c <> [] /\ c_session c = true.
Proof. intros [((H1 & H2 & H3 & _) & _)|(H1 & H2 & H3 & _)]; auto. Qed.

Lemma transfer_at_received cfg c p pan got :
  transfer_at cfg c p pan got -> c_received c = Z.of_N (blen got).
Proof.
  intros [((_ & _ & _ & _ & H5) & _ & _ & Hg)|(_ & _ & _ & _ & H5)]; [subst got; exact H5|exact H5].
Qed.

Lemma classify_accept cfg c p pan got arg n last :
  transfer_at cfg c p pan got -> bdat_arg arg n last -> within_limit cfg c n ->
  bdat_classify cfg c arg = BvAccept n last.
Proof.
  intros Ht (a0 & more & Hf & Hl & Hp & Hlast) Hw.
  destruct (transfer_at_env _ _ _ _ _ Ht) as (H1 & H2 & H3).
  rewrite (classify_known cfg c arg a0 more n Hf Hl Hp), H1, Hlast, (within_limit_over _ _ _ Hw), H3.
  destruct (c_rcpts c); [congruence|reflexivity].
Qed.

Lemma bdat_start_at cfg c p pan got :
  transfer_at cfg c p pan got -> dp_stop p = None ->
  exists be0,
    bdat_start cfg c = (mkBD p got None (c_rcpts c) pan, start_events c, upd_be c be0).
Proof.
  intros [((H1 & H2 & H3 & H4 & H5) & Hp & Hpan & Hg)|(H1 & H2 & H3 & H4 & H5)] Hs;
    unfold bdat_start, start_events; rewrite H4.
  - unfold pop_data in *. destruct (pop dp_default (be_data (c_be c))) as [p' rest]. cbn [fst] in Hp.
    subst p' got. cs. unfold bd_new. rewrite Hs. fold (status_panic_of cfg p (c_rcpts c)). rewrite <- Hpan.
    eexists. reflexivity.
  - exists (c_be c). destruct c; reflexivity.
Qed.

(* A chunk without LAST, accepted: one "250 Continue", nothing else happens
   (the delivery is started if this is the first chunk); the invariant
   [chunking] is established / preserved with the payload appended. *)
Theorem bdat_chunk_continue cfg c p pan got arg n payload rest :
  transfer_at cfg c p pan got -> dp_stop p = None ->
  bdat_arg arg n false -> within_limit cfg c n ->
  t_closed (c_t c) = false -> tstream (c_t c) = payload ++ rest -> blen payload = n ->
  let '(c', ev) := handle_bdat cfg c arg in
  ev = start_events c ++ [reply 250 (2, 0, 0)%Z (bs "Continue")] /\
  chunking c' p pan (got ++ payload) /\
  tstream (c_t c') = rest /\ t_limit (c_t c') = cf_max_line cfg /\ t_closed (c_t c') = false /\
  c_closed c' = c_closed c /\ c_rcpts c' = c_rcpts c.
Proof.
  intros Ht Hs Ha Hw Hcl Hst Hn.
  pose proof (handle_bdat_cases cfg c arg) as Hc.
  rewrite (classify_accept cfg c p pan got arg n false Ht Ha Hw) in Hc. rewrite Hc.
  destruct (copy_n_exact (set_limit (c_t c) 0) n payload rest) as (t1 & Hcp & Hr & Hcl1 & _ & Htm);
    [exact Hcl|reflexivity|exact Hst|exact Hn|].
  rewrite Hcp, bdat_fed_eq.
  destruct (bdat_start_at cfg c p pan got Ht Hs) as (be0 & Hb). rewrite Hb.
  rewrite feed_read_all by (cbn; first [assumption|reflexivity]).
  destruct (transfer_at_env _ _ _ _ _ Ht) as (H1 & H2 & H3).
  pose proof (transfer_at_received _ _ _ _ _ Ht) as Hrv.
  cbn. unfold chunking. cs. rewrite Hrv, blen_app, N2Z.inj_add. subst n. auto 10.
Qed.

(* The LAST chunk, accepted: the write side of the pipe is closed, the
   backend's reader - which has yielded exactly the payloads so far plus this
   one - reports end-of-file, the backend returns, and its verdict is the
   final reply; then the transaction is reset (or, if the delivery panicked,
   the connection closed). *)
Theorem bdat_chunk_last cfg c p pan got arg n payload rest :
  transfer_at cfg c p pan got -> dp_stop p = None ->
  bdat_arg arg n true -> within_limit cfg c n ->
  t_closed (c_t c) = false -> tstream (c_t c) = payload ++ rest -> blen payload = n ->
  let '(c', ev) := handle_bdat cfg c arg in
  let total := got ++ payload in
  ev = start_events c ++ [EDelivery total (Some REOF) (dp_ret p) pan]
       ++ bdat_final_replies cfg p pan (c_rcpts c) total
       ++ (if pan then [ELogout; EClose] else [EReset]) /\
  tstream (c_t c') = rest /\ t_limit (c_t c') = cf_max_line cfg /\
  (if pan then c_closed c' = true
   else c_closed c' = c_closed c /\ t_closed (c_t c') = false /\ c_session c' = true /\
        c_bdat c' = None /\ c_received c' = 0%Z /\ c_from c' = false /\ c_rcpts c' = []).
Proof.
  intros Ht Hs Ha Hw Hcl Hst Hn.
  pose proof (handle_bdat_cases cfg c arg) as Hc.
  rewrite (classify_accept cfg c p pan got arg n true Ht Ha Hw) in Hc. rewrite Hc.
  destruct (copy_n_exact (set_limit (c_t c) 0) n payload rest) as (t1 & Hcp & Hr & Hcl1 & _ & Htm);
    [exact Hcl|reflexivity|exact Hst|exact Hn|].
  rewrite Hcp, bdat_fed_eq.
  destruct (bdat_start_at cfg c p pan got Ht Hs) as (be0 & Hb). rewrite Hb.
  rewrite feed_read_all by (cbn; first [assumption|reflexivity]).
  destruct (transfer_at_env _ _ _ _ _ Ht) as (H1 & H2 & H3).
  unfold fed_end_ev, fed_replies, bdat_final_replies, close_ev, reset_ev. cbn -[bdat_lmtp_replies data_error_to_status].
  rewrite H3. split; [destruct pan; reflexivity|]. destruct pan; cbn; auto 10.
Qed.

(* One BDAT command of a transfer as the handler meets it: the argument of
   the command line, the transport state after that line has been read (ANY
   state: whatever is buffered, whatever raw reads follow), the chunk's
   payload and what follows it in the stream. *)
Record chunk_step := mkStep { st_arg : bytes; st_t : transport; st_payload : bytes; st_rest : bytes }.

Definition step_ok (last : bool) (s : chunk_step) : Prop :=
  bdat_arg (st_arg s) (blen (st_payload s)) last /\
  t_closed (st_t s) = false /\ tstream (st_t s) = st_payload s ++ st_rest s.

(* The handler invocations of consecutive BDAT commands.  Between two
   commands the loop only reads the next command line, i.e. changes the
   transport (ConnProofs.conn_read_line_c); [st_t] is the result of that. *)
Fixpoint bdat_seq (cfg : config) (c : conn) (steps : list chunk_step) : hres :=
  match steps with
  | [] => (c, [])
  | s :: r =>
      let '(c1, ev1) := handle_bdat cfg (upd_t c (st_t s)) (st_arg s) in
      let '(c2, ev2) := bdat_seq cfg c1 r in
      (c2, ev1 ++ ev2)
  end.

Lemma transfer_at_upd_t cfg c p pan got t :
  transfer_at cfg c p pan got -> transfer_at cfg (upd_t c t) p pan got.
Proof.
  unfold transfer_at, envelope_open, chunking, pop_data. destruct c. cs.
  destruct (pop dp_default (be_data c_be)). exact (fun H => H).
Qed.

Definition continue_reply : event := reply 250 (2, 0, 0)%Z (bs "Continue").

(* For EVERY division of a message into chunks (any number of non-LAST
   chunks of any sizes incl. zero, then a LAST chunk of any size incl. zero),
   every payload, every transport state at each chunk: one delivery, whose
   reader yields exactly the concatenation of the payloads and then
   end-of-file; one "250 Continue" per non-LAST chunk; the final reply is the
   backend's verdict; after each chunk the stream stands right behind it. *)
Theorem bdat_transfer_exact cfg p pan (steps : list chunk_step) (final : chunk_step) :
  dp_stop p = None ->
  Forall (step_ok false) steps -> step_ok true final ->
  forall c got,
  transfer_at cfg c p pan got ->
  (cf_max_bytes cfg = 0%Z \/
   (Z.of_N (blen got + blen (List.concat (map st_payload steps)) + blen (st_payload final))
    <= cf_max_bytes cfg)%Z) ->
  let '(c', ev) := bdat_seq cfg c (steps ++ [final]) in
  let total := got ++ List.concat (map st_payload steps) ++ st_payload final in
  ev = start_events c ++ repeat continue_reply (List.length steps)
       ++ [EDelivery total (Some REOF) (dp_ret p) pan]
       ++ bdat_final_replies cfg p pan (c_rcpts c) total
       ++ (if pan then [ELogout; EClose] else [EReset]) /\
  tstream (c_t c') = st_rest final /\ t_limit (c_t c') = cf_max_line cfg /\
  (if pan then c_closed c' = true
   else c_closed c' = c_closed c /\ t_closed (c_t c') = false /\ c_session c' = true /\
        c_bdat c' = None /\ c_received c' = 0%Z /\ c_from c' = false /\ c_rcpts c' = []).
Proof.
  intros Hs Hsteps (Hfa & Hfc & Hfs).
  (* the limit as the chunk lemmas want it: on the state in which the chunk's line has been read *)
  assert (Hwl : forall c got t m, transfer_at cfg c p pan got ->
            cf_max_bytes cfg = 0%Z \/ (Z.of_N (blen got + m) <= cf_max_bytes cfg)%Z ->
            within_limit cfg (upd_t c t) m).
  { intros c got t m Ht [Hl|Hl]; [left; exact Hl|right]. cs. rewrite (transfer_at_received _ _ _ _ _ Ht). lia. }
  induction Hsteps as [|s steps (Ha & Hc & Hst) Hsteps IH]; intros c got Ht Hlim;
    cbn [app bdat_seq map List.concat List.length repeat].
  - pose proof (bdat_chunk_last cfg (upd_t c (st_t final)) p pan got (st_arg final) _ (st_payload final)
                  (st_rest final) (transfer_at_upd_t _ _ _ _ _ _ Ht) Hs Hfa) as H.
    destruct (handle_bdat cfg (upd_t c (st_t final)) (st_arg final)) as [c1 ev1].
    rewrite app_nil_r. apply H; [|exact Hfc|exact Hfs|reflexivity].
    apply (Hwl c got); [exact Ht|]. destruct Hlim as [Hl|Hl]; [left; exact Hl|right].
    cbn [List.concat map] in Hl. rewrite blen_nil in Hl. lia.
  - pose proof (bdat_chunk_continue cfg (upd_t c (st_t s)) p pan got (st_arg s) _ (st_payload s)
                  (st_rest s) (transfer_at_upd_t _ _ _ _ _ _ Ht) Hs Ha) as H.
    destruct (handle_bdat cfg (upd_t c (st_t s)) (st_arg s)) as [c1 ev1].
    destruct H as (He & Hch & _ & _ & _ & Hcl1 & Hrc1); [|exact Hc|exact Hst|reflexivity|].
    { apply (Hwl c got); [exact Ht|]. destruct Hlim as [Hl|Hl]; [left; exact Hl|right].
      cbn [List.concat map] in Hl. rewrite blen_app in Hl. lia. }
    specialize (IH c1 (got ++ st_payload s) (or_intror Hch)).
    destruct (bdat_seq cfg c1 (steps ++ [final])) as [c2 ev2].
    destruct IH as (He2 & Hrest).
    { destruct Hlim as [Hl|Hl]; [left; exact Hl|right].
      cbn [List.concat map] in Hl. rewrite !blen_app in *. lia. }
    assert (Hse1 : start_events c1 = []).
    { unfold start_events. destruct Hch as (_ & _ & _ & Hb & _). rewrite Hb. reflexivity. }
    rewrite Hse1 in He2. unfold start_events in He. cs. rewrite Hcl1 in Hrest.
    split; [|exact Hrest].
    rewrite He, He2, Hrc1, <- !app_assoc. reflexivity.
Qed.

(* the same configuration without a size limit *)
Definition cfg_no_limit (cfg : config) : config :=
  mkCfg (cf_lmtp cfg) (cf_tls_config cfg) (cf_domain cfg) (cf_max_rcpt cfg) 0%Z (cf_max_line cfg)
        (cf_insecure_auth cfg) (cf_utf8 cfg) (cf_requiretls cfg) (cf_binarymime cfg) (cf_dsn cfg)
        (cf_rrvs cfg) (cf_lmtp_session cfg) (cf_auth cfg) (cf_implicit_tls cfg).

(* a chunk that keeps the total within the limit is handled exactly as if no
   limit were configured: same state, same events *)
Theorem bdat_within_limit_as_unlimited cfg c arg :
  (forall n, bdat_size_known arg n -> (c_received c + Z.of_N n <= cf_max_bytes cfg)%Z) ->
  handle_bdat cfg c arg = handle_bdat (cfg_no_limit cfg) c arg.
Proof.
  intros H. unfold cfg_no_limit. destruct cfg as [lm tc dm mr mb ml ia u8 rt bmm dsn rrvs ls au it].
  cbn [cf_lmtp cf_tls_config cf_domain cf_max_rcpt cf_max_bytes cf_max_line cf_insecure_auth cf_utf8
       cf_requiretls cf_binarymime cf_dsn cf_rrvs cf_lmtp_session cf_auth cf_implicit_tls] in *.
  unfold handle_bdat.
  destruct (fields arg) as [|a0 more] eqn:Hf; [reflexivity|].
  destruct (parse_uint 32 a0) as [size| |] eqn:Hp; [|reflexivity|reflexivity].
  destruct more as [|a1 [|a2 more]]; [| |reflexivity].
  all: assert (Hle : (c_received c + Z.of_N size <= mb)%Z)
         by (apply H; eexists a0, _; split; [exact Hf|]; split; [cbn; lia|exact Hp]).
  all: assert (Hov : (mb <? c_received c + Z.of_N size)%Z = false) by (apply Z.ltb_ge; exact Hle).
  all: cbn [cf_max_bytes]; rewrite Hov, andb_false_r; cbn [Z.eqb negb andb]; reflexivity.
Qed.

(* Outside handle_bdat a chunked delivery is only ever ended, by reset() or
   Close(): the delivery events of a handler are among those of aborting the
   transfer that was running, and the handler leaves the transfer and its
   count alone or clears them. *)
Definition aborts_only (bd : option bdat) (e : event) : Prop :=
  match e with EDelivery _ _ _ _ => In e (abort_ev bd) | _ => True end.

Definition Frame (c : conn) (r : hres) : Prop :=
  (c_bdat (fst r) = c_bdat c /\ c_received (fst r) = c_received c
   \/ c_bdat (fst r) = None /\ (c_received (fst r) = c_received c \/ c_received (fst r) = 0%Z))
  /\ Forall (aborts_only (c_bdat c)) (snd r).

Lemma aborts_abort bd bd' : bd' = bd \/ bd' = None -> Forall (aborts_only bd) (abort_ev bd').
Proof.
  intros [-> | ->]; [|constructor]. apply Forall_forall. intros e H. destruct e; try exact I. exact H.
Qed.

Lemma aborts_reset bd c : c_bdat c = bd \/ c_bdat c = None -> Forall (aborts_only bd) (reset_ev c).
Proof. intros H. apply Forall_reset_ev; [apply aborts_abort, H|exact I]. Qed.

Lemma aborts_close bd c : c_bdat c = bd \/ c_bdat c = None -> Forall (aborts_only bd) (close_ev c).
Proof. intros H. apply Forall_close_ev; [apply aborts_abort, H|exact I..]. Qed.

(* the events at a leaf of a handler: replies and callbacks other than
   deliveries, and reset_ev / close_ev of a state whose transfer is the one
   that was running, or none *)
Ltac frame_events :=
  repeat first
    [ apply Forall_nil
    | apply aborts_reset; cbn; auto
    | apply aborts_close; cbn; auto
    | apply Forall_app; split
    | apply Forall_cons; [exact I|]
    | apply Forall_wires; [intros; exact I|first [apply forallb_map_status_reply2 | apply (forallb_map_status_reply (fun _ => _))]] ].

(* what follows for a property of deliveries that aborting the running one has *)
Lemma frame_Forall (P : event -> Prop) c r :
  (forall e, match e with EDelivery _ _ _ _ => True | _ => P e end) -> Forall P (abort_ev (c_bdat c)) ->
  Frame c r -> Forall P (snd r).
Proof.
  intros Hnd Hab [_ H]. rewrite Forall_forall in Hab. revert H. apply Forall_impl. intros e He.
  specialize (Hnd e). destruct e; try exact Hnd. apply Hab, He.
Qed.

(* a refused chunk: the reply, then discardChunk, then (552) reset *)
Lemma bdat_refusal_frame cfg c arg :
  match bdat_classify cfg c arg with
  | BvAccept _ _ => True
  | _ => Frame c (handle_bdat cfg c arg)
  end.
Proof.
  pose proof (handle_bdat_cases cfg c arg) as Hc.
  destruct (bdat_classify cfg c arg) as [|s|s|s| |s last]; try exact I.
  1: destruct Hc as (msg & _ & Hc).
  all: rewrite Hc; try destruct (discard_cases cfg c s) as [(_ & -> & ->)|(_ & -> & ->)].
  all: split; [cbn; auto 6|].
  all: frame_events.
Qed.

(* The deliveries handle_bdat can emit: those of aborting the running transfer,
   and for an accepted chunk those of [bdat_fed_Forall]. *)
Lemma handle_bdat_Forall (P : event -> Prop) cfg c arg :
  (forall e, match e with EDelivery _ _ _ _ => True | _ => P e end) ->
  Forall P (abort_ev (c_bdat c)) ->
  (forall n last chunk cerr t1 a t,
     bdat_classify cfg c arg = BvAccept n last -> t_copy_n n (set_limit (c_t c) 0) = (chunk, cerr, t1) ->
     blen a <= blen chunk -> (t = Some REOF -> last = true /\ cerr = None) ->
     let b0 := fst (fst (bdat_start cfg c)) in
     P (EDelivery (bd_got b0 ++ a) t (plan_ret (bd_plan b0) t) (bd_panics b0))) ->
  Forall P (snd (handle_bdat cfg c arg)).
Proof.
  intros Hnd Hab Hd.
  pose proof (bdat_refusal_frame cfg c arg) as Hf. pose proof (handle_bdat_cases cfg c arg) as Hc.
  destruct (bdat_classify cfg c arg) as [|s|s|s| |s last].
  1-5: exact (frame_Forall P c _ Hnd Hab Hf).
  rewrite Hc. destruct (t_copy_n s (set_limit (c_t c) 0)) as [[chunk cerr] t1] eqn:Ecp.
  apply bdat_fed_Forall; [exact Hnd|]. intros a t. exact (Hd s last chunk cerr t1 a t eq_refl Ecp).
Qed.

(* the commands that deliver nothing (ConnProofs.Plain) *)
Lemma plain_frame c r : Plain (aborts_only (c_bdat c)) c r -> Frame c r.
Proof. intros (_ & H). exact H. Qed.

Lemma aborts_plain bd e : plain_ev e = true -> aborts_only bd e.
Proof. destruct e; (discriminate || exact (fun _ => I)). Qed.

Lemma protocol_error_frame c code ec msg : Frame c (protocol_error c code ec msg).
Proof. apply plain_frame, protocol_error_plain; [apply aborts_plain|apply aborts_abort; auto]. Qed.

(* DATA: the message goes to the backend at once (EData); a chunked transfer
   cannot be running, and the transaction is reset afterwards *)
Lemma handle_data_frame cfg c arg : Frame c (handle_data cfg c arg).
Proof.
  unfold handle_data, pop_data, close_unless.
  walk; unfold Frame, reset_c, close_c; cs; (split; [auto 6|]); unfold reply; frame_events.
Qed.

(* every command other than BDAT - RSET, QUIT, EHLO/HELO/LHLO, MAIL, RCPT,
   DATA, AUTH, STARTTLS, NOOP, VRFY, unknown ones, the error threshold *)
Lemma handle_frame cfg c cmd arg :
  Frame c (handle cfg c cmd arg) \/ handle cfg c cmd arg = handle_bdat cfg c arg.
Proof.
  apply (handle_cases_plain cfg c cmd arg (aborts_only (c_bdat c))).
  - apply aborts_plain.
  - apply aborts_abort. auto.
  - intros r Hr. left. exact (plain_frame c r Hr).
  - right. reflexivity.
  - left. apply handle_data_frame.
Qed.

(* A property of events that holds of everything but deliveries holds of every event of a
   run, if aborting the running transfer and handle_bdat emit only deliveries that have it;
   both may rely on an invariant J of the state between two commands that the framed
   commands keep. *)
Lemma serve_deliveries cfg (J : conn -> Prop) (P : event -> Prop) :
  (forall e, match e with EDelivery _ _ _ _ => True | _ => P e end) ->
  (forall c, J c -> Forall P (abort_ev (c_bdat c))) ->
  (forall c r, J c -> Frame c r -> J (fst r)) ->
  (forall c arg, J c -> J (fst (handle_bdat cfg c arg)) /\ Forall P (snd (handle_bdat cfg c arg))) ->
  forall fuel be phases, J (init_conn cfg be phases) -> Forall P (serve fuel cfg be phases).
Proof.
  intros Hnd Hab Jf Jb fuel be phases J0.
  assert (Hfr : forall c r, J c -> Frame c r -> J (fst r) /\ Forall P (snd r)).
  { intros c r HJ Hf. split; [exact (Jf c r HJ Hf)|exact (frame_Forall P c r Hnd (Hab c HJ) Hf)]. }
  unfold serve. apply Forall_cons; [exact (Hnd (greeting cfg))|].
  apply (serve_loop_Forall cfg J); try assumption.
  - intros c t HJ. apply (Jf c (upd_t c t, []) HJ). split; [left; split; reflexivity|constructor].
  - intros c cmd arg HJ _.
    destruct (handle_frame cfg c cmd arg) as [Hf | ->]; [exact (Hfr _ _ HJ Hf)|exact (Jb c arg HJ)].
  - intros c code ec msg HJ _. exact (Hfr _ _ HJ (protocol_error_frame c code ec msg)).
  - intros c HJ. apply Forall_close_ev; [exact (Hab c HJ)|exact (Hnd ELogout)|exact (Hnd EClose)].
  - intros line. exact (Hnd (ECmd line)).
  - intros e. apply Forall_wires; [intros w; exact (Hnd (EWire w))|apply read_failure_reply_wires].
  - exact (Hnd EOutOfFuel).
Qed.

Definition ev_bounded (N : Z) (e : event) : Prop :=
  match e with EDelivery got _ _ _ => (Z.of_N (blen got) <= N)%Z | _ => True end.

(* what the backend of the running transfer has read is covered by the count *)
Definition bdat_bounded (c : conn) : Prop :=
  (0 <= c_received c)%Z /\
  forall b, c_bdat c = Some b -> (Z.of_N (blen (bd_got b)) <= c_received c)%Z.

Lemma bd_end_keeps b t :
  bd_got (fst (bd_end b t)) = bd_got b /\ bd_rcpts (fst (bd_end b t)) = bd_rcpts b.
Proof. destruct (bd_end_cases b t) as [-> | [_ ->]]; split; reflexivity. Qed.

Lemma Forall_cons_wire N w l : Forall (ev_bounded N) l -> Forall (ev_bounded N) (EWire w :: l).
Proof. intros H. constructor; [exact I|exact H]. Qed.

Lemma bdat_fed_bounded N cfg c size last chunk cerr t1 :
  bdat_bounded c -> (c_received c + Z.of_N size <= N)%Z -> blen chunk <= size ->
  Forall (ev_bounded N) (snd (bdat_fed cfg c size last chunk cerr t1)) /\
  bdat_bounded (fst (bdat_fed cfg c size last chunk cerr t1)) /\
  (c_received (fst (bdat_fed cfg c size last chunk cerr t1)) <= N)%Z.
Proof.
  intros [Hrv Hb] HN Hch.
  destruct (bdat_start_state cfg c) as (_ & Hb0 & be0 & Hc0).
  assert (Hg0 : (Z.of_N (blen (bd_got (fst (fst (bdat_start cfg c))))) <= c_received c)%Z)
    by (destruct Hb0 as [Hb0 | ->]; [exact (Hb _ Hb0)|exact Hrv]).
  split.
  { apply bdat_fed_Forall; [intros []; exact I|].
    intros a t Ha _. cbn. rewrite blen_app. lia. }
  rewrite bdat_fed_eq. destruct (bdat_start cfg c) as [[b0 ev0] c0]. cbn [fst snd] in *. subst c0.
  destruct (bd_feed_spec b0 chunk) as (a & Ha & Hb1).
  destruct (bd_feed b0 chunk) as [[b1 ev1] werr]. cbn [fst snd] in Hb1. cbv zeta in *.
  destruct Hb1 as (Hg & _). unfold bdat_bounded.
  destruct (fed_failure b1 werr cerr size chunk t1) as [[[[e pe] tf] closeit]|]; [|destruct last].
  - unfold reset_c. cs. split; [split; [reflexivity|discriminate]|lia].
  - destruct (bd_panics b1); unfold close_c, reset_c; cs; (split; [split; [lia|discriminate]|lia]).
  - cs. split; [|lia]. split; [lia|]. intros b [= <-]. rewrite Hg, blen_app. lia.
Qed.

(* the invariant between two commands: the count is within the limit and
   covers what the backend of the running transfer has read *)
Definition counted (cfg : config) (c : conn) : Prop :=
  bdat_bounded c /\ (c_received c <= cf_max_bytes cfg)%Z.

Lemma counted_abort cfg c : counted cfg c -> Forall (ev_bounded (cf_max_bytes cfg)) (abort_ev (c_bdat c)).
Proof. intros [[_ Hb] Hrv]. apply Forall_abort_ev. intros b Hbe _. specialize (Hb b Hbe). cbn. lia. Qed.

Lemma frame_counted cfg c r :
  counted cfg c -> Frame c r -> counted cfg (fst r) /\ Forall (ev_bounded (cf_max_bytes cfg)) (snd r).
Proof.
  intros HJ Hf. split.
  - destruct HJ as [[Hrv Hb] HrvN]. unfold counted, bdat_bounded.
    destruct Hf as [[[-> ->] | [-> [-> | ->]]] _]; repeat split; try assumption; try lia; discriminate.
  - apply (frame_Forall _ c r); [intros []; exact I|apply counted_abort, HJ|exact Hf].
Qed.

(* C06, BDAT half, for one command.  With a limit N > 0: whatever the command,
   the stream and the backend do, the count never exceeds N, the backend of
   the running transfer has read no more than was counted, and no delivery
   that this command starts, feeds, completes or aborts has been handed more
   than N octets. *)
Theorem bdat_limit_invariant cfg c arg :
  (0 < cf_max_bytes cfg)%Z ->
  bdat_bounded c -> (c_received c <= cf_max_bytes cfg)%Z ->
  let '(c', ev) := handle_bdat cfg c arg in
  bdat_bounded c' /\ (c_received c' <= cf_max_bytes cfg)%Z /\
  Forall (ev_bounded (cf_max_bytes cfg)) ev.
Proof.
  intros HN Hb HrvN.
  pose proof (bdat_refusal_frame cfg c arg) as Hf. pose proof (handle_bdat_cases cfg c arg) as Hc.
  destruct (bdat_classify cfg c arg) as [|s|s|s| |s last] eqn:Ecl.
  1-5: destruct (frame_counted cfg c _ (conj Hb HrvN) Hf) as [[H1 H2] H3];
       destruct (handle_bdat cfg c arg); auto.
  - rewrite Hc.
    assert (Hov : bdat_over cfg c s = false).
    { destruct (size_known_or_syntax cfg c arg) as [[n Hk]|E']; [|congruence].
      pose proof (classify_size cfg c arg n Hk) as Hsz. rewrite Ecl in Hsz. destruct Hsz as [-> Hov]. exact Hov. }
    unfold bdat_over in Hov. apply andb_false_iff in Hov. destruct Hov as [Hov|Hov].
    { apply negb_false_iff, Z.eqb_eq in Hov. lia. }
    apply Z.ltb_ge in Hov.
    destruct (t_copy_n s (set_limit (c_t c) 0)) as [[chunk cerr] t1] eqn:Ecp.
    destruct (t_copy_n_len _ _ _ _ _ Ecp) as [Hlen _].
    pose proof (bdat_fed_bounded (cf_max_bytes cfg) cfg c s last chunk cerr t1 Hb Hov Hlen) as H.
    destruct (bdat_fed cfg c s last chunk cerr t1) as [c' ev]. cbn [fst snd] in H.
    destruct H as (H1 & H2 & H3). auto.
Qed.

(* the over-limit chunk in terms of what the backend sees: a running
   delivery is aborted with ErrDataReset (never end-of-file), a finished one
   is left alone *)
Lemma abort_ev_running b :
  bd_done b = None ->
  abort_ev (Some b)
  = [EDelivery (bd_got b) (Some RDataReset) (plan_ret (bd_plan b) (Some RDataReset)) (bd_panics b)].
Proof. intros H. cbn [abort_ev]. unfold bd_end. rewrite H. reflexivity. Qed.

Lemma abort_ev_done b v : bd_done b = Some v -> abort_ev (Some b) = [].
Proof. intros H. cbn [abort_ev]. unfold bd_end. rewrite H. reflexivity. Qed.

(* 552, the declared octets being there: the chunk is skipped (bdat_resume),
   the delivery aborted, the envelope and the count reset *)
Theorem bdat_over_limit cfg c arg a0 more n last payload rest :
  fields arg = a0 :: more -> (List.length more <= 1)%nat -> parse_uint 32 a0 = POk n ->
  c_from c = true -> c_rcpts c <> [] -> bdat_last_ok more = Some last ->
  cf_max_bytes cfg <> 0%Z -> (cf_max_bytes cfg < c_received c + Z.of_N n)%Z ->
  t_closed (c_t c) = false -> tstream (c_t c) = payload ++ rest -> blen payload = n ->
  let '(c', ev) := handle_bdat cfg c arg in
  ev = [reply 552 (5, 3, 4)%Z (bs "Max message size exceeded")]
       ++ abort_ev (c_bdat c) ++ (if c_session c then [EReset] else []) /\
  c_bdat c' = None /\ c_received c' = 0%Z /\ c_from c' = false /\ c_rcpts c' = [] /\
  c_closed c' = c_closed c /\ c_session c' = c_session c.
Proof.
  intros Hf Hl Hp Hfr Hrc Hlast Hm Hover Hcl Hs Hn.
  rewrite (bdat_refused_over_limit cfg c arg a0 more n last Hf Hl Hp Hfr Hrc Hlast Hm Hover).
  destruct (bdat_refusal_complete cfg c n payload rest Hcl Hs Hn) as (t' & -> & -> & _).
  destruct c; cbn. auto 10.
Qed.

Definition count_wires (ev : list event) : nat := List.length (filter is_wire ev).

Lemma count_wires_app a b : count_wires (a ++ b) = (count_wires a + count_wires b)%nat.
Proof. unfold count_wires. rewrite filter_app, app_length. reflexivity. Qed.

Lemma count_wires_all l : forallb is_wire l = true -> count_wires l = List.length l.
Proof.
  unfold count_wires. induction l as [|e l IH]; intros H; [reflexivity|].
  cbn in H. apply andb_true_iff in H as [H1 H2]. cbn. rewrite H1. cbn. rewrite IH by exact H2. reflexivity.
Qed.

Lemma cw_finish b t : count_wires (snd (bd_finish b t)) = 0%nat.
Proof. reflexivity. Qed.

(* the pipe, reset and Close write nothing to the peer *)
Lemma count_wires_none l : Forall (fun e => is_wire e = false) l -> count_wires l = 0%nat.
Proof.
  unfold count_wires. induction 1 as [|e l He _ IH]; [reflexivity|]. cbn [filter]. rewrite He. exact IH.
Qed.

Lemma cw_end b t : count_wires (snd (bd_end b t)) = 0%nat.
Proof. apply count_wires_none, Forall_bd_end. reflexivity. Qed.

Lemma cw_feed b chunk : count_wires (snd (fst (bd_feed b chunk))) = 0%nat.
Proof. apply count_wires_none, Forall_bd_feed. reflexivity. Qed.

Lemma cw_reset c : count_wires (reset_ev c) = 0%nat.
Proof. apply count_wires_none, Forall_reset_ev; [apply Forall_abort_ev|]; reflexivity. Qed.

Lemma cw_close c : count_wires (close_ev c) = 0%nat.
Proof. apply count_wires_none, Forall_close_ev; [apply Forall_abort_ev| |]; reflexivity. Qed.

Lemma bd_feed_rcpts b chunk : bd_rcpts (fst (fst (bd_feed b chunk))) = bd_rcpts b.
Proof. destruct (bd_feed_cases b chunk) as [-> | (_ & a & _ & [-> | ->])]; reflexivity. Qed.

(* the collector hands out one status per recipient, whatever the backend did *)
Lemma emit_fill_length rcpts calls fv :
  List.length (emit_statuses rcpts (fill_remaining fv (fst (run_statuses calls (mk_collector rcpts)))))
  = List.length rcpts.
Proof.
  destruct (run_statuses_mk rcpts calls) as (c' & -> & He). rewrite He. apply assign_length.
Qed.

Lemma lmtp_replies_count cfg b e :
  count_wires (fst (bdat_lmtp_replies cfg b e)) = List.length (bd_rcpts b).
Proof.
  rewrite count_wires_all by apply bdat_lmtp_replies_wires.
  unfold bdat_lmtp_replies. destruct (cf_lmtp_session cfg).
  - pose proof (emit_fill_length (bd_rcpts b) (dp_status (bd_plan b))) as H.
    destruct (run_statuses (dp_status (bd_plan b)) (mk_collector (bd_rcpts b))) as [col pp]. cbn [fst] in H.
    destruct (bd_panics b); cbn [fst]; rewrite map_length; apply H.
  - destruct (bd_panics b); cbn [fst]; rewrite !map_length; reflexivity.
Qed.

Lemma fed_replies_count cfg ll b e :
  count_wires (fed_replies cfg ll b e) = if ll then List.length (bd_rcpts b) else 1%nat.
Proof.
  unfold fed_replies. destruct ll; [apply lmtp_replies_count|].
  destruct (data_error_to_status e) as [[code ec] msg]. reflexivity.
Qed.

Lemma fed_end_count cfg c0 b1 endpipe ll closeit pe e :
  count_wires (fed_end_ev cfg c0 b1 endpipe ll closeit pe e) = if ll then List.length (bd_rcpts b1) else 1%nat.
Proof.
  unfold fed_end_ev.
  assert (Hx : count_wires (snd (if endpipe then bd_end b1 pe else (b1, []))) = 0%nat /\
               bd_rcpts (fst (if endpipe then bd_end b1 pe else (b1, []))) = bd_rcpts b1)
    by (destruct endpipe; [split; [apply cw_end|apply bd_end_keeps]|split; reflexivity]).
  destruct (if endpipe then bd_end b1 pe else (b1, [])) as [bx evd]. destruct Hx as [H1 H2]. cbn [fst snd] in *.
  rewrite !count_wires_app, H1, fed_replies_count, H2.
  destruct closeit; rewrite ?cw_close, ?cw_reset; apply Nat.add_0_r.
Qed.

Lemma bdat_fed_count cfg c size last chunk cerr t1 :
  count_wires (snd (bdat_fed cfg c size last chunk cerr t1))
  = if last && cf_lmtp cfg then List.length (transfer_rcpts c) else 1%nat.
Proof.
  rewrite bdat_fed_eq. destruct (bdat_start_state cfg c) as (Hr0 & _).
  assert (Hw0 : count_wires (snd (fst (bdat_start cfg c))) = 0%nat)
    by (apply count_wires_none, bdat_start_Forall; reflexivity).
  destruct (bdat_start cfg c) as [[b0 ev0] c0]. cbn [fst snd] in *.
  pose proof (cw_feed b0 chunk) as Hw1. pose proof (bd_feed_rcpts b0 chunk) as Hr1.
  destruct (bd_feed b0 chunk) as [[b1 ev1] werr]. cbn [fst snd] in *. cbv zeta.
  rewrite <- Hr0, <- Hr1.
  destruct (fed_failure b1 werr cerr size chunk t1) as [[[[e pe] tf] closeit]|]; [|destruct last]; cbn [snd].
  all: rewrite !count_wires_app, Hw0, Hw1, ?fed_end_count; reflexivity.
Qed.

Lemma cw_cons_wire w l : count_wires (EWire w :: l) = S (count_wires l).
Proof. reflexivity. Qed.

Lemma cw_discard cfg c s : count_wires (discard_ev cfg c s) = 0%nat.
Proof. destruct (discard_cases cfg c s) as [(_ & _ & ->)|(_ & _ & ->)]; [reflexivity|apply cw_close]. Qed.

(* the number of replies handle_bdat writes, branch by branch *)
Definition bdat_reply_count (cfg : config) (c : conn) (arg : bytes) : nat :=
  match bdat_classify cfg c arg with
  | BvNilSession => 0
  | BvAccept _ true => if cf_lmtp cfg then List.length (transfer_rcpts c) else 1
  | _ => 1
  end.

Theorem bdat_replies_counted cfg c arg :
  count_wires (snd (handle_bdat cfg c arg)) = bdat_reply_count cfg c arg.
Proof.
  unfold bdat_reply_count. pose proof (handle_bdat_cases cfg c arg) as Hc.
  destruct (bdat_classify cfg c arg) as [|s|s|s| |s last].
  - destruct Hc as (msg & _ & ->). reflexivity.
  (* the reply; discardChunk and reset write nothing *)
  - rewrite Hc. cbn [snd]. unfold reply. rewrite cw_cons_wire, cw_discard. reflexivity.
  - rewrite Hc. cbn [snd]. unfold reply. rewrite cw_cons_wire, cw_discard. reflexivity.
  - rewrite Hc. cbn [snd]. rewrite !count_wires_app, cw_discard, cw_reset. reflexivity.
  - rewrite Hc. reflexivity.
  - rewrite Hc. destruct (t_copy_n s (set_limit (c_t c) 0)) as [[chunk cerr] t1].
    rewrite bdat_fed_count. destruct last; [|reflexivity]. cbn [andb]. reflexivity.
Qed.

(* an envelope has a session (ConnProofs.Inv): the nil-session branch is not taken *)
Lemma classify_with_session cfg c arg :
  (c_from c = true -> c_session c = true) -> bdat_classify cfg c arg <> BvNilSession.
Proof.
  intros Hse E. destruct (size_known_or_syntax cfg c arg) as [[n Hk]|E']; [|congruence].
  pose proof (classify_size cfg c arg n Hk) as Hsz. rewrite E in Hsz.
  destruct Hsz as (H1 & H2 & _). rewrite (Hse H2) in H1. discriminate.
Qed.

Definition not_eof (e : event) : Prop :=
  match e with EDelivery _ (Some REOF) _ _ => False | _ => True end.

Lemma ne_end b t : t <> REOF -> Forall not_eof (snd (bd_end b t)).
Proof. intros H. apply Forall_bd_end. intros _. destruct t; try exact I. congruence. Qed.

Lemma ne_feed b chunk : Forall not_eof (snd (fst (bd_feed b chunk))).
Proof. apply Forall_bd_feed. exact (fun _ => I). Qed.

Lemma ne_abort bd : Forall not_eof (abort_ev bd).
Proof. apply Forall_abort_ev. intros; exact I. Qed.

(* C07, BDAT half at the pipe: a transfer that ends in any other way than
   Close() after a LAST chunk never shows end-of-file to the backend *)
Corollary pipe_abort_never_eof p rcpts sp chunks term got t r pn :
  term <> REOF ->
  In (EDelivery got t r pn) (fst (pipe_run p rcpts sp chunks term)) -> t <> Some REOF.
Proof.
  intros Ht Hin.
  assert (Hall : forall chs b, Forall not_eof (snd (fst (bd_feed_all b chs)))).
  { induction chs as [|ch chs IH]; intros b; cbn [bd_feed_all]; [constructor|].
    pose proof (ne_feed b ch) as H1. destruct (bd_feed b ch) as [[b1 ev1] w].
    specialize (IH b1). destruct (bd_feed_all b1 chs) as [[b2 ev2] ws]. apply Forall_app. split; assumption. }
  assert (H : Forall not_eof (fst (pipe_run p rcpts sp chunks term))).
  { unfold pipe_run. pose proof (Forall_bd_new not_eof p rcpts sp I I) as H0.
    destruct (bd_new p rcpts sp) as [b0 ev0]. specialize (Hall chunks b0).
    destruct (bd_feed_all b0 chunks) as [[b1 ev1] ws]. pose proof (ne_end b1 term Ht) as H2.
    destruct (bd_end b1 term) as [b2 ev2]. repeat (apply Forall_app; split); assumption. }
  rewrite Forall_forall in H. intros ->. exact (H _ Hin).
Qed.

(* RSET, QUIT, EHLO, STARTTLS, a failed DATA ..., the end of the connection:
   whatever goes through reset() or Close() aborts a running delivery with
   ErrDataReset, never with end-of-file *)
Theorem reset_never_eof c : Forall not_eof (snd (do_reset c)).
Proof. rewrite do_reset_eq. apply Forall_reset_ev; [apply ne_abort|exact I]. Qed.

Theorem close_never_eof c : Forall not_eof (snd (do_close c)).
Proof. rewrite do_close_eq. apply Forall_close_ev; [apply ne_abort|exact I..]. Qed.

(* C07, BDAT half: if handle_bdat lets the backend's reader report
   end-of-file, then the command was an accepted BDAT ... LAST and the copy
   from the transport obtained every one of the declared octets *)
Theorem bdat_eof_only_after_full_last cfg c arg got r pn :
  In (EDelivery got (Some REOF) r pn) (snd (handle_bdat cfg c arg)) ->
  exists n chunk t1,
    bdat_classify cfg c arg = BvAccept n true /\
    t_copy_n n (set_limit (c_t c) 0) = (chunk, None, t1) /\ blen chunk = n.
Proof.
  intros Hin.
  set (P := fun e => match e with
                     | EDelivery _ (Some REOF) _ _ =>
                         exists n chunk t1, bdat_classify cfg c arg = BvAccept n true /\
                           t_copy_n n (set_limit (c_t c) 0) = (chunk, None, t1) /\ blen chunk = n
                     | _ => True
                     end).
  assert (H : Forall P (snd (handle_bdat cfg c arg))).
  { apply handle_bdat_Forall.
    - intros []; exact I.
    - apply Forall_abort_ev. intros; exact I.
    - intros n last chunk cerr t1 a [[]|] Hcls Hcp _ Ht; try exact I. destruct (Ht eq_refl) as [-> ->].
      exists n, chunk, t1. split; [exact Hcls|]. split; [exact Hcp|].
      apply (t_copy_n_len _ _ _ _ _ Hcp). reflexivity. }
  rewrite Forall_forall in H. exact (H _ Hin).
Qed.

(* the stream ends (connection lost, timeout, error) before the declared
   octets of the chunk have arrived: no end-of-file, whatever the chunk *)
Theorem bdat_cut_never_eof cfg c arg n :
  t_closed (c_t c) = false -> bdat_size_known arg n -> blen (tstream (c_t c)) < n ->
  Forall not_eof (snd (handle_bdat cfg c arg)).
Proof.
  intros Hcl Hk Hn. apply Forall_forall. intros e Hin.
  destruct e as [| | | | | | |got [[]|] r pn| | | | | | | | |]; try exact I.
  destruct (bdat_eof_only_after_full_last cfg c arg got r pn Hin) as (n' & chunk & t1 & Hcls & Hcp & Hlen).
  pose proof (classify_size cfg c arg n Hk) as Hsz. rewrite Hcls in Hsz. destruct Hsz as [-> _].
  destruct (copy_n_short (set_limit (c_t c) 0) n) as (t' & Hc & _); [exact Hcl|reflexivity|exact Hn|].
  rewrite Hc in Hcp. discriminate.
Qed.

(* The stream ends inside an accepted chunk, in SMTP mode or on a non-LAST
   chunk, with a backend that was still reading: the reply is 554, the delivery is aborted with ErrDataReset after
   having yielded exactly what had arrived, and the discard has run on behind
   the failing read.  If it found the rest of the declared octets there, the
   transaction is reset and commands resume behind them; if it did not (the
   stream ended, or the read failed again: an expired deadline stays expired),
   the connection is CLOSED. *)
Theorem bdat_chunk_cut cfg c p pan got arg n last :
  transfer_at cfg c p pan got -> dp_stop p = None ->
  bdat_arg arg n last -> within_limit cfg c n -> last && cf_lmtp cfg = false ->
  t_closed (c_t c) = false -> blen (tstream (c_t c)) < n ->
  let '(c', ev) := handle_bdat cfg c arg in
  let r554 := reply 554 (5, 0, 0)%Z
                (bs "Error: transaction failed: "
                 ++ match tterm (c_t c) with TEof => bs "unexpected EOF" | e => terr_text e end) in
  let del := EDelivery (got ++ tstream (c_t c)) (Some RDataReset) (plan_ret p (Some RDataReset)) pan in
  c_bdat c' = None /\ c_received c' = 0%Z /\ c_from c' = false /\ c_rcpts c' = [] /\
  exists t1,
    t_buf t1 = [] /\ t_raw t1 = raws_after (t_raw (c_t c)) /\ t_closed t1 = false /\ t_limit t1 = 0 /\
    match t_copy_n (n - blen (tstream (c_t c))) t1 with
    | (_, None, td) =>
        ev = start_events c ++ [r554; del; EReset] /\ c_closed c' = c_closed c /\
        c_t c' = set_limit td (cf_max_line cfg)
    | (_, Some _, td) =>
        ev = start_events c ++ [r554; del; ELogout; EClose] /\ c_closed c' = true /\
        c_session c' = false /\ c_t c' = set_limit (set_closed td) (cf_max_line cfg)
    end.
Proof.
  intros Ht Hs Ha Hw Hll Hcl Hn.
  pose proof (handle_bdat_cases cfg c arg) as Hc.
  rewrite (classify_accept cfg c p pan got arg n last Ht Ha Hw) in Hc. rewrite Hc.
  destruct (copy_n_short (set_limit (c_t c) 0) n) as (t1 & Hcp & Hb1 & Hr1 & Hcl1 & Hl1);
    [exact Hcl|reflexivity|exact Hn|].
  rewrite Hcp, bdat_fed_eq.
  destruct (bdat_start_at cfg c p pan got Ht Hs) as (be0 & Hb). rewrite Hb.
  rewrite feed_read_all by (cbn; first [assumption|reflexivity]).
  rewrite Hll, tstream_set_limit, tterm_set_limit.
  destruct (transfer_at_env _ _ _ _ _ Ht) as (H1 & H2 & H3).
  assert (Hst : data_error_to_status (berr_of_rerr (rerr_of_copy (tterm (c_t c))))
                = (554, (5, 0, 0), bs "Error: transaction failed: "
                     ++ match tterm (c_t c) with TEof => bs "unexpected EOF" | e => terr_text e end)%Z).
  { destruct (tterm (c_t c)); reflexivity. }
  unfold fed_failure, fed_end_ev, fed_replies.
  (* the discard behind the failing read: short again - Close - or complete *)
  destruct (t_copy_n (n - blen (tstream (c_t c))) t1) as [[dg de] td] eqn:Ed. cbv beta iota zeta. rewrite Hst.
  assert (Hev : forall ev, abort_ev (Some (mkBD p (got ++ tstream (c_t c)) None (c_rcpts c) pan)) ++ ev
                = EDelivery (got ++ tstream (c_t c)) (Some RDataReset) (plan_ret p (Some RDataReset)) pan :: ev)
    by (intros ev; rewrite abort_ev_running; reflexivity).
  destruct de; unfold close_ev, reset_ev; cs; rewrite H3, Hev; (repeat (split; [reflexivity|]));
    exists t1; rewrite Ed; auto 10.
Qed.

(* at the level of bdat_fed: the copy stopped at a failing read, and the
   discard behind it - which runs only if the backend was still reading -
   would not obtain the rest either *)
Lemma bdat_fed_short_closes cfg c size last chunk te t1 :
  snd (fst (t_copy_n (size - blen chunk) t1)) <> None ->
  let c' := fst (bdat_fed cfg c size last chunk (Some te) t1) in
  c_closed c' = true /\ t_closed (c_t c') = true /\ c_session c' = false /\ c_bdat c' = None.
Proof.
  intros Hshort. rewrite bdat_fed_eq.
  destruct (bdat_start cfg c) as [[b0 ev0] c0]. destruct (bd_feed b0 chunk) as [[b1 ev1] werr]. cbv zeta.
  assert (Hf : exists e pe tf, fed_failure b1 werr (Some te) size chunk t1 = Some (e, pe, tf, true)).
  { unfold fed_failure. destruct werr; [rewrite orb_true_r; eauto|].
    destruct (t_copy_n _ t1) as [[dg [de|]] td]; [eauto|elim Hshort; reflexivity]. }
  destruct Hf as (e & pe & tf & ->). cbn. auto.
Qed.

(* Finding F30.  An ACCEPTED chunk, any backend plan, SMTP or LMTP, LAST or
   not: the stream ends or a read fails before the declared octets have
   arrived, and what the schedule delivers behind that failure (before it
   ends or fails again) does not complete the chunk either - in particular:
   end of the stream (sticky), or an expired read deadline (every read fails
   until the command loop arms it again).  Then the connection is closed: the
   transport is shut, the session logged out, and the command loop stops
   (C08: nothing is read, executed or answered after the first Close). *)
Theorem bdat_incomplete_chunk_closes cfg c arg n last :
  bdat_classify cfg c arg = BvAccept n last ->
  t_closed (c_t c) = false -> blen (tstream (c_t c)) < n ->
  blen (raws_bytes (raws_after (t_raw (c_t c)))) < n - blen (tstream (c_t c)) ->
  let c' := fst (handle_bdat cfg c arg) in
  c_closed c' = true /\ t_closed (c_t c') = true /\ c_session c' = false /\ c_bdat c' = None.
Proof.
  intros Hcls Hcl Hn Hn2. pose proof (handle_bdat_cases cfg c arg) as Hc. rewrite Hcls in Hc.
  destruct (copy_n_short (set_limit (c_t c) 0) n) as (t1 & Hcp & Hb1 & Hr1 & Hcl1 & Hl1);
    [exact Hcl|reflexivity|exact Hn|].
  rewrite Hcp in Hc. cbv zeta. rewrite Hc.
  apply bdat_fed_short_closes.
  rewrite tstream_set_limit.
  destruct (copy_n_short t1 (n - blen (tstream (c_t c)))) as (t2 & Hcp2 & _); [exact Hcl1|exact Hl1| |].
  { unfold tstream at 1. rewrite Hb1, Hr1. exact Hn2. }
  rewrite Hcp2. discriminate.
Qed.

(* A REFUSED chunk (no envelope, bad LAST token, over the limit): the stream
   ends or a read fails before the declared octets have been skipped: closed. *)
Theorem bdat_incomplete_refused_closes cfg c arg n :
  match bdat_classify cfg c arg with
  | BvNoEnvelope s | BvBadLast s | BvOverLimit s => s = n
  | _ => False
  end ->
  t_closed (c_t c) = false -> blen (tstream (c_t c)) < n ->
  let c' := fst (handle_bdat cfg c arg) in
  c_closed c' = true /\ t_closed (c_t c') = true /\ c_session c' = false /\ c_bdat c' = None.
Proof.
  intros Hcls Hcl Hn. pose proof (handle_bdat_cases cfg c arg) as Hc.
  destruct (bdat_refusal_short cfg c n Hcl Hn) as (H1 & H2 & H3 & H4 & _).
  destruct (bdat_classify cfg c arg) as [|s|s|s| |s l]; try contradiction; subst s; cbv zeta; rewrite Hc; cbn [fst].
  - auto.
  - auto.
  - unfold reset_c. cbn. auto.
Qed.

(* the command word BDAT (any case) reaches handle_bdat with the state the
   line reader left *)
Lemma handle_dispatch_bdat cfg c cmd arg :
  to_upper cmd = bs "BDAT" -> handle cfg c cmd arg = handle_bdat cfg c arg.
Proof.
  intros H. unfold handle. destruct cmd as [|x cmd]; [discriminate|]. rewrite H. reflexivity.
Qed.

Definition is_delivery (e : event) : bool := match e with EDelivery _ _ _ _ => true | _ => false end.
Definition cmd_lines (ev : list event) : list bytes :=
  flat_map (fun e => match e with ECmd l => [l] | _ => [] end) ev.
Definition wire_codes (ev : list event) : list bytes :=
  flat_map (fun e => match e with EWire w => [firstn 3 w] | _ => [] end) ev.

Definition xln (s : string) : bytes := bs s ++ crlf.
Definition xraw (b : bytes) : raw := match b with c :: d => RData c d | [] => RFail TEof end.

(* cut a stream into raw reads of the given lengths (the rest in one read) *)
Fixpoint seg (lens : list nat) (s : bytes) : list raw :=
  match lens with
  | [] => match s with [] => [] | _ => [xraw s] end
  | n :: r => xraw (firstn n s) :: seg r (skipn n s)
  end.

(* one octet per raw read *)
Definition seg1 (s : bytes) : list raw := map (fun c => RData c []) s.

Definition ex_cfg (max_bytes : Z) (max_line : N) : config :=
  mkCfg false false (bs "mx") 0 max_bytes max_line true false false false false false false None false.
Definition ex_be : backend := mkBE [] [] [] [] [].

(* 7 octets holding the DATA end marker, then NUL, 0xFF and a lone dot *)
Definition ex_p1 : bytes := bs "a" ++ crlf ++ bs "." ++ crlf ++ bs "b".
Definition ex_p2 : bytes := [NUL; "255"%char; "."%char].

Definition ex_stream : bytes :=
  xln "EHLO x" ++ xln "MAIL FROM:<a@b>" ++ xln "RCPT TO:<c@d>"
  ++ xln "BDAT 7" ++ ex_p1 ++ xln "bdat 3 last" ++ ex_p2 ++ xln "NOOP" ++ xln "QUIT".

(* A two-chunk transfer run through the whole server loop, on three
   segmentations: everything in one read; cuts inside the first payload
   (after "a CR", after "LF .", after "CR") and between NUL and 0xFF of the
   second; one octet per read.  Same trace each time: one delivery with
   exactly the 10 payload octets and end-of-file, replies 250/250/250 to
   MAIL/RCPT/BDAT, 250 to BDAT LAST, and the next command is NOOP. *)
Example bdat_two_chunks_witness :
  let run sg := serve 20 (ex_cfg 0 2000) ex_be [sg ex_stream] in
  let tr := run (seg []) in
  filter is_delivery tr = [EDelivery (ex_p1 ++ ex_p2) (Some REOF) BNil false] /\
  cmd_lines tr = [bs "EHLO x"; bs "MAIL FROM:<a@b>"; bs "RCPT TO:<c@d>"; bs "BDAT 7";
                  bs "bdat 3 last"; bs "NOOP"; bs "QUIT"] /\
  wire_codes tr = map bs ["220"; "250"; "250"; "250"; "250"; "250"; "250"; "221"]%string /\
  run (seg [50; 2; 1; 16]%nat) = tr /\ run seg1 = tr /\
  ~ In EOutOfFuel tr.
Proof.
  vm_compute. repeat split; try reflexivity.
  intros H. repeat (destruct H as [H|H]; [discriminate|]). exact H.
Qed.

(* the same at the level of the handler, from a state with bytes both in the
   bufio buffer and in future raw reads and an arbitrary limiter counter:
   after each chunk conn_read_line returns the line that follows it *)
Definition ex_conn (t : transport) : conn :=
  mkC t [] ex_be (bs "x") true 0 false true [bs "c@d"] false false false None 0.

Example bdat_handler_witness :
  let t := mkT (bs "a" ++ [CR])
               [RData LF (bs "." ++ [CR]); RData LF (bs "b" ++ xln "BDAT 3 LAST" ++ [NUL]);
                RData "255"%char (bs "." ++ xln "NOOP")] 1999 2000 false in
  let cfg := ex_cfg 0 2000 in
  let '(c1, ev1) := handle_bdat cfg (ex_conn t) (bs "7") in
  let '(l1, c1') := conn_read_line c1 in
  let '(c2, ev2) := handle_bdat cfg c1' (bs "3 LAST") in
  let '(l2, c2') := conn_read_line c2 in
  tstream t = ex_p1 ++ xln "BDAT 3 LAST" ++ ex_p2 ++ xln "NOOP" /\
  ev1 = [EBdatStart; continue_reply] /\ l1 = inl (bs "BDAT 3 LAST") /\
  ev2 = [EDelivery (ex_p1 ++ ex_p2) (Some REOF) BNil false;
         reply 250 (2, 0, 0)%Z (bs "OK: queued"); EReset] /\
  l2 = inl (bs "NOOP") /\ tstream (c_t c2') = [].
Proof. vm_compute. repeat split; reflexivity. Qed.

(* BDAT without MAIL: 502, and the declared 17 octets - a MAIL command - are
   discarded, not executed: no Mail event, the next command is NOOP; on every
   segmentation *)
Definition ex_refused : bytes :=
  xln "EHLO x" ++ xln "BDAT 17" ++ xln "MAIL FROM:<x@y>" ++ xln "NOOP" ++ xln "QUIT".

Example bdat_refused_witness :
  let run sg := serve 20 (ex_cfg 0 2000) ex_be [sg ex_refused] in
  let tr := run (seg []) in
  cmd_lines tr = [bs "EHLO x"; bs "BDAT 17"; bs "NOOP"; bs "QUIT"] /\
  wire_codes tr = map bs ["220"; "250"; "502"; "250"; "221"]%string /\
  existsb (fun e => match e with EMail _ _ _ => true | _ => false end) tr = false /\
  run (seg [20; 5]%nat) = tr /\ run seg1 = tr /\
  (let '(c1, ev1) := handle_bdat (ex_cfg 0 2000)
       (mkC (mkT (bs "MAIL FR") [xraw (bs "OM:<x@y>" ++ crlf ++ xln "NOOP")] 7 2000 false)
            [] ex_be (bs "x") true 0 false false [] false false false None 0) (bs "17") in
   ev1 = [reply 502 (5, 5, 1)%Z (bs "Missing RCPT TO command.")] /\
   fst (conn_read_line c1) = inl (bs "NOOP")).
Proof. vm_compute. repeat split; reflexivity. Qed.

(* over the size limit: 10 octets allowed, 7 + 4 offered: the second chunk
   gets 552, its octets are skipped, the delivery is aborted (never EOF) *)
Example bdat_over_limit_witness :
  let s := xln "EHLO x" ++ xln "MAIL FROM:<a@b>" ++ xln "RCPT TO:<c@d>"
           ++ xln "BDAT 7" ++ ex_p1 ++ xln "BDAT 4 LAST" ++ bs "QUIT" ++ xln "NOOP" ++ xln "QUIT" in
  let tr := serve 20 (ex_cfg 10 2000) ex_be [seg [] s] in
  filter is_delivery tr = [EDelivery ex_p1 (Some RDataReset) (berr_of_rerr RDataReset) false] /\
  cmd_lines tr = [bs "EHLO x"; bs "MAIL FROM:<a@b>"; bs "RCPT TO:<c@d>"; bs "BDAT 7";
                  bs "BDAT 4 LAST"; bs "NOOP"; bs "QUIT"] /\
  wire_codes tr = map bs ["220"; "250"; "250"; "250"; "250"; "552"; "250"; "221"]%string.
Proof. vm_compute. repeat split; reflexivity. Qed.

(* No line-length limit inside a chunk - and the boundary of these theorems
   (finding F6).  MaxLineLength 10, a chunk of 30 octets without LF:
   * arriving in raw reads of its own (after the command line has been
     parsed) it is delivered;
   * arriving in the same raw read as its BDAT line it passes the limiter
     while the line limit is still on: 500 and the connection is closed
     before BDAT is parsed.  The theorems of this file speak about the state
     after the command line has been read and do not cover that. *)
Example bdat_line_limit_boundary :
  let x30 := repeat "x"%char 30 in
  let pre := xln "EHLO x" ++ xln "MAIL FROM:<a@b>" ++ xln "RCPT TO:<c@d>" in
  let cfg := mkCfg false false (bs "mx") 0 0 20 true false false false false false false None false in
  let good := serve 20 cfg ex_be
                [[xraw (xln "EHLO x"); xraw (xln "MAIL FROM:<a@b>"); xraw (xln "RCPT TO:<c@d>");
                  xraw (xln "BDAT 30 LAST"); xraw x30; xraw (xln "QUIT")]] in
  let f6 := serve 20 cfg ex_be
                [[xraw (xln "EHLO x"); xraw (xln "MAIL FROM:<a@b>"); xraw (xln "RCPT TO:<c@d>");
                  xraw (xln "BDAT 30 LAST" ++ x30); xraw (xln "QUIT")]] in
  filter is_delivery good = [EDelivery x30 (Some REOF) BNil false] /\
  wire_codes good = map bs ["220"; "250"; "250"; "250"; "250"; "221"]%string /\
  filter is_delivery f6 = [] /\
  wire_codes f6 = map bs ["220"; "250"; "250"; "250"; "500"]%string.
Proof. vm_compute. repeat split; reflexivity. Qed.

(* c2 is c1 with another transport *)
Definition same_but_t (c1 c2 : conn) : Prop := c2 = upd_t c1 (c_t c2).

Lemma classify_upd_t cfg c t arg : bdat_classify cfg (upd_t c t) arg = bdat_classify cfg c arg.
Proof. destruct c; reflexivity. Qed.

Lemma bdat_start_upd_t cfg c t :
  bdat_start cfg (upd_t c t) = let '(b0, ev0, c0) := bdat_start cfg c in (b0, ev0, upd_t c0 t).
Proof.
  unfold bdat_start. cs. destruct (c_bdat c); [reflexivity|].
  unfold pop_data. cs. destruct (pop dp_default (be_data (c_be c))) as [p rest]. cs.
  destruct (bd_new _ _ _). reflexivity.
Qed.

(* the handler's work after a complete copy does not look at the transport
   the connection had, and passes the one the copy left through unchanged *)
Lemma bdat_fed_t_indep cfg c t2 s l ch t1 t1' :
  snd (bdat_fed cfg (upd_t c t2) s l ch None t1') = snd (bdat_fed cfg c s l ch None t1) /\
  same_but_t (fst (bdat_fed cfg c s l ch None t1)) (fst (bdat_fed cfg (upd_t c t2) s l ch None t1')).
Proof.
  rewrite !bdat_fed_eq, bdat_start_upd_t. unfold same_but_t, fed_failure.
  destruct (bdat_start cfg c) as [[b0 ev0] c0]. destruct (bd_feed b0 ch) as [[b1 ev1] [e|]]; cbv zeta.
  - destruct (bd_panics b1 || is_some None); split; reflexivity.
  - destruct l; [destruct (bd_panics b1)|]; split; reflexivity.
Qed.

(* Two connection states that differ only in how the same stream is held
   (buffered part, raw reads, limiter counter): same events - replies and
   everything the backend sees, for ANY backend behaviour - same state apart
   from the transport, and both transports stand behind the chunk. *)
Theorem bdat_segmentation_independent cfg c t2 arg n payload rest :
  t_closed (c_t c) = false -> t_closed t2 = false ->
  (c_from c = true -> c_session c = true) ->
  bdat_size_known arg n ->
  tstream (c_t c) = payload ++ rest -> tstream t2 = payload ++ rest -> blen payload = n ->
  let '(c1, ev1) := handle_bdat cfg c arg in
  let '(c2, ev2) := handle_bdat cfg (upd_t c t2) arg in
  ev2 = ev1 /\ same_but_t c1 c2 /\ tstream (c_t c1) = rest /\ tstream (c_t c2) = rest.
Proof.
  intros Hcl1 Hcl2 Hse Hk Hs1 Hs2 Hn. pose proof Hk as (a0 & more & Hf & Hl & Hp).
  (* both transports end behind the chunk: bdat_resume *)
  pose proof (bdat_resume cfg c arg a0 more n payload rest Hcl1 Hse Hf Hl Hp Hs1 Hn) as R1.
  pose proof (bdat_resume cfg (upd_t c t2) arg a0 more n payload rest Hcl2 Hse Hf Hl Hp Hs2 Hn) as R2.
  enough (E : snd (handle_bdat cfg (upd_t c t2) arg) = snd (handle_bdat cfg c arg) /\
              same_but_t (fst (handle_bdat cfg c arg)) (fst (handle_bdat cfg (upd_t c t2) arg))).
  { destruct (handle_bdat cfg c arg) as [c1 ev1], (handle_bdat cfg (upd_t c t2) arg) as [c2 ev2].
    destruct E, R1 as [? _], R2 as [? _]. auto. }
  (* same events, same state but for the transport: verdict by verdict *)
  pose proof (classify_size cfg c arg n Hk) as Hsz.
  pose proof (handle_bdat_cases cfg c arg) as Hc1.
  pose proof (handle_bdat_cases cfg (upd_t c t2) arg) as Hc2. rewrite classify_upd_t in Hc2.
  destruct (bdat_refusal_complete cfg c n payload rest Hcl1 Hs1 Hn) as (td1 & Hd1 & He1 & _).
  destruct (bdat_refusal_complete cfg (upd_t c t2) n payload rest Hcl2 Hs2 Hn) as (td2 & Hd2 & He2 & _).
  destruct (bdat_classify cfg c arg) as [|s|s|s| |s last].
  1: contradiction.
  (* the refusals: the chunk is skipped and nothing else looks at the transport *)
  1-3: rewrite Hc1, Hc2, Hsz, Hd1, He1, Hd2, He2; unfold same_but_t; destruct c; split; reflexivity.
  - destruct Hsz as (H1 & H2 & _). rewrite (Hse H2) in H1. discriminate.
  - rewrite Hc1, Hc2. destruct Hsz as [-> _].
    destruct (copy_n_exact (set_limit (c_t c) 0) n payload rest) as (t1 & -> & _);
      [exact Hcl1|reflexivity|exact Hs1|exact Hn|].
    destruct (copy_n_exact (set_limit (c_t (upd_t c t2)) 0) n payload rest) as (t1' & -> & _);
      [exact Hcl2|reflexivity|exact Hs2|exact Hn|].
    apply bdat_fed_t_indep.
Qed.

Example bdat_arg_witness :
  bdat_arg (bs "7") 7 false /\ bdat_arg (bs " 3   lAsT ") 3 true /\ bdat_arg (bs "0 LAST") 0 true /\
  bdat_size_known (bs "17 FIRST") 17 /\ (~ exists n, bdat_size_known (bs "4294967296") n) /\
  (~ exists n, bdat_size_known (bs "1 2 3") n).
Proof.
  repeat split.
  1-4: eexists _, _; split; [vm_compute; reflexivity|]; vm_compute; repeat split; try reflexivity; lia.
  - intros (n & a0 & more & Hf & _ & Hp). vm_compute in Hf. inversion Hf; subst. vm_compute in Hp. discriminate.
  - intros (n & a0 & more & Hf & Hl & _). vm_compute in Hf. inversion Hf; subst. cbn in Hl. lia.
Qed.

(* the state after EHLO/MAIL/RCPT satisfies [transfer_at]; two steps with
   transports that hold the payloads partly buffered, partly in raw reads
   satisfy [step_ok]; the conclusion of bdat_transfer_exact for them is the
   expected trace *)
Definition ex_t1 : transport :=
  mkT (bs "a" ++ [CR]) [RData LF (bs "." ++ [CR]); RData LF (bs "b" ++ xln "BDAT 3 LAST")] 1999 2000 false.
Definition ex_t2 : transport :=
  mkT [NUL] [RData "255"%char []; RData "."%char (xln "NOOP")] 0 2000 false.

Example bdat_transfer_exact_witness :
  let cfg := ex_cfg 10 2000 in
  let c := ex_conn (mkT [] [] 0 2000 false) in
  let steps := [mkStep (bs "7") ex_t1 ex_p1 (xln "BDAT 3 LAST")] in
  let final := mkStep (bs "3 LAST") ex_t2 ex_p2 (xln "NOOP") in
  dp_stop dp_default = None /\
  Forall (step_ok false) steps /\ step_ok true final /\
  transfer_at cfg c dp_default false [] /\
  (Z.of_N (blen (@nil ascii) + blen (List.concat (map st_payload steps)) + blen (st_payload final))
   <= cf_max_bytes cfg)%Z /\
  snd (bdat_seq cfg c (steps ++ [final]))
  = [EBdatStart; continue_reply; EDelivery (ex_p1 ++ ex_p2) (Some REOF) BNil false;
     reply 250 (2, 0, 0)%Z (bs "OK: queued"); EReset].
Proof.
  cbv zeta. split; [reflexivity|]. split; [|split; [|split; [|split]]].
  - repeat constructor. exists (bs "7"), []. vm_compute. repeat split; try reflexivity; try lia.
  - repeat split. exists (bs "3"), [bs "LAST"]. vm_compute. repeat split; try reflexivity; try lia.
  - left. vm_compute. repeat split; try reflexivity. discriminate.
  - vm_compute. discriminate.
  - vm_compute. reflexivity.
Qed.

(* a read failure (timeout) inside an accepted chunk of 7: 3 octets arrive,
   the read fails, the 4 missing octets and the next command arrive later.
   554, the delivery sees the 3 octets and ErrDataReset, the discard skips
   the 4 late octets, the next command is NOOP *)
Example bdat_failed_read_witness :
  let t := mkT (bs "ab") [RData "c"%char []; RFail TTimeout; RData "d"%char (bs "ef"); xraw (bs "g" ++ xln "NOOP")]
               5 2000 false in
  let '(c1, ev1) := handle_bdat (ex_cfg 0 2000) (ex_conn t) (bs "7") in
  blen (tstream t) < 7 /\
  raws_bytes (raws_after (t_raw t)) = bs "defg" ++ xln "NOOP" /\
  ev1 = [EBdatStart;
         reply 554 (5, 0, 0)%Z (bs "Error: transaction failed: verif: i/o timeout");
         EDelivery (bs "abc") (Some RDataReset) (berr_of_rerr RDataReset) false; EReset] /\
  fst (conn_read_line c1) = inl (bs "NOOP").
Proof. vm_compute. repeat split; reflexivity. Qed.

(* C06, BDAT half.  With MaxMessageBytes = N > 0: over a whole connection -
   any commands, any chunkings, any backend behaviour, any network schedule,
   any number of transactions - no delivery started by BDAT is ever handed
   more than N octets. *)
Theorem serve_bdat_deliveries_bounded fuel cfg be phases got t r pn :
  (0 < cf_max_bytes cfg)%Z ->
  In (EDelivery got t r pn) (serve fuel cfg be phases) ->
  (Z.of_N (blen got) <= cf_max_bytes cfg)%Z.
Proof.
  intros HN Hin.
  assert (H : Forall (ev_bounded (cf_max_bytes cfg)) (serve fuel cfg be phases)).
  { apply (serve_deliveries cfg (counted cfg)).
    - intros []; exact I.
    - apply counted_abort.
    - intros c0 r0 HJ Hf. apply (frame_counted cfg c0 r0 HJ Hf).
    - intros c arg [Hb Hrv]. pose proof (bdat_limit_invariant cfg c arg HN Hb Hrv) as H.
      destruct (handle_bdat cfg c arg). unfold counted. tauto.
    - unfold counted, bdat_bounded, init_conn. destruct phases; cbn; repeat split; try lia; discriminate. }
  rewrite Forall_forall in H. exact (H _ Hin).
Qed.

(* C07, BDAT half, over a whole connection: whenever the reader of a chunked
   delivery reports end-of-file - in any run, for any input, schedule and
   backend - it is because a BDAT ... LAST command was accepted and the copy
   of its chunk obtained every declared octet.  Connection loss, timeouts,
   RSET, QUIT, a new EHLO, STARTTLS, or simply the end of the connection
   without a LAST chunk never do. *)
Theorem serve_bdat_eof_only_after_full_last fuel cfg be phases got r pn :
  In (EDelivery got (Some REOF) r pn) (serve fuel cfg be phases) ->
  exists c arg n chunk t1,
    bdat_classify cfg c arg = BvAccept n true /\
    t_copy_n n (set_limit (c_t c) 0) = (chunk, None, t1) /\ blen chunk = n.
Proof.
  intros Hin.
  (* every event of a run is no end-of-file, or is emitted by some invocation of handle_bdat *)
  set (P := fun e => not_eof e \/ exists c arg, In e (snd (handle_bdat cfg c arg))).
  assert (H : Forall P (serve fuel cfg be phases)).
  { apply (serve_deliveries cfg (fun _ => True)); try (intros; exact I).
    - intros []; first [exact I|left; exact I].
    - intros c _. apply Forall_impl with (P := not_eof); [left; assumption|apply ne_abort].
    - intros c arg _. split; [exact I|]. apply Forall_forall. intros e He. right. exists c, arg. exact He. }
  rewrite Forall_forall in H. destruct (H _ Hin) as [Hne | (c & arg & Hc)]; [elim Hne|].
  destruct (bdat_eof_only_after_full_last cfg c arg got r pn Hc) as (n & chunk & t1 & H1 & H2 & H3).
  exists c, arg, n, chunk, t1. auto.
Qed.
