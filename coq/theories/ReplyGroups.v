(* C04: every command is answered by the reply groups of its verb.

   [codes_of ev] are the reply codes an observer (CheckOracle.reply_codes) reads
   off the octets the events [ev] put on the wire, one per reply GROUP: a line
   "ddd-..." continues a group, a line "ddd ..." ends it.  writeResponse with a
   three-digit code prints one group whatever enhanced code and texts it is
   given ([reply_codes_write_response]); [Rn ev cs] says that every reply among
   [ev] is one such call, the codes being [cs].  [group_shape] fixes, verb by
   verb, the groups a command may be answered with; those of DATA and BDAT are
   read off the outcomes of HandlerOutcomes.v. *)
From Smtp Require Import Bytes GoStrings Transport Parse Base64 Reply Conn.
From Smtp Require Import ReplyProofs CheckOracle Order OrderStrict ConnProofs TraceProps BdatProofs HandlerOutcomes.
Local Open Scope char_scope.

Definition wire_of (ev : list event) : bytes :=
  List.concat (map (fun e => match e with EWire b => b | _ => [] end) ev).

Definition codes_of (ev : list event) : list N := reply_codes (wire_of ev).

Lemma wire_of_all_wire ev : wire_of ev = all_wire ev.
Proof. unfold wire_of, all_wire. rewrite flat_map_concat_map. reflexivity. Qed.

Lemma wire_of_app a b : wire_of (a ++ b) = wire_of a ++ wire_of b.
Proof. unfold wire_of. rewrite map_app, concat_app. reflexivity. Qed.

Lemma wire_of_cons_wire b ev : wire_of (EWire b :: ev) = b ++ wire_of ev.
Proof. reflexivity. Qed.

Lemma wire_of_cons_other e ev : is_wire e = false -> wire_of (e :: ev) = wire_of ev.
Proof. destruct e; cbn; try discriminate; reflexivity. Qed.

Definition strip1 (l : bytes) : bytes := if is_suffix [CR] l then removelast l else l.

Definition drop_last_empty (ls : list bytes) : list bytes :=
  match rev ls with [] :: r => rev r | _ => ls end.

Lemma wire_lines_eq b : wire_lines b = drop_last_empty (map strip1 (split_byte LF b)).
Proof. reflexivity. Qed.

Lemma drop_last_empty_app a b : b <> [] -> drop_last_empty (a ++ b) = a ++ drop_last_empty b.
Proof.
  intros Hb. unfold drop_last_empty. rewrite rev_app_distr.
  destruct (rev b) as [|x r] eqn:E.
  - exfalso. apply Hb. rewrite <- (rev_involutive b), E. reflexivity.
  - cbn [app]. destruct x as [|x0 x]; [|reflexivity].
    rewrite rev_app_distr, rev_involutive. reflexivity.
Qed.

Lemma strip1_snoc_cr l : strip1 (l ++ [CR]) = l.
Proof.
  unfold strip1, is_suffix. rewrite rev_app_distr. cbn [rev app is_prefix].
  rewrite Ascii.eqb_refl. cbn [andb]. apply removelast_last.
Qed.

Lemma split_lf_lines ls rest :
  Forall (fun l => mem_byte LF l = false) ls ->
  split_byte LF (flat_map (fun l => l ++ crlf) ls ++ rest)
  = map (fun l => l ++ [CR]) ls ++ split_byte LF rest.
Proof.
  intros H. induction H as [|l ls Hl Hls IH]; [reflexivity|].
  cbn [flat_map map]. rewrite <- !app_assoc.
  change (l ++ crlf ++ flat_map (fun l0 => l0 ++ crlf) ls ++ rest)
    with (l ++ [CR] ++ LF :: (flat_map (fun l0 => l0 ++ crlf) ls ++ rest)).
  rewrite app_assoc, split_byte_app.
  - rewrite IH. reflexivity.
  - rewrite mem_byte_app, Hl. reflexivity.
Qed.

Lemma wire_lines_crlf ls rest :
  Forall (fun l => mem_byte LF l = false) ls ->
  wire_lines (flat_map (fun l => l ++ crlf) ls ++ rest) = ls ++ wire_lines rest.
Proof.
  intros H. rewrite !wire_lines_eq, split_lf_lines by exact H.
  rewrite map_app, map_map.
  rewrite (map_ext _ (fun l => l)) by (intros l; apply strip1_snoc_cr). rewrite map_id.
  apply drop_last_empty_app.
  intros E. apply map_eq_nil in E. exact (split_byte_nonempty _ _ E).
Qed.

Definition group_codes (ls : list bytes) : list N := map line_code (filter line_final ls).

Lemma reply_codes_crlf ls rest :
  Forall (fun l => mem_byte LF l = false) ls ->
  reply_codes (flat_map (fun l => l ++ crlf) ls ++ rest) = group_codes ls ++ reply_codes rest.
Proof.
  intros H. unfold reply_codes, group_codes. rewrite wire_lines_crlf by exact H.
  rewrite filter_app, map_app. reflexivity.
Qed.

Lemma rline_final code ec sep t :
  (100 <= code <= 999)%Z -> line_final (rline code ec sep t) = negb (Ascii.eqb sep "-").
Proof.
  intros Hc. destruct (code3_shape code Hc) as (a & b & c & Hd & _).
  unfold rline. rewrite Hd. reflexivity.
Qed.

Lemma rline_code code ec sep t :
  (100 <= code <= 999)%Z -> line_code (rline code ec sep t) = Z.to_N code.
Proof.
  intros Hc. destruct (code3_shape code Hc) as (a & b & c & Hd & Da & Db & Dc & _).
  unfold rline. rewrite Hd. cbn [app line_code]. rewrite Da, Db, Dc. cbn [andb].
  rewrite <- Hd, dec_of_Z_nonneg by lia. apply dec_value_dec_of_N.
Qed.

Lemma group_codes_reply_lines code ec ts :
  (100 <= code <= 999)%Z -> ts <> [] ->
  group_codes (reply_lines code ec ts) = [Z.to_N code].
Proof.
  intros Hc Hne. unfold group_codes. induction ts as [|t r IH]; [congruence|].
  rewrite reply_lines_step. cbn [filter]. rewrite rline_final by exact Hc.
  destruct r as [|t' r']; cbn [sep_before Ascii.eqb Bool.eqb negb].
  - cbn [reply_lines filter map]. rewrite rline_code by exact Hc. reflexivity.
  - apply IH. discriminate.
Qed.

Lemma write_response_lines_no_lf code ec texts :
  Forall (fun l => mem_byte LF l = false)
         (reply_lines code (default_ec code ec) (lines_of texts)).
Proof. apply reply_lines_not; try reflexivity. apply lines_of_no_lf. Qed.

(* C04 (rendering): whatever the enhanced code and the texts - any number of
   them, containing LF (continuation lines), bare CR or any other octet -
   writeResponse prints exactly one reply group, with the given code. *)
Theorem reply_codes_write_response_app code ec texts rest :
  (100 <= code <= 999)%Z ->
  reply_codes (write_response code ec texts ++ rest) = Z.to_N code :: reply_codes rest.
Proof.
  intros Hc. rewrite write_response_eq. fold (lines_of texts).
  rewrite reply_codes_crlf by apply write_response_lines_no_lf.
  rewrite group_codes_reply_lines; [reflexivity|exact Hc|apply split_byte_nonempty].
Qed.

Theorem reply_codes_write_response code ec texts :
  (100 <= code <= 999)%Z -> reply_codes (write_response code ec texts) = [Z.to_N code].
Proof.
  intros Hc. rewrite <- (app_nil_r (write_response code ec texts)).
  rewrite reply_codes_write_response_app by exact Hc. reflexivity.
Qed.

Definition berr_code (dflt : Z) (e : berr) : Z :=
  match e with BSmtp c _ _ => c | _ => dflt end.

Definition berr_code_ok (e : berr) : bool :=
  match e with BSmtp c _ _ => (100 <=? c)%Z && (c <=? 999)%Z | _ => true end.

Lemma berr_code_ok_range dflt e :
  (100 <= dflt <= 999)%Z -> berr_code_ok e = true -> (100 <= berr_code dflt e <= 999)%Z.
Proof.
  intros Hd H. destruct e as [|c ec m|m]; cbn in *; try exact Hd.
  apply andb_true_iff in H as [H1 H2]. apply Z.leb_le in H1, H2. lia.
Qed.

Lemma write_error_rendered code ec e :
  e <> BNil -> exists ec' m, write_error code ec e = write_response (berr_code code e) ec' [m].
Proof. destruct e as [|c ec' m|m]; [congruence|intros _; eexists _, _; reflexivity..]. Qed.

Definition status_code (e : berr) : Z := fst (fst (data_error_to_status e)).

Lemma status_reply_rendered a e :
  exists ec m, status_reply a e = EWire (write_response (status_code e) ec [m]).
Proof.
  unfold status_reply, status_code. destruct (data_error_to_status e) as [[code ec] msg].
  eexists _, _. reflexivity.
Qed.

Lemma status_code_range e : berr_code_ok e = true -> (100 <= status_code e <= 999)%Z.
Proof.
  destruct e as [|c ec m|m]; cbn; intros H; [lia| |lia].
  apply andb_true_iff in H as [H1 H2]. apply Z.leb_le in H1, H2. lia.
Qed.

Example reply_codes_write_response_ex :
  reply_codes (write_response 250 no_ec [bs "Hello a" ++ [CR] ++ bs "b"; bs "PIPELINING"; [LF; CR; NUL]]) = [250%N]
  /\ reply_codes (write_response 550 (5, 1, 1)%Z [[CR]]) = [550%N]
  /\ reply_codes (write_response 250 (2, 0, 0)%Z [bs "x" ++ [LF] ++ bs "220 injected"]) = [250%N].
Proof. vm_compute. repeat split. Qed.

Definition skip_ok (e : event) : bool := negb (is_wire e) && negb (is_cmd e).

Lemma skip_ok_wire e : skip_ok e = true -> is_wire e = false.
Proof. unfold skip_ok. destruct (is_wire e); [discriminate|reflexivity]. Qed.

Lemma skip_ok_cmd e : skip_ok e = true -> is_cmd e = false.
Proof. unfold skip_ok. destruct (is_cmd e); [rewrite andb_false_r; discriminate|reflexivity]. Qed.

Inductive Rn : list event -> list Z -> Prop :=
| Rn_nil : Rn [] []
| Rn_wire code ec texts ev cs :
    (100 <= code <= 999)%Z -> Rn ev cs -> Rn (EWire (write_response code ec texts) :: ev) (code :: cs)
| Rn_skip e ev cs : skip_ok e = true -> Rn ev cs -> Rn (e :: ev) cs.

Lemma Rn_codes_app ev cs rest : Rn ev cs -> codes_of (ev ++ rest) = map Z.to_N cs ++ codes_of rest.
Proof.
  unfold codes_of. induction 1 as [|code ec texts ev cs Hc _ IH|e ev cs He _ IH]; cbn [app].
  - reflexivity.
  - rewrite wire_of_cons_wire, reply_codes_write_response_app by exact Hc. cbn [map app]. rewrite IH. reflexivity.
  - rewrite wire_of_cons_other by (apply skip_ok_wire, He). exact IH.
Qed.

Lemma Rn_codes ev cs : Rn ev cs -> codes_of ev = map Z.to_N cs.
Proof. intros H. rewrite <- (app_nil_r ev), (Rn_codes_app ev cs [] H). apply app_nil_r. Qed.

Lemma Rn_app a ca b cb : Rn a ca -> Rn b cb -> Rn (a ++ b) (ca ++ cb).
Proof.
  induction 1 as [|code ec texts ev cs Hc _ IH|e ev cs He _ IH]; intros Hb; cbn [app].
  - exact Hb.
  - apply Rn_wire; [exact Hc|apply IH, Hb].
  - apply Rn_skip; [exact He|apply IH, Hb].
Qed.

Definition nw (ev : list event) : Prop := forallb skip_ok ev = true.

Lemma nw_app a b : nw a -> nw b -> nw (a ++ b).
Proof. unfold nw. intros Ha Hb. rewrite forallb_app, Ha, Hb. reflexivity. Qed.

Lemma Rn_nw ev : nw ev -> Rn ev [].
Proof.
  unfold nw. induction ev as [|e ev IH]; cbn [forallb]; intros H; [constructor|].
  apply andb_true_iff in H as [He Hev]. apply Rn_skip; [exact He|apply IH, Hev].
Qed.

Lemma Rn_app_nw a b cb : nw a -> Rn b cb -> Rn (a ++ b) cb.
Proof. intros Ha Hb. apply (Rn_app a [] b cb); [apply Rn_nw, Ha|exact Hb]. Qed.

Lemma Rn_app_nw_r a ca b : Rn a ca -> nw b -> Rn (a ++ b) ca.
Proof. intros Ha Hb. rewrite <- (app_nil_r ca). apply Rn_app; [exact Ha|apply Rn_nw, Hb]. Qed.

Lemma Rn_reply_err code ec e ev cs :
  (100 <= code <= 999)%Z -> e <> BNil -> berr_code_ok e = true -> Rn ev cs ->
  Rn (reply_err code ec e :: ev) (berr_code code e :: cs).
Proof.
  intros Hc Hn Hok H. unfold reply_err. destruct (write_error_rendered code ec e Hn) as (ec' & m & ->).
  apply Rn_wire; [apply berr_code_ok_range; assumption|exact H].
Qed.

Lemma Rn_status a e ev cs :
  berr_code_ok e = true -> Rn ev cs -> Rn (status_reply a e :: ev) (status_code e :: cs).
Proof.
  intros Hok H. destruct (status_reply_rendered a e) as (ec & m & ->).
  apply Rn_wire; [apply status_code_range, Hok|exact H].
Qed.

Lemma Rn_statuses (sts : list (bytes * berr)) :
  Forall (fun x => berr_code_ok (snd x) = true) sts ->
  Rn (map (fun '(a, e) => status_reply a e) sts) (map (fun x => status_code (snd x)) sts).
Proof.
  induction 1 as [|[a e] sts Hx _ IH]; cbn [map]; [constructor|].
  apply Rn_status; [exact Hx|exact IH].
Qed.

Lemma Rn_statuses_same (rcpts : list bytes) e :
  berr_code_ok e = true ->
  Rn (map (fun a => status_reply a e) rcpts) (map (fun _ => status_code e) rcpts).
Proof.
  intros He. induction rcpts as [|a r IH]; cbn [map]; [constructor|apply Rn_status; assumption].
Qed.

Lemma Rn_rendered_status e code ec msg ev cs :
  data_error_to_status e = (code, ec, msg) -> berr_code_ok e = true -> Rn ev cs ->
  Rn (reply code ec msg :: ev) (code :: cs).
Proof.
  intros E He. pose proof (status_code_range e He) as Hr. unfold status_code in Hr. rewrite E in Hr.
  apply Rn_wire, Hr.
Qed.

Lemma Rn_no_cmd ev cs : Rn ev cs -> forallb (fun e => negb (is_cmd e)) ev = true.
Proof.
  induction 1 as [|code ec texts ev cs Hc _ IH|e ev cs He _ IH]; cbn [forallb]; [reflexivity|exact IH|].
  rewrite (skip_ok_cmd e He), IH. reflexivity.
Qed.

Lemma nw_wire_of ev : nw ev -> wire_of ev = [].
Proof.
  unfold nw. induction ev as [|e ev IH]; cbn [forallb]; [reflexivity|]. intros H.
  apply andb_true_iff in H as [He H]. rewrite wire_of_cons_other by (apply skip_ok_wire, He). apply IH, H.
Qed.

Lemma nw_no_cmd ev : nw ev -> forallb (fun e => negb (is_cmd e)) ev = true.
Proof. intros H. apply (Rn_no_cmd ev []), Rn_nw, H. Qed.

Definition is_rendered (b : bytes) : Prop :=
  exists code ec texts, (100 <= code <= 999)%Z /\ b = write_response code ec texts.

Definition rendered_ev (e : event) : Prop := forall b, e = EWire b -> is_rendered b.

Lemma Rn_rendered ev cs : Rn ev cs -> Forall rendered_ev ev.
Proof.
  induction 1 as [|code ec texts ev cs Hc _ IH|e ev cs He _ IH]; constructor; try exact IH.
  - intros b [= <-]. exists code, ec, texts. split; [exact Hc|reflexivity].
  - intros b ->. discriminate.
Qed.

Inductive verb := VData | VBdat | VAuth | VStartTLS | VOther.

Definition verb_of_upper (cmd : bytes) : verb :=
  if cmd_is cmd "DATA" then VData
  else if cmd_is cmd "BDAT" then VBdat
  else if cmd_is cmd "AUTH" then VAuth
  else if cmd_is cmd "STARTTLS" then VStartTLS
  else VOther.

Definition verb_of_cmd (cmd0 : bytes) : verb :=
  match cmd0 with
  | [] => VOther
  | _ => verb_of_upper (to_upper cmd0)
  end.

(* HELO/EHLO/LHLO (the multi-line EHLO reply is ONE group), MAIL, RCPT, RSET,
   NOOP, VRFY, QUIT, the unimplemented, unknown and unparsable commands:
   one reply, or the reply and the closing 500 notice when this command made
   errCount pass the threshold (then the connection is closed) *)
Definition shape_other (codes : list N) (closed : bool) : Prop :=
  exists c, codes = [c] \/ (codes = [c; 500%N] /\ closed = true).

Lemma shape_other_one code closed : shape_other [code] closed.
Proof. exists code. left. reflexivity. Qed.

(* DATA: refused with one reply; or 354 and then one final reply (SMTP; also
   when the backend panics: 354, 421), one final reply per accepted recipient
   (LMTP; also when a per-recipient backend panics); a plain backend that
   panics in LMTP mode gets the single 421 *)
Definition shape_data (cfg : config) (n : nat) (codes : list N) (closed : bool) : Prop :=
  (exists c, codes = [c] /\ c <> 354%N)
  \/ (exists finals, codes = 354%N :: finals
                     /\ List.length finals = if cf_lmtp cfg then n else 1%nat)
  \/ (cf_lmtp cfg = true /\ cf_lmtp_session cfg = false /\ codes = [354%N; 421%N] /\ closed = true).

(* BDAT: one reply per chunk; the LAST chunk in LMTP mode (accepted, or
   failed while being copied): one per recipient of the transfer *)
Definition shape_bdat (cfg : config) (n : nat) (last : bool) (codes : list N) : Prop :=
  (exists c, codes = [c])
  \/ (cf_lmtp cfg = true /\ last = true /\ (0 < n)%nat /\ List.length codes = n).

Definition shape_auth (codes : list N) : Prop :=
  exists k fin, codes = repeat 334%N k ++ fin /\ (List.length fin <= 1)%nat.

(* STARTTLS: 220 and the TLS session (nothing more in plaintext), 220 and
   550 (handshake failed), or 502 *)
Definition shape_starttls (codes : list N) : Prop :=
  codes = [220%N] \/ codes = [220%N; 550%N] \/ codes = [502%N].

Definition last_of (more : list bytes) : bool :=
  match more with a1 :: _ => equal_fold a1 (bs "LAST") | [] => false end.
Definition bdat_last (arg : bytes) : bool :=
  match fields arg with _ :: more => last_of more | [] => false end.

Definition group_shape (cfg : config) (n : nat) (v : verb) (arg : bytes)
    (codes : list N) (closed : bool) : Prop :=
  match v with
  | VData => shape_data cfg n codes closed
  | VBdat => shape_bdat cfg n (bdat_last arg) codes
  | VAuth => shape_auth codes
  | VStartTLS => shape_starttls codes
  | VOther => shape_other codes closed
  end.

Lemma verb_of_cmd_upper cmd : verb_of_cmd cmd = verb_of_upper (to_upper cmd).
Proof. destruct cmd; reflexivity. Qed.

Lemma verb_other C :
  existsb (cmd_is C) ["BDAT"; "DATA"; "AUTH"; "STARTTLS"]%string = false -> verb_of_upper C = VOther.
Proof.
  cbn [existsb]. rewrite !orb_false_iff. intros (E1 & E2 & E3 & E4 & _).
  unfold verb_of_upper. rewrite E1, E2, E3, E4. reflexivity.
Qed.

Fixpoint auth_input_ends (steps : list sasl_step) (c : conn) : bool :=
  match steps with
  | [] => false
  | SaslStep ch done err :: rest =>
      match err with
      | BNil =>
          if done then false
          else match conn_read_line c with
               | (inr _, _) => true
               | (inl line, c1) =>
                   if bytes_eqb line (bs "*") then false
                   else match decode_sasl_response line with
                        | None => false
                        | Some _ => auth_input_ends rest c1
                        end
               end
      | _ => false
      end
  end.

(* AUTH, exactly: no final reply only when the connection's input ended (or
   failed) while the exchange was waiting for a response line *)
Definition shape_auth_x (c : conn) (codes : list N) : Prop :=
  exists k fin, codes = repeat 334%N k ++ fin /\ (List.length fin <= 1)%nat
                /\ (fin = [] -> auth_input_ends (ap_steps (fst (pop_auth c))) (snd (pop_auth c)) = true).

Lemma shape_auth_x_weaken c codes : shape_auth_x c codes -> shape_auth codes.
Proof. intros (k & fin & H1 & H2 & _). exists k, fin. split; assumption. Qed.

Lemma shape_auth_x_of c k fin tail :
  (List.length (fin ++ tail) <= 1)%nat ->
  (fin ++ tail = [] -> auth_input_ends (ap_steps (fst (pop_auth c))) (snd (pop_auth c)) = true) ->
  shape_auth_x c (map Z.to_N ((repeat 334%Z k ++ fin) ++ tail)).
Proof.
  intros H H'. exists k, (map Z.to_N (fin ++ tail)). rewrite <- app_assoc, map_app, map_length.
  split; [|split; [exact H|]].
  - f_equal. induction k; cbn [repeat map]; [reflexivity|]. rewrite IHk. reflexivity.
  - intros E. apply map_eq_nil in E. exact (H' E).
Qed.

Lemma shape_auth_x_one c code : shape_auth_x c [code].
Proof. exists 0%nat, [code]. split; [reflexivity|]. split; [cbn; lia|discriminate]. Qed.

(* recipients accepted in the open transaction: the events' own account of
   it (this is how the monitor of Order.v counts them) *)
Definition n_step (n : nat) (e : event) : nat :=
  match e with
  | ERcpt _ _ BNil => S n
  | EReset | ELogout | EClose => 0
  | _ => n
  end.

(* Split a trace at the ghost events of the command loop: what precedes the
   first command, then for every command line the number of recipients
   accepted so far in the open transaction and the events up to the next
   command. *)
Fixpoint blocks_from (n : nat) (tr : list event) : list event * list (nat * bytes * list event) :=
  match tr with
  | [] => ([], [])
  | ECmd l :: r => let '(p, bl) := blocks_from n r in ([], (n, l, p) :: bl)
  | e :: r => let '(p, bl) := blocks_from (n_step n e) r in (e :: p, bl)
  end.

Lemma blocks_from_app n ev rest :
  forallb (fun e => negb (is_cmd e)) ev = true ->
  blocks_from n (ev ++ rest)
  = (ev ++ fst (blocks_from (fold_left n_step ev n) rest), snd (blocks_from (fold_left n_step ev n) rest)).
Proof.
  revert n. induction ev as [|e ev IH]; intros n H; cbn [app fold_left].
  - destruct (blocks_from n rest); reflexivity.
  - cbn [forallb] in H. apply andb_true_iff in H as [He Hev].
    destruct e; try discriminate; cbn [blocks_from]; rewrite (IH _ Hev); reflexivity.
Qed.

Lemma blocks_from_nocmd n ev :
  forallb (fun e => negb (is_cmd e)) ev = true -> blocks_from n ev = (ev, []).
Proof.
  intros H. rewrite <- (app_nil_r ev) at 1. rewrite blocks_from_app by exact H.
  cbn [blocks_from fst snd]. rewrite app_nil_r. reflexivity.
Qed.

Definition is_closing_ev (e : event) : bool :=
  match e with EDelivery _ _ _ _ | ELogout | EClose | EOutOfFuel => true | _ => false end.

(* at most one closing reply of the loop (500 5.4.0 too long line, 421 idle
   timeout / connection error) - none if a handler has already closed the
   connection - then only the events of the deferred Close *)
Definition trailer (closed : bool) (tl : list event) : Prop :=
  exists w fin, tl = w ++ fin /\ forallb is_closing_ev fin = true /\
    (w = [] \/ (closed = false /\ exists code ec msg, w = [reply code ec msg] /\ (code = 500 \/ code = 421)%Z)).

Lemma closing_nw fin : forallb is_closing_ev fin = true -> nw fin.
Proof. apply forallb_impl. intros e; destruct e; try discriminate; reflexivity. Qed.

Lemma trailer_codes closed tl :
  trailer closed tl ->
  codes_of tl = [] \/ (closed = false /\ (codes_of tl = [500%N] \/ codes_of tl = [421%N])).
Proof.
  intros (w & fin & -> & Hfin & Hw). unfold codes_of. rewrite wire_of_app, (nw_wire_of fin (closing_nw _ Hfin)), app_nil_r.
  destruct Hw as [->|(Hc & code & ec & msg & -> & Hcc)]; [left; reflexivity|].
  right. split; [exact Hc|]. cbn [wire_of map List.concat reply]. rewrite app_nil_r.
  rewrite reply_codes_write_response by lia.
  destruct Hcc as [->| ->]; [left|right]; reflexivity.
Qed.

Lemma trailer_no_cmd closed tl : trailer closed tl -> forallb (fun e => negb (is_cmd e)) tl = true.
Proof.
  intros (w & fin & -> & Hfin & Hw). rewrite forallb_app, (nw_no_cmd fin (closing_nw _ Hfin)), andb_true_r.
  destruct Hw as [->|(_ & code & ec & msg & -> & _)]; reflexivity.
Qed.

Lemma close_ev_closing c : forallb is_closing_ev (close_ev c) = true.
Proof. apply forallb_Forall, Forall_close_ev; [apply Forall_abort_ev| |]; reflexivity. Qed.

Definition line_verb (line : bytes) : verb * bytes :=
  match parse_cmd line with
  | Some (cmd, arg) => (verb_of_cmd cmd, arg)
  | None => (VOther, [])
  end.

(* One command block: the handler's events [hev], whose reply groups have
   the shape of the verb, followed - only after the last command - by the
   loop's trailer.  A handler that closes the connection ([closed]) ends the
   conversation. *)
Definition block_ok (cfg : config) (islast : bool) (blk : nat * bytes * list event) : Prop :=
  let '(n, line, ev) := blk in
  exists hev tl closed,
    ev = hev ++ tl /\ (exists cs, Rn hev cs) /\ codes_of ev = codes_of hev ++ codes_of tl
    /\ group_shape cfg n (fst (line_verb line)) (snd (line_verb line)) (codes_of hev) closed
    /\ (if islast then trailer closed tl else tl = [] /\ closed = false).

Fixpoint blocks_ok (cfg : config) (bl : list (nat * bytes * list event)) : Prop :=
  match bl with
  | [] => True
  | [b] => block_ok cfg true b
  | b :: r => block_ok cfg false b /\ blocks_ok cfg r
  end.

(* Every *SMTPError a backend callback returns carries a three-digit code
   (the count of reply groups is meaningless otherwise: writeResponse prints
   the code with %d, and "25-..." or "1000-..." are not continuation lines). *)
Definition plan_ok (p : data_plan) : bool :=
  berr_code_ok (dp_ret p) && forallb (fun x => berr_code_ok (snd x)) (dp_status p).
Definition step_ok (s : sasl_step) : bool := match s with SaslStep _ _ e => berr_code_ok e end.
Definition aplan_ok (p : auth_plan) : bool := berr_code_ok (ap_start p) && forallb step_ok (ap_steps p).

Definition backend_codes_ok (be : backend) : bool :=
  forallb berr_code_ok (be_ns be) && forallb berr_code_ok (be_mail be) && forallb berr_code_ok (be_rcpt be)
  && forallb plan_ok (be_data be) && forallb aplan_ok (be_auth be).

Lemma code_own : berr_code_ok BNil = true /\ berr_code_ok err_panic = true
                 /\ forall e, berr_code_ok (berr_of_rerr e) = true.
Proof. repeat split. destruct e; reflexivity. Qed.

Definition bd_ok (b : bdat) : Prop :=
  plan_ok (bd_plan b) = true /\ (forall v, bd_done b = Some v -> berr_code_ok v = true).

Definition bdat_inv (c : conn) : Prop :=
  match c_bdat c with
  | Some b => bd_ok b /\ bd_rcpts b = c_rcpts c
  | None => True
  end.

Definition CI (c : conn) : Prop := backend_codes_ok (c_be c) = true /\ bdat_inv c.

Lemma classify_accept_last cfg c arg size last :
  bdat_classify cfg c arg = BvAccept size last -> last = bdat_last arg.
Proof.
  unfold bdat_classify, bdat_last, bdat_last_ok, last_of.
  break_match; intros E; try discriminate; injection E as _ <-; try congruence.
  destruct (equal_fold _ _); congruence.
Qed.

Lemma handle_bdat_outcome cfg c arg : bdat_outcome cfg c (bdat_last arg) (handle_bdat cfg c arg).
Proof. apply handle_bdat_classified. intros size l. apply classify_accept_last. Qed.

Lemma bd_end_nw b term : nw (snd (bd_end b term)).
Proof. apply forallb_Forall, Forall_bd_end. reflexivity. Qed.

Lemma bd_feed_nw b chunk : nw (snd (fst (bd_feed b chunk))).
Proof. apply forallb_Forall, Forall_bd_feed. reflexivity. Qed.

Lemma reset_ev_nw c : nw (reset_ev c).
Proof. apply forallb_Forall, Forall_reset_ev; [apply Forall_abort_ev|]; reflexivity. Qed.

Lemma close_ev_nw c : nw (close_ev c).
Proof. apply forallb_Forall, Forall_close_ev; [apply Forall_abort_ev| |]; reflexivity. Qed.

Lemma abort_ev_nw bd : nw (abort_ev bd).
Proof. apply forallb_Forall, Forall_abort_ev. reflexivity. Qed.

Lemma ended_nw c c' ev : ended c c' ev -> nw ev.
Proof. intros ([-> | ->] & _); [apply reset_ev_nw|apply close_ev_nw]. Qed.

Lemma settles_nw c c' ev : settles c c' ev -> nw ev.
Proof. intros [(-> & _)|H]; [reflexivity|exact (ended_nw _ _ _ H)]. Qed.

Lemma bdat_start_nw cfg c b0 ev0 c0 : bdat_start cfg c = (b0, ev0, c0) -> nw ev0.
Proof.
  intros E. change ev0 with (snd (fst (b0, ev0, c0))). rewrite <- E.
  apply forallb_Forall, bdat_start_Forall; reflexivity.
Qed.

Lemma fed_end_frame cfg last b1 werr cerr e b2 ev2 :
  fed_end cfg last b1 werr cerr e b2 ev2 -> nw ev2 /\ bd_rcpts b2 = bd_rcpts b1.
Proof.
  intros H. destruct (fed_end_pipe _ _ _ _ _ _ _ _ H) as [[= -> ->]|[pe E]]; [split; reflexivity|].
  pose proof (bd_end_nw b1 pe) as H1. pose proof (proj2 (bd_end_keeps b1 pe)) as H2. rewrite E in H1, H2. auto.
Qed.

Lemma bdat_fed_frame cfg c chunk b0 ev0 c0 b1 ev1 werr :
  bdat_start cfg c = (b0, ev0, c0) -> bd_feed b0 chunk = (b1, ev1, werr) ->
  nw ev0 /\ nw ev1 /\ c_rcpts c0 = c_rcpts c /\ bd_rcpts b1 = transfer_rcpts c.
Proof.
  intros E0 E1. destruct (bdat_start_state cfg c) as (Hr & _ & be0 & Hc0). rewrite E0 in Hr, Hc0.
  pose proof (bd_feed_rcpts b0 chunk) as Hr1. pose proof (bd_feed_nw b0 chunk) as Hn1. rewrite E1 in Hr1, Hn1.
  cbn [fst snd] in *. split; [exact (bdat_start_nw _ _ _ _ _ E0)|]. split; [exact Hn1|].
  split; [rewrite Hc0; reflexivity|congruence].
Qed.

Definition HS (P : list N -> bool -> Prop) (r : hres) : Prop :=
  exists cs, Rn (snd r) cs /\ P (map Z.to_N cs) (c_closed (fst r)) /\ CI (fst r).

Lemma HS_impl (P Q : list N -> bool -> Prop) r : (forall cs b, P cs b -> Q cs b) -> HS P r -> HS Q r.
Proof. intros H (cs & H1 & H2 & H3). exists cs. split; [exact H1|]. split; [apply H, H2|exact H3]. Qed.

Lemma CI_next c c' :
  CI c -> backend_codes_ok (c_be c') = true ->
  c_bdat c' = None \/ (c_bdat c' = c_bdat c /\ c_rcpts c' = c_rcpts c) -> CI c'.
Proof.
  intros [_ Hbd] Hbe H. split; [exact Hbe|]. unfold bdat_inv in *.
  destruct H as [->|[-> ->]]; [exact I|exact Hbd].
Qed.

(* [nw ev] for the events of a leaf: those of reset, Close or an aborted transfer, literal
   lists without a reply, hypotheses, and concatenations of these *)
Ltac nw_tac :=
  solve [ assumption | apply abort_ev_nw | apply reset_ev_nw | apply close_ev_nw | reflexivity
        | apply nw_app; nw_tac
        | match goal with |- nw (if ?b then _ else _) => destruct b; reflexivity end ].

(* [Rn ev ?cs] for the events of a leaf, read from the front: a reply - literal, or rendered
   from a value of the backend known to have a three-digit code -, an event that is none, a
   run of events without replies, the statuses of an LMTP delivery; [?cs] is found on the way *)
Ltac rn := repeat first
  [ apply Rn_nil
  | eapply Rn_wire; [lia|]
  | eapply Rn_skip; [reflexivity|]
  | apply Rn_nw; nw_tac
  | eapply Rn_reply_err; [lia|discriminate|assumption|]
  | eapply Rn_rendered_status; [eassumption|solve [auto]|]
  | eapply Rn_app; [eapply Rn_statuses_same; solve [auto]|]
  | eapply Rn_app_nw; [nw_tac|]
  | eapply Rn_app; [eassumption|]
  | eassumption ].

(* [HS P (c', ev)] at a leaf: [rn] finds the codes; left are [P] of them and [CI c'] *)
Ltac hs_open :=
  unfold HS; cbn [fst snd]; eexists; split; [rewrite <- ?app_assoc; cbn [app]; rn|split; [cbn [map app Z.to_N]|]].


Lemma protocol_error_hs c code ec msg :
  (100 <= code <= 999)%Z -> CI c -> HS shape_other (protocol_error c code ec msg).
Proof.
  intros Hc HC. unfold protocol_error. walk; hs_open.
  - eexists. right. split; reflexivity.
  - apply (CI_next c); [exact HC|apply HC|left; reflexivity].
  - apply shape_other_one.
  - apply (CI_next c); [exact HC|apply HC|right; split; reflexivity].
Qed.

Lemma mail_params_code cfg args : forall o bm f bm',
  mail_params cfg args o bm = inr (f, bm') -> (100 <= fst (fst f) <= 999)%Z.
Proof.
  induction args as [|[k v] r IH]; intros o bm f bm'; cbn [mail_params]; [discriminate|].
  destruct (mail_param cfg k v o bm) as [[o' bm1]|f1] eqn:E; [apply IH|].
  intros [= <- _]. revert E. unfold mail_param. break_match; intros [= <-]; cbn; lia.
Qed.

(* [CI c'] at a leaf, by [CI_next]: the script is that of [c], or what a [pop_*_all] among
   the hypotheses says of the rest; the transfer is gone, or it and the recipients are those of
   [c].  [hs_one]: a leaf with one reply. *)
Ltac ci_next c HC :=
  apply (CI_next c); [exact HC|first [apply (proj1 HC)|assumption]|first [left; reflexivity|right; split; reflexivity|auto]].
Ltac hs_one c HC := hs_open; [apply shape_other_one|ci_next c HC].

Lemma handle_mail_hs cfg c arg :
  Inv c -> c_closed c = false -> CI c -> HS shape_other (handle_mail cfg c arg).
Proof.
  intros HI Hc HC. unfold handle_mail, syntax_mail, pop_mail. walk.
  (* no session: not between two commands; a value of the backend: its code; a refused parameter *)
  all: try (destruct (Inv_no_session c HI Hc) as [E _]; [assumption|congruence]).
  all: try (edestruct (pop_mail_all berr_code_ok code_own) as [Hr Hbe]; [apply HC|eassumption|]).
  all: try match goal with H : mail_params _ _ _ _ = inr _ |- _ => apply mail_params_code in H; cbn [fst] in H end.
  all: hs_one c HC.
Qed.

Lemma rcpt_param_code cfg k v o f : rcpt_param cfg k v o = inr f -> (100 <= fst (fst f) <= 999)%Z.
Proof. unfold rcpt_param. break_match; intros [= <-]; cbn; lia. Qed.

Lemma rcpt_params_code cfg args : forall o f,
  rcpt_params cfg args o = inr f -> (100 <= fst (fst f) <= 999)%Z.
Proof.
  induction args as [|[k v] r IH]; intros o f; cbn [rcpt_params]; [discriminate|].
  destruct (rcpt_param cfg k v o) as [o'|f1] eqn:E; [apply IH|].
  intros [= <-]. exact (rcpt_param_code _ _ _ _ _ E).
Qed.

Lemma handle_rcpt_hs cfg c arg :
  Inv c -> c_closed c = false -> CI c -> HS shape_other (handle_rcpt cfg c arg).
Proof.
  intros HI Hc HC. unfold handle_rcpt, syntax_rcpt, pop_rcpt. walk.
  all: try (destruct (Inv_no_session c HI Hc) as [_ E]; [assumption|congruence]).
  all: try (edestruct (pop_rcpt_all berr_code_ok code_own) as [Hr Hbe]; [apply HC|eassumption|]).
  all: try match goal with H : rcpt_params _ _ _ = inr _ |- _ => apply rcpt_params_code in H; cbn [fst] in H end.
  all: hs_one c HC.
Qed.

Lemma handle_greet_hs cfg c enh arg : CI c -> HS shape_other (handle_greet cfg c enh arg).
Proof.
  intros HC. unfold handle_greet. walk; try discriminate;
    try solve [hs_one c HC]; cs.
  all: edestruct (pop_ns_all berr_code_ok code_own) as [Hr Hbe]; [apply HC|eassumption|hs_one c HC].
Qed.

Lemma handle_starttls_hs cfg c : CI c -> HS (fun cs _ => shape_starttls cs) (handle_starttls cfg c).
Proof.
  intros HC. unfold handle_starttls. walk; hs_open; try ci_next c HC.
  all: unfold shape_starttls; auto.
Qed.

Lemma statuses_rn rcpts sts :
  statuses_all berr_code_ok rcpts sts ->
  exists cs, Rn (map (fun '(a, e) => status_reply a e) sts) cs /\ List.length cs = List.length rcpts.
Proof. intros [<- Hs]. eexists. split; [apply Rn_statuses, Hs|]. rewrite !map_length. reflexivity. Qed.

Lemma ended_CI c c' ev : ended c c' ev -> backend_codes_ok (c_be c) = true -> CI c'.
Proof. intros (_ & Hbe & Hbd & _) H. split; [rewrite Hbe; exact H|unfold bdat_inv; rewrite Hbd; exact I]. Qed.

Lemma handle_data_hs cfg c arg :
  Inv c -> c_closed c = false -> CI c ->
  HS (shape_data cfg (List.length (c_rcpts c))) (handle_data cfg c arg).
Proof.
  intros HI Hc HC.
  destruct (handle_data_outcome cfg c arg)
    as [code ec msg Hin|Hs Hf|p rest got term code ec msg cm c' tail Ep Hbe _ _ Hl Es Hend
       |p rest got term cm c' tail Ep Hbe _ _ Hl Hls Hne Hend
       |p rest got term sts pk cm c' tail Ep Hbe _ _ Hl Hls Est Hend
       |p rest got term cm Ep Hbe _ _ _ Hm].
  1: { repeat destruct Hin as [[= <- <- <-]|Hin]; [..|destruct Hin];
         (hs_open; [left; eexists; split; [reflexivity|discriminate]|exact HC]). }
  1: { destruct (Inv_no_session c HI Hc) as [_ E]; [rewrite Hs; reflexivity|rewrite Hf in E; discriminate]. }
  all: destruct (pop_data_all berr_code_ok code_own _ _ _ (proj1 HC) Ep) as [Hp Hbe'];
       pose proof (plan_ret_all berr_code_ok code_own _ term Hp) as Hret;
       change (backend_codes_ok (be_data_rest (c_be c) rest) = true) in Hbe'; rewrite <- Hbe in Hbe'.
  1-3: pose proof (ended_nw _ _ _ Hend) as Hnt; pose proof (ended_CI _ _ _ Hend Hbe') as HC'.
  - hs_open; [|exact HC']. right; left. eexists. split; [reflexivity|]. rewrite Hl. reflexivity.
  - hs_open; [|exact HC']. right; left. eexists. split; [reflexivity|].
    rewrite Hl, app_nil_r, !map_length. reflexivity.
  - apply andb_true_iff in Hp as [_ Hst].
    pose proof (lmtp_statuses_all berr_code_ok code_own (c_rcpts c) _ _ (dp_panic p) Hst Hret) as Hsts.
    rewrite Est in Hsts. destruct (statuses_rn _ _ Hsts) as (cds & Hcds & Hlen).
    hs_open; [|exact HC']. right; left. eexists. split; [reflexivity|]. rewrite Hl, app_nil_r, map_length. exact Hlen.
  - hs_open; [|split; [exact Hbe'|exact I]]. unfold shape_data. destruct (cf_lmtp cfg) eqn:L.
    + right; right. destruct Hm as [Hm|Hm]; [congruence|]. repeat split. exact Hm.
    + right; left. eexists. split; reflexivity.
Qed.

Lemma settles_CI c c' ev : CI c -> settles c c' ev -> CI c'.
Proof.
  intros HC [(_ & Hbe & Hbd & Hrc)|(_ & Hbe & Hbd & _)]; apply (CI_next c); auto; rewrite Hbe; apply HC.
Qed.

Lemma bdat_fed_CI cfg c chunk b0 ev0 c0 b1 ev1 werr :
  CI c -> bdat_start cfg c = (b0, ev0, c0) -> bd_feed b0 chunk = (b1, ev1, werr) ->
  backend_codes_ok (c_be c0) = true /\ bd_ok b1 /\ (forall e, werr = Some e -> berr_code_ok e = true)
  /\ nw ev0 /\ nw ev1 /\ c_rcpts c0 = c_rcpts c /\ bd_rcpts b1 = c_rcpts c.
Proof.
  intros [Hbe Hbd] E0 E1. unfold bdat_inv in Hbd.
  destruct (bdat_fed_frame _ _ _ _ _ _ _ _ _ E0 E1) as (Hn0 & Hn1 & Hrc & Hr1).
  destruct (bdat_fed_all berr_code_ok code_own cfg c chunk b0 ev0 c0 b1 ev1 werr Hbe) as (H1 & H2 & H3);
    [intros b Eb; rewrite Eb in Hbd; apply Hbd|exact E0|exact E1|].
  repeat split; try assumption; try apply H2. rewrite Hr1. unfold transfer_rcpts.
  destruct (c_bdat c); [apply Hbd|reflexivity].
Qed.

Lemma fed_replies_rn cfg last b e :
  bd_ok b -> berr_code_ok e = true -> bd_rcpts b <> [] ->
  exists cs, Rn (fed_replies cfg (last && cf_lmtp cfg) b e) cs
             /\ shape_bdat cfg (List.length (bd_rcpts b)) last (map Z.to_N cs).
Proof.
  intros Hb He Hne. unfold fed_replies. destruct (last && cf_lmtp cfg) eqn:E.
  - destruct (bdat_lmtp_replies_all berr_code_ok code_own cfg b e Hb He) as (sts & -> & Hs).
    destruct (statuses_rn _ _ Hs) as (cs & Hcs & Hlen). exists cs. split; [exact Hcs|].
    apply andb_true_iff in E as [E1 E2]. right. rewrite map_length, Hlen. repeat split; try assumption.
    destruct (bd_rcpts b); [congruence|cbn; lia].
  - destruct (data_error_to_status e) as [[code ec] msg] eqn:Es. eexists. split.
    + eapply Rn_rendered_status; [exact Es|exact He|constructor].
    + left. eexists. reflexivity.
Qed.

Lemma handle_bdat_hs cfg c arg :
  Inv c -> c_closed c = false -> CI c ->
  HS (fun cs _ => shape_bdat cfg (List.length (c_rcpts c)) (bdat_last arg) cs) (handle_bdat cfg c arg).
Proof.
  intros HI Hc HC.
  destruct (handle_bdat_outcome cfg c arg)
    as [code ec msg c' tail Hin Hset|Hs Hf|chunk b0 ev0 c0 b1 ev1 c' E0 E1 _ Hbe Hrc Hbd
       |chunk cerr b0 ev0 c0 b1 ev1 werr e b2 ev2 cm c' tail E0 E1 Hend Hne Hset Hbe Hrc _].
  - exists [code]. split; [|split; [left; eexists; reflexivity|exact (settles_CI _ _ _ HC Hset)]].
    apply Rn_wire; [|apply Rn_nw, (settles_nw _ _ _ Hset)].
    repeat destruct Hin as [[= <- _ _]|Hin]; try lia. destruct Hin.
  - destruct (Inv_no_session c HI Hc) as [_ E]; [rewrite Hs; reflexivity|rewrite Hf in E; discriminate].
  - destruct (bdat_fed_CI _ _ _ _ _ _ _ _ _ HC E0 E1) as (Hbe0 & Hb1 & _ & Hn0 & Hn1 & Hrc0 & Hr1).
    exists [250%Z]. split; [do 2 (apply Rn_app_nw; [assumption|]); apply Rn_wire; [lia|constructor]|].
    split; [left; eexists; reflexivity|]. split; [cbn [fst]; rewrite Hbe; exact Hbe0|].
    unfold bdat_inv. cbn [fst]. rewrite Hbd. split; [exact Hb1|congruence].
  - destruct (bdat_fed_CI _ _ _ _ _ _ _ _ _ HC E0 E1) as (Hbe0 & Hb1 & Hw1 & Hn0 & Hn1 & Hrc0 & Hr1).
    destruct (fed_end_frame _ _ _ _ _ _ _ _ Hend) as [Hn2 Hr2].
    destruct (fed_end_all berr_code_ok code_own _ _ _ _ _ _ _ _ Hb1 Hw1 Hend) as [Hb2 He].
    destruct (fed_replies_rn cfg (bdat_last arg) b2 e Hb2 He) as (cs & Hcs & Hshape); [congruence|].
    exists cs. split; [|split].
    + cbn [snd]. do 3 (apply Rn_app_nw; [assumption|]). apply Rn_app_nw_r; [exact Hcs|exact (ended_nw _ _ _ Hset)].
    + replace (c_rcpts c) with (bd_rcpts b2) by congruence. exact Hshape.
    + apply (ended_CI _ _ _ Hset). rewrite Hbe. exact Hbe0.
Qed.

Lemma auth_loop_rn steps : forall c resp,
  forallb step_ok steps = true ->
  exists k fin,
    Rn (snd (fst (auth_loop steps c resp))) (repeat 334%Z k ++ fin)
    /\ (snd (auth_loop steps c resp) = true -> fin = [])
    /\ (List.length fin <= 1)%nat
    /\ (snd (auth_loop steps c resp) = false -> (fin = [] <-> auth_input_ends steps c = true)).
Proof.
  (* a leaf: [k] challenges, then the final replies [fin] *)
  assert (Hleaf : forall ev (ok ends : bool) k fin,
            Rn ev (repeat 334%Z k ++ fin) -> (List.length fin <= 1)%nat ->
            (ok = true -> fin = []) -> (ok = false -> (fin = [] <-> ends = true)) ->
            exists k fin, Rn ev (repeat 334%Z k ++ fin) /\ (ok = true -> fin = [])
                          /\ (List.length fin <= 1)%nat /\ (ok = false -> (fin = [] <-> ends = true)))
    by (intros; eexists _, _; eauto).
  induction steps as [|[ch done err] rest IH]; intros c resp Hok; cbn [auth_loop auth_input_ends].
  - apply (Hleaf _ _ _ 0%nat []); cbn [fst snd repeat app List.length]; [rn|lia|auto|discriminate].
  - cbn [forallb step_ok] in Hok. apply andb_true_iff in Hok as [He Hrest].
    destruct err as [|ecode eec emsg|emsg].
    2,3: eapply (Hleaf _ _ _ 0%nat [_]); cbn [fst snd repeat app List.length];
         [rn|lia|discriminate|split; discriminate].
    destruct done; [apply (Hleaf _ _ _ 0%nat []); cbn [fst snd repeat app List.length]; [rn|lia|auto|discriminate]|].
    destruct (conn_read_line c) as [[line|e] c1].
    2: apply (Hleaf _ _ _ 1%nat []); cbn [fst snd repeat app List.length]; [rn|lia|auto|split; reflexivity].
    destruct (bytes_eqb line (bs "*")).
    1: apply (Hleaf _ _ _ 1%nat [501%Z]); cbn [fst snd repeat app List.length]; [rn|lia|discriminate|split; discriminate].
    destruct (decode_sasl_response line) as [r|].
    2: apply (Hleaf _ _ _ 1%nat [454%Z]); cbn [fst snd repeat app List.length]; [rn|lia|discriminate|split; discriminate].
    destruct (IH c1 (Some r) Hrest) as (k & fin & H1 & H2 & H3 & H4).
    destruct (auth_loop rest c1 (Some r)) as [[c2 ev] ok]. cbn [fst snd] in *.
    apply (Hleaf _ _ _ (S k) fin); cbn [repeat app]; [rn|assumption..].
Qed.

Lemma handle_auth_hs cfg c arg : CI c -> HS (fun cs _ => shape_auth_x c cs) (handle_auth cfg c arg).
Proof.
  intros HC. unfold handle_auth, pop_auth.
  destruct (pop ap_default _) as [p rest] eqn:Ep. cs.
  destruct (pop_auth_all berr_code_ok code_own _ _ _ (proj1 HC) Ep) as [Hp Hbe].
  apply andb_true_iff in Hp as [Hstart Hsteps].
  walk; try solve [hs_open; [apply shape_auth_x_one|ci_next c HC]].
  all: try (match goal with H : ap_start _ = _ |- _ => rewrite H in Hstart end;
            solve [hs_open; [apply shape_auth_x_one|ci_next c HC]]).
  all: match goal with H : auth_loop ?s ?c1 ?r = _ |- _ =>
         pose proof (auth_loop_spec s c1 r) as [Hc2 _];
         destruct (auth_loop_rn s c1 r Hsteps) as (k & fin & R1 & R2 & R3 & R4); rewrite H in * end;
       cbn [fst snd] in *; rewrite Hc2.
  all: lazymatch type of R2 with
       | true = true -> _ =>     (* the exchange succeeded: challenges only, then 235 or the session's refusal *)
           rewrite (R2 eq_refl) in R1; hs_open; [apply shape_auth_x_of; [cbn; lia|discriminate]|ci_next c HC]
       | _ =>                    (* it failed, with its own final reply, or the input ended *)
           unfold HS; cs; eexists; (split; [apply Rn_skip; [reflexivity|exact R1]|split; [|ci_next c HC]]);
           rewrite <- (app_nil_r (_ ++ fin)); apply shape_auth_x_of; rewrite app_nil_r; [exact R3|];
           unfold pop_auth; rewrite Ep; cs; exact (proj1 (R4 eq_refl))
       end.
Qed.

(* C04 (1): for every configuration, every open connection state reachable
   by the loop (Inv, CI) and every command: the reply groups the handler
   writes have the shape fixed by the verb; the invariant on the backend's
   codes is preserved. *)
Theorem handle_groups cfg c cmd arg :
  Inv c -> c_closed c = false -> CI c ->
  HS (group_shape cfg (List.length (c_rcpts c)) (verb_of_cmd cmd) arg) (handle cfg c cmd arg).
Proof.
  intros HI Hc HC. rewrite verb_of_cmd_upper.
  apply (handle_cases_cmd cfg c cmd arg
           (fun C => HS (group_shape cfg (List.length (c_rcpts c)) (verb_of_upper C) arg))); cbv zeta.
  - intros C code ec msg Ho Hr. rewrite (verb_other C Ho). hs_one c HC.
  - intros C code ec msg Ho Hr. rewrite (verb_other C Ho). apply protocol_error_hs; [lia|exact HC].
  - intros C enh Ho. rewrite (verb_other C Ho). apply handle_greet_hs; assumption.
  - apply handle_mail_hs; assumption.
  - apply handle_rcpt_hs; assumption.
  - intros msg. hs_one c HC.
  - apply handle_bdat_hs; assumption.
  - apply handle_data_hs; assumption.
  - intros msg. hs_one c HC.
  - eapply HS_impl; [|apply handle_auth_hs; assumption]. intros cs b. apply shape_auth_x_weaken.
  - apply handle_starttls_hs; assumption.
Qed.

Theorem unparsable_groups c :
  CI c -> HS shape_other (protocol_error c 501 (5, 5, 2)%Z (bs "Bad command")).
Proof. intros HC. apply protocol_error_hs; [lia|exact HC]. Qed.

Lemma HS_codes P r : HS P r -> P (codes_of (snd r)) (c_closed (fst r)) /\ CI (fst r).
Proof. intros (cs & H1 & H2 & H3). rewrite (Rn_codes _ _ H1). split; assumption. Qed.

Lemma mon_step_nrcpt cfg m e m' : mon_step cfg m e = Some m' -> m_nrcpt m' = n_step (m_nrcpt m) e.
Proof.
  destruct e; cbn [mon_step n_step]; intros H;
    first [ inversion H; reflexivity
          | apply guard_some in H as [_ ->]; cbn [m_nrcpt clear_tx set_closed_m]; try reflexivity ].
  - destruct r; reflexivity.
  - destruct ok; reflexivity.
Qed.

Lemma smon_run_nrcpt cfg ev : forall m m',
  smon_run cfg m ev = Some m' -> m_nrcpt (fst m') = fold_left n_step ev (m_nrcpt (fst m)).
Proof.
  induction ev as [|e ev IH]; intros m m' H; cbn [smon_run fold_left] in *.
  - inversion H. reflexivity.
  - destruct (smon_step cfg m e) as [m1|] eqn:E; [|discriminate].
    rewrite (IH _ _ H). f_equal. apply smon_step_mon_step in E. eapply mon_step_nrcpt, E.
Qed.

Lemma command_step_ok cfg c line :
  Inv c -> c_closed c = false -> Good cfg c (command_step cfg c line).
Proof.
  intros HI Hc. unfold command_step. destruct (parse_cmd line) as [[cmd arg]|];
    [apply handle_ok|apply protocol_error_ok]; assumption.
Qed.

Lemma R_nrcpt c m : R c m -> c_closed c = false -> m_nrcpt (fst m) = List.length (c_rcpts c).
Proof. unfold R. intros H Hc. rewrite Hc in H. destruct H as [po ->]. reflexivity. Qed.

Lemma command_step_groups cfg c line :
  Inv c -> c_closed c = false -> CI c ->
  HS (group_shape cfg (List.length (c_rcpts c)) (fst (line_verb line)) (snd (line_verb line)))
     (command_step cfg c line).
Proof.
  intros HI Hc HC. unfold command_step, line_verb. destruct (parse_cmd line) as [[cmd arg]|].
  - apply handle_groups; assumption.
  - apply unparsable_groups, HC.
Qed.

(* what is proved of the rest of a trace, split at its commands: blocks in
   order, and before the first of them nothing - or, if there is none, the
   trailer *)
Definition blocks_end (cfg : config) (closed : bool) (B : list event * list (nat * bytes * list event)) : Prop :=
  match snd B with [] => trailer closed (fst B) | _ :: _ => fst B = [] /\ closed = false end
  /\ blocks_ok cfg (snd B).

Lemma trailer_blocks cfg n closed tl : trailer closed tl -> blocks_end cfg closed (blocks_from n tl).
Proof.
  intros H. unfold blocks_end. rewrite blocks_from_nocmd by (eapply trailer_no_cmd, H). split; [exact H|exact I].
Qed.

Lemma serve_loop_groups cfg : forall fuel c m,
  R c m -> Inv c -> CI c -> blocks_end cfg (c_closed c) (blocks_from (m_nrcpt (fst m)) (serve_loop fuel cfg c)).
Proof.
  apply (serve_loop_ind cfg (fun _ c tr => forall m, R c m -> Inv c -> CI c ->
           blocks_end cfg (c_closed c) (blocks_from (m_nrcpt (fst m)) tr))).
  - intros c m _ _ _. apply trailer_blocks. exists [], [EOutOfFuel]. auto.
  - intros _ c _ m _ _ _. apply trailer_blocks. exists [], (close_ev c).
    split; [reflexivity|]. split; [apply close_ev_closing|auto].
  - intros _ c e t Hc m _ _ _. rewrite Hc. apply trailer_blocks.
    exists (read_failure_reply e), (close_ev (upd_t c t)). split; [reflexivity|]. split; [apply close_ev_closing|].
    destruct e; first [left; reflexivity|right; split; [reflexivity|]; eexists _, _, _; split; [reflexivity|lia]].
  - intros f c line t Hc _ r -> IH m HR HI HC. pose proof (R_nrcpt c m HR Hc) as Hn.
    destruct (command_step_ok cfg (upd_t c t) line HI Hc) as (m' & Hrun & HR2 & HI2).
    destruct (command_step_groups cfg (upd_t c t) line HI Hc HC) as (cs & Hrn & Hshape & HC2).
    destruct (command_step cfg (upd_t c t) line) as [c2 ev]. cbn [fst snd] in *.
    cbn [blocks_from]. rewrite blocks_from_app by (eapply Rn_no_cmd, Hrn).
    replace (fold_left n_step ev (m_nrcpt (fst m))) with (m_nrcpt (fst m'))
      by (rewrite (smon_run_nrcpt _ _ _ _ Hrun), Hn; reflexivity).
    specialize (IH m' HR2 HI2 HC2).
    destruct (blocks_from (m_nrcpt (fst m')) (serve_loop f cfg c2)) as [p' bl']. unfold blocks_end in *.
    cbn [fst snd] in *. destruct IH as [IH1 IH2]. split; [split; [reflexivity|exact Hc]|].
    assert (Hblk : forall islast : bool,
              (if islast then trailer (c_closed c2) p' else p' = [] /\ c_closed c2 = false) ->
              block_ok cfg islast (m_nrcpt (fst m), line, ev ++ p')).
    { intros islast Htl. exists ev, p', (c_closed c2). split; [reflexivity|]. split; [exists cs; exact Hrn|].
      split; [rewrite (Rn_codes_app _ _ _ Hrn), (Rn_codes _ _ Hrn); reflexivity|].
      split; [|exact Htl]. rewrite (Rn_codes _ _ Hrn), Hn. exact Hshape. }
    destruct bl' as [|b1 bl']; [exact (Hblk true IH1)|].
    change (block_ok cfg false (m_nrcpt (fst m), line, ev ++ p') /\ blocks_ok cfg (b1 :: bl')).
    split; [exact (Hblk false IH1)|exact IH2].
Qed.

Lemma greeting_codes cfg : codes_of [greeting cfg] = [220%N].
Proof.
  unfold codes_of, greeting. cbn [wire_of map List.concat]. rewrite app_nil_r.
  apply reply_codes_write_response. lia.
Qed.

Lemma init_conn_CI cfg be phases : backend_codes_ok be = true -> CI (init_conn cfg be phases).
Proof. intros H. unfold init_conn. destruct phases as [|p r]; (split; [exact H|exact I]). Qed.

Lemma init_conn_R cfg be phases : R (init_conn cfg be phases) (smon_init (cf_implicit_tls cfg)).
Proof. unfold R, init_conn. destruct phases as [|p r]; cbn; exists false; reflexivity. Qed.

Lemma init_conn_Inv cfg be phases : Inv (init_conn cfg be phases).
Proof. unfold Inv, init_conn. destruct phases as [|p r]; cbn; repeat split; intros; congruence. Qed.

(* C04 (2): for every fuel, configuration, backend script with three-digit
   codes and every schedule of raw reads in every TLS phase (all
   segmentations, pipelined or not): the wire output before the first command
   is the greeting - one group 220; the events between two consecutive
   commands are those of ONE handler call and their reply groups have the
   shape of the verb, with n = the recipients accepted in the open
   transaction; after the last command the loop adds at most one closing
   reply (500 too long line / 421 timeout or connection error; none after a
   handler closed the connection) and then only the events of Close.  Lines
   consumed inside an AUTH exchange, a DATA message, a BDAT chunk or a TLS
   handshake are not commands: the model emits ECmd only where the loop
   reads a command line. *)
Theorem serve_groups fuel cfg be phases :
  backend_codes_ok be = true ->
  let B := blocks_from 0 (serve fuel cfg be phases) in
  (exists tl, fst B = greeting cfg :: tl /\ codes_of [greeting cfg] = [220%N]
              /\ match snd B with [] => trailer false tl | _ :: _ => tl = [] end)
  /\ blocks_ok cfg (snd B).
Proof.
  intros Hbe. cbv zeta. unfold serve, greeting. cbn [blocks_from n_step].
  fold (greeting cfg).
  pose proof (serve_loop_groups cfg fuel (init_conn cfg be phases) (smon_init (cf_implicit_tls cfg))
                (init_conn_R cfg be phases) (init_conn_Inv cfg be phases) (init_conn_CI cfg be phases Hbe)) as H.
  change (m_nrcpt (fst (smon_init (cf_implicit_tls cfg)))) with 0%nat in H.
  destruct (blocks_from 0 (serve_loop fuel cfg (init_conn cfg be phases))) as [p bl]. unfold blocks_end in H.
  cbn [fst snd] in *. destruct H as [H1 H2]. split; [|exact H2].
  exists p. split; [reflexivity|]. split; [apply greeting_codes|].
  destruct bl as [|b bl]; [|exact (proj1 H1)].
  assert (Hcl : c_closed (init_conn cfg be phases) = false) by (unfold init_conn; destruct phases; reflexivity).
  rewrite Hcl in H1. exact H1.
Qed.

(* C04 (3), unconditional part: in every trace (backend codes of three
   digits) every EWire is the output of one writeResponse call *)
Theorem serve_rendered fuel cfg be phases :
  backend_codes_ok be = true ->
  forall b, In (EWire b) (serve fuel cfg be phases) -> is_rendered b.
Proof.
  intros Hbe b Hin.
  assert (Hr : forall code ec msg ev, (100 <= code <= 999)%Z -> Forall rendered_ev ev ->
                 Forall rendered_ev (reply code ec msg :: ev)).
  { intros code ec msg ev Hc Hev. constructor; [|exact Hev]. intros w [= <-]. eexists _, _, _. eauto. }
  assert (H : Forall rendered_ev (serve fuel cfg be phases)).
  { apply Hr; [lia|].
    apply (serve_loop_ind cfg (fun _ c tr => Inv c -> CI c -> Forall rendered_ev tr)).
    - intros c _ _. repeat constructor. discriminate.
    - intros _ c _ _ _. exact (Rn_rendered _ _ (Rn_nw _ (close_ev_nw c))).
    - intros _ c e t _ _ _. pose proof (Rn_rendered _ _ (Rn_nw _ (close_ev_nw (upd_t c t)))).
      destruct e; try apply Hr; first [assumption|lia].
    - intros f c line t Hc _ r -> IH HI HC.
      destruct (command_step_groups cfg (upd_t c t) line HI Hc HC) as (cs & Hrn & _ & HC2).
      destruct (command_step_ok cfg (upd_t c t) line HI Hc) as (_ & _ & _ & HI2).
      constructor; [discriminate|]. apply Forall_app. split; [exact (Rn_rendered _ _ Hrn)|exact (IH HI2 HC2)].
    - apply init_conn_Inv.
    - apply init_conn_CI, Hbe. }
  rewrite Forall_forall in H. exact (H _ Hin b eq_refl).
Qed.

Module C04Example.
Local Open Scope string_scope.
Local Open Scope list_scope.

Definition raw_of (b : bytes) : raw := match b with c :: d => RData c d | [] => RFail TEof end.
Definition ln (s : string) : bytes := bs s ++ crlf.

Definition cfg : config :=
  mkCfg false false (bs "mx") 0 0 2000 true false false false false false false (Some [bs "PLAIN"]) false.

(* the first message is refused by the backend, the second accepted *)
Definition be : backend :=
  mkBE [] [] [] [mkDP [4096%nat] None (BSmtp 554 (5, 7, 1)%Z (bs "rejected")) true false []; dp_default]
       [mkAP BNil [SaslStep (bs "who?") false BNil; SaslStep [] true BNil]].

Definition stream : bytes :=
  ln "EHLO client.example" ++ ln "FOOD bar" ++ ln "MAIL FROM:<a@example.org>"
  ++ ln "RCPT TO:<b@example.org>" ++ ln "RCPT TO:<c@example.org>"
  ++ ln "DATA" ++ ln "hello" ++ ln "."
  ++ ln "MAIL FROM:<a@example.org>" ++ ln "RCPT TO:<b@example.org>"
  ++ ln "BDAT 5" ++ bs "hello" ++ ln "BDAT 2 LAST" ++ crlf
  ++ ln "AUTH PLAIN" ++ ln "AGEAYg=="
  ++ ln "%%%" ++ ln "" ++ ln "???" ++ ln "!!!".

Definition show_blocks (tr : list event) : list N * list (nat * string * list N) :=
  let B := blocks_from 0 tr in
  (codes_of (fst B),
   map (fun '(n, line, ev) => (n, string_of_list_ascii (firstn 4 line), codes_of ev)) (snd B)).

Definition expected : list N * list (nat * string * list N) :=
  ([220%N],
   [(0%nat, "EHLO", [250%N]); (0%nat, "FOOD", [500%N]); (0%nat, "MAIL", [250%N]);
    (0%nat, "RCPT", [250%N]); (1%nat, "RCPT", [250%N]);
    (2%nat, "DATA", [354%N; 554%N]);                       (* the message lines are not commands *)
    (0%nat, "MAIL", [250%N]); (0%nat, "RCPT", [250%N]);
    (1%nat, "BDAT", [250%N]); (1%nat, "BDAT", [250%N]);    (* Continue; OK: queued *)
    (0%nat, "AUTH", [334%N; 235%N]);                       (* the response line is not a command *)
    (0%nat, "%%%", [501%N]); (0%nat, "", [500%N]);
    (0%nat, "???", [501%N; 500%N])]).                      (* fourth error: closing notice; "!!!" is never read *)

Example pipelined : show_blocks (serve 40 cfg be [[raw_of stream]]) = expected.
Proof. vm_compute. reflexivity. Qed.

Example octet_by_octet :
  show_blocks (serve 40 cfg be [map (fun c => RData c []) stream]) = expected.
Proof. vm_compute. reflexivity. Qed.

Example hypotheses : backend_codes_ok be = true.
Proof. reflexivity. Qed.

(* LMTP: one final reply per accepted recipient, for DATA and for BDAT LAST *)
Definition lcfg : config :=
  mkCfg true false (bs "mx") 0 0 2000 false false false false false false true None false.
Definition lbe : backend :=
  mkBE [] [] []
       [mkDP [4096%nat] None BNil true false [(bs "c@example.org", BSmtp 550 (5, 1, 1)%Z (bs "no such user"))];
        dp_default] [].
Definition lstream : bytes :=
  ln "LHLO client.example" ++ ln "MAIL FROM:<a@example.org>"
  ++ ln "RCPT TO:<b@example.org>" ++ ln "RCPT TO:<c@example.org>"
  ++ ln "DATA" ++ ln "hello" ++ ln "."
  ++ ln "MAIL FROM:<a@example.org>" ++ ln "RCPT TO:<b@example.org>" ++ ln "RCPT TO:<c@example.org>"
  ++ ln "RCPT TO:<d@example.org>" ++ ln "BDAT 5 LAST" ++ bs "hello" ++ ln "QUIT".

Example lmtp :
  show_blocks (serve 40 lcfg lbe [[raw_of lstream]])
  = ([220%N],
     [(0%nat, "LHLO", [250%N]); (0%nat, "MAIL", [250%N]); (0%nat, "RCPT", [250%N]); (1%nat, "RCPT", [250%N]);
      (2%nat, "DATA", [354%N; 250%N; 550%N]);
      (0%nat, "MAIL", [250%N]); (0%nat, "RCPT", [250%N]); (1%nat, "RCPT", [250%N]); (2%nat, "RCPT", [250%N]);
      (3%nat, "BDAT", [250%N; 250%N; 250%N]); (0%nat, "QUIT", [221%N])]).
Proof. vm_compute. reflexivity. Qed.

End C04Example.
