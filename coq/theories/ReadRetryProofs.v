(* C06 for a backend that goes on reading after failed reads.

   [be_read_retry_budget]: a backend obtains from a limited DATA reader at
   most what is left of its budget, so with MaxMessageBytes = lim > 0 at most
   lim octets (C06_data_bound_reading_on) - for EVERY transport state (any
   buffered octets, any schedule of future raw reads and failures, line
   limiter tripping or not), every list of read-buffer sizes, every stopping
   point and every number of failed reads it chooses to ignore.  The octets
   that a Read hands out together with an error are charged like all others
   ([DataProofs.dr_read_loop]); that is the invariant the seeded change C06G
   broke.

   No transparency hypothesis is needed: the bound is a property of the
   budget bookkeeping of dataReader.Read alone. *)
From Smtp Require Import Bytes Transport DataReader DataProofs ReadRetry.

Lemma be_read_retry_budget fuel :
  forall sizes cur stop retry got d t out e d' t',
    d_limited d = true -> budget_ok d ->
    be_read_retry fuel sizes cur stop retry got d t = (out, e, d', t') ->
    (Z.of_nat (List.length out) <= Z.of_nat (List.length got) + d_n d)%Z.
Proof.
  induction fuel as [|fuel IH]; intros sizes cur stop retry got d t out e d' t' Hl Hb H;
    pose proof (Hb Hl); cbn [be_read_retry] in H.
  { inversion H; subst. lia. }
  destruct (match stop with Some k => (k <=? blen got)%N | None => false end).
  { inversion H; subst. lia. }
  destruct (next_size sizes cur) as [sz cur'].
  destruct (dr_read d t (pos_size sz)) as [[[o1 e1] d1] t1] eqn:Hrd.
  destruct (dr_read_loop _ _ _ _ _ _ _ (pos_size_pos sz) Hb Hrd)
    as (_ & _ & _ & _ & _ & [(_ & _ & Cl & Cn & Cb)|(_ & _ & -> & -> & _)]).
  - (* the octets of this Read are charged: stopping here or going on from
       d1, the bound holds *)
    rewrite Hl in Cl, Cn. pose proof (Cb Cl).
    assert (Hstop : (Z.of_nat (List.length (got ++ o1)) <= Z.of_nat (List.length got) + d_n d)%Z)
      by (rewrite app_length; lia).
    assert (Hgo : forall r, be_read_retry fuel sizes cur' stop r (got ++ o1) d1 t1 = (out, e, d', t') ->
                            (Z.of_nat (List.length out) <= Z.of_nat (List.length got) + d_n d)%Z).
    { intros r Hr. apply (IH _ _ _ _ _ _ _ _ _ _ _ Cl Cb) in Hr. rewrite app_length in Hr. lia. }
    destruct e1 as [err|]; [destruct retry as [|retry']; [|destruct (retryable err)]|];
      first [exact (Hgo _ H)|inversion H; subst; exact Hstop].
  - (* ErrDataTooLarge ends the reading *)
    destruct retry; inversion H; subst; rewrite app_nil_r; lia.
Qed.

(* the same holds for the backend that stops at the first failed read
   (retry = 0 is DataReader.be_read) - also without the transparency hypothesis
   of C06_data_bound *)
Lemma be_read_retry_0 fuel :
  forall sizes cur stop got d t,
    be_read_retry fuel sizes cur stop 0 got d t = be_read fuel sizes cur stop got d t.
Proof.
  induction fuel as [|fuel IH]; intros sizes cur stop got d t; [reflexivity|].
  cbn [be_read_retry be_read].
  destruct (match stop with Some k => (k <=? blen got)%N | None => false end); [reflexivity|].
  destruct (next_size sizes cur) as [sz cur'].
  destruct (dr_read d t (pos_size sz)) as [[[o1 e1] d1] t1].
  destruct e1; [reflexivity|apply IH].
Qed.

(* non-vacuity: limit 5; the message "abcdefgh" arrives in pieces of two octets,
   each followed by a time-out; the backend reads with a 4-octet buffer and goes
   on after each failure: it gets "abcde" and ErrDataTooLarge.  (With the seeded
   change every one of these reads ended in an error and was not charged.) *)
Example retry_example :
  let t := mkT [] [RData "a" (bs "b"); RFail TTimeout; RData "c" (bs "d"); RFail TTimeout;
                   RData "e" (bs "f"); RFail TTimeout; RData "g" (bs "h"); RData CR [LF; DOT; CR; LF]] 0%N 0%N false in
  let '(out, e, _, _) := backend_reads_retry [4] None 3 (new_data_reader 5) t in
  out = bs "abcde" /\ e = Some RTooLarge.
Proof. vm_compute. split; reflexivity. Qed.
