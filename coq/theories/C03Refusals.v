(* C03: a RCPT beyond the recipient limit is answered 452 and causes no
   callback (the other state guards of the handlers are props/C03.v's
   C03_mail_before_greeting .. C03_wrong_flavour_refused). *)
From Smtp Require Import Bytes GoStrings Parse Conn.
Local Open Scope char_scope.

Lemma recipient_limit_refused cfg c arg a rcpt rest :
  c_from c = true -> c_bdat c = None -> cut_prefix_fold arg (bs "TO:") = Some a ->
  parse_path (trim_space a) = Some (rcpt, rest) ->
  (0 < cf_max_rcpt cfg)%N -> (cf_max_rcpt cfg <= N.of_nat (List.length (c_rcpts c)))%N ->
  exists msg, handle_rcpt cfg c arg = (c, [reply 452 (4, 5, 3)%Z msg]).
Proof.
  intros Hf Hb Hc Hp H1 H2. unfold handle_rcpt. rewrite Hf, Hb, Hc, Hp. cbn [negb].
  apply N.ltb_lt in H1. apply N.leb_le in H2. rewrite H1, H2. eexists. reflexivity.
Qed.

(* such a refusal contains no backend callback: it is a single wire event *)
Definition is_wire_only (ev : list event) : bool :=
  forallb (fun e => match e with EWire _ => true | _ => false end) ev.

Example refusals_are_wire_only :
  is_wire_only [reply 502 (5, 5, 1)%Z (bs "Missing MAIL FROM command.")] = true.
Proof. reflexivity. Qed.
