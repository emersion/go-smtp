(* dataReader.Read (model) = the line-wise dot-unstuffing specification. *)
From Smtp Require Import Bytes Transport DataReader DotSpec TransportProofs.

(* turns every hypothesis [Ascii.eqb a b = true] into the equation and substitutes *)
Ltac beq := repeat match goal with
  | H : Ascii.eqb _ _ = true |- _ => apply Ascii.eqb_eq in H; subst
  end.

Lemma cut_crlf_cons c d t' :
  cut_crlf (c :: d :: t') =
  if Ascii.eqb c CR && Ascii.eqb d LF then Some ([c; d], t')
  else option_map (consfst c) (cut_crlf (d :: t')).
Proof. reflexivity. Qed.

Lemma cut_crlf_line s : forall l r,
  cut_crlf s = Some (l, r) -> s = l ++ r /\ exists l', l = l' ++ [CR; LF].
Proof.
  induction s as [|c t IH]; intros l r H; [discriminate|].
  destruct t as [|d t']; [discriminate|]. rewrite cut_crlf_cons in H.
  destruct (Ascii.eqb c CR && Ascii.eqb d LF) eqn:E.
  - apply andb_true_iff in E as [E1 E2]. beq. inversion H; subst.
    split; [reflexivity|]. exists []. reflexivity.
  - destruct (cut_crlf (d :: t')) as [[l0 r0]|]; [|discriminate]. inversion H; subst.
    destruct (IH _ _ eq_refl) as (-> & l' & ->). split; [reflexivity|].
    exists (c :: l'). reflexivity.
Qed.

Lemma cut_crlf_shorter s l r : cut_crlf s = Some (l, r) -> List.length r < List.length s.
Proof.
  intros H. apply cut_crlf_line in H as (-> & l' & ->). rewrite !app_length. cbn. lia.
Qed.

Lemma strip_dot_cases s : strip_dot s = s \/ s = DOT :: strip_dot s.
Proof.
  destruct s as [|a t]; [left; reflexivity|]. cbn.
  destruct (Ascii.eqb_spec a DOT) as [->|]; auto.
Qed.

Lemma strip_dot_le s : List.length (strip_dot s) <= List.length s.
Proof. destruct (strip_dot_cases s) as [->|E]; [lia|]. rewrite E at 2. cbn. lia. Qed.

Lemma unstuff_f_fuel n m s :
  List.length s < n -> List.length s < m -> unstuff_f n s = unstuff_f m s.
Proof.
  revert m s; induction n as [|n IH]; intros m s Hn Hm; [lia|].
  destruct m as [|m]; [lia|]. cbn [unstuff_f].
  destruct (is_marker s); [reflexivity|].
  destruct (cut_crlf (strip_dot s)) as [[l r]|] eqn:E; [|reflexivity].
  apply cut_crlf_shorter in E. pose proof (strip_dot_le s).
  f_equal. apply IH; lia.
Qed.

(* the rest of a line that has been entered: copy through the first CRLF,
   then start over at a line start *)
Definition mid (s : bytes) : dres :=
  match cut_crlf s with
  | Some (l, r) => prepend l (unstuff r)
  | None => Incomplete s
  end.

(* ... when the previous octet was a CR *)
Definition midCR (s : bytes) : dres :=
  match s with
  | c :: r => if Ascii.eqb c LF then prepend [LF] (unstuff r) else mid s
  | [] => Incomplete []
  end.

Lemma unstuff_unfold s :
  unstuff s = match is_marker s with
              | Some rest => Complete [] rest
              | None => mid (strip_dot s)
              end.
Proof.
  unfold unstuff, mid. cbn [unstuff_f].
  destruct (is_marker s); [reflexivity|].
  destruct (cut_crlf (strip_dot s)) as [[l r]|] eqn:E; [|reflexivity].
  apply cut_crlf_shorter in E. pose proof (strip_dot_le s).
  f_equal. apply unstuff_f_fuel; lia.
Qed.

Lemma prepend_app a b r : prepend a (prepend b r) = prepend (a ++ b) r.
Proof. destruct r; cbn; rewrite app_assoc; reflexivity. Qed.
Lemma prepend_nil r : prepend [] r = r.
Proof. destruct r; reflexivity. Qed.

Lemma mid_cons c t :
  mid (c :: t) = if Ascii.eqb c CR then prepend [c] (midCR t) else prepend [c] (mid t).
Proof.
  unfold mid at 1. cbn [cut_crlf].
  destruct t as [|d t']; [cbn; destruct (Ascii.eqb c CR); reflexivity|].
  (* unless c, d are CR, LF the first CRLF is looked for behind c *)
  assert (Hon : match option_map (consfst c) (cut_crlf (d :: t')) with
                | Some (l, r) => prepend l (unstuff r)
                | None => Incomplete (c :: d :: t')
                end = prepend [c] (mid (d :: t'))).
  { unfold mid. destruct (cut_crlf (d :: t')) as [[l r]|]; cbn; [rewrite prepend_app|]; reflexivity. }
  destruct (Ascii.eqb c CR) eqn:Ec; cbn [andb midCR]; [|exact Hon].
  destruct (Ascii.eqb d LF) eqn:Ed; [|exact Hon].
  beq. rewrite prepend_app. reflexivity.
Qed.

(* what the specification still owes when the reader is in state q and the
   remaining stream is s *)
Definition spec_of (q : dstate) (s : bytes) : dres :=
  match q with
  | SBeginLine => unstuff s
  | SData => mid s
  | SCR => midCR s
  | SDot => match s with
            | a :: b :: r => if Ascii.eqb a CR && Ascii.eqb b LF then Complete [] r else mid s
            | _ => mid s
            end
  | SDotCR => match s with
              | a :: r => if Ascii.eqb a LF then Complete [] r else prepend [CR] (midCR s)
              | [] => Incomplete [CR]
              end
  | SEOF => Complete [] s
  end.

(* octets the reader is still withholding *)
Definition pending (q : dstate) : bytes :=
  match q with SDotCR => [CR] | _ => [] end.

Lemma spec_of_nil q : q <> SEOF -> spec_of q [] = Incomplete (pending q).
Proof. destruct q; intros H; try reflexivity. congruence. Qed.

Lemma mid_other c r : Ascii.eqb c CR = false -> mid (c :: r) = prepend [c] (mid r).
Proof. intros H. rewrite mid_cons, H. reflexivity. Qed.

Lemma mid_CR r : mid (CR :: r) = prepend [CR] (midCR r).
Proof. rewrite mid_cons, Ascii.eqb_refl. reflexivity. Qed.

Lemma midCR_LF r : midCR (LF :: r) = prepend [LF] (unstuff r).
Proof. reflexivity. Qed.

Lemma midCR_nonLF c r : Ascii.eqb c LF = false -> midCR (c :: r) = mid (c :: r).
Proof. intros H. cbn [midCR]. rewrite H. reflexivity. Qed.

Lemma mid_crlf r : mid (CR :: LF :: r) = prepend [CR; LF] (unstuff r).
Proof. rewrite mid_CR, midCR_LF, prepend_app. reflexivity. Qed.

Lemma is_marker_nondot c r : Ascii.eqb c DOT = false -> is_marker (c :: r) = None.
Proof. intros H. destruct r as [|a [|b r]]; cbn; try reflexivity. rewrite H. reflexivity. Qed.

Lemma unstuff_marker r : unstuff (DOT :: CR :: LF :: r) = Complete [] r.
Proof. rewrite unstuff_unfold. reflexivity. Qed.

Lemma unstuff_nondot c r : Ascii.eqb c DOT = false -> unstuff (c :: r) = mid (c :: r).
Proof.
  intros H. rewrite unstuff_unfold, is_marker_nondot by exact H.
  cbn [strip_dot]. rewrite H. reflexivity.
Qed.

Lemma step_spec q c s :
  q <> SEOF ->
  match dr_step q c with
  | DSkip q' => spec_of q (c :: s) = spec_of q' s
  | DEmit q' x => spec_of q (c :: s) = prepend [x] (spec_of q' s)
  | DEmitUnread q' x => spec_of q (c :: s) = prepend [x] (spec_of q' (c :: s))
  end.
Proof.
  intros Hq. destruct q; cbn [dr_step]; try congruence.
  - destruct (Ascii.eqb c DOT) eqn:Ed.
    + beq. cbn [spec_of]. rewrite unstuff_unfold. cbn [is_marker strip_dot].
      rewrite Ascii.eqb_refl. cbn [andb].
      destruct s as [|a [|b r]]; try reflexivity.
      destruct (Ascii.eqb a CR && Ascii.eqb b LF); reflexivity.
    + cbn [spec_of]. rewrite unstuff_nondot, mid_cons by exact Ed.
      destruct (Ascii.eqb c CR); reflexivity.
  - destruct (Ascii.eqb c CR) eqn:Ec.
    + beq. cbn [spec_of]. destruct s as [|a r]; [reflexivity|].
      rewrite Ascii.eqb_refl. cbn [andb].
      destruct (Ascii.eqb a LF) eqn:Ea; [reflexivity|].
      rewrite mid_cons, Ascii.eqb_refl. reflexivity.
    + cbn [spec_of].
      transitivity (mid (c :: s)); [|rewrite mid_cons, Ec; reflexivity].
      destruct s as [|b r]; [reflexivity|]. rewrite Ec. reflexivity.
  - destruct (Ascii.eqb c LF) eqn:El; cbn [spec_of]; rewrite El; [reflexivity|].
    cbn [midCR]. rewrite El. reflexivity.
  - destruct (Ascii.eqb c LF) eqn:El.
    + beq. cbn [spec_of midCR]. rewrite Ascii.eqb_refl. reflexivity.
    + destruct (Ascii.eqb c CR) eqn:Ec; cbn [spec_of midCR]; rewrite El, mid_cons, Ec; reflexivity.
  - destruct (Ascii.eqb c CR) eqn:Ec; cbn [spec_of]; rewrite mid_cons, Ec; reflexivity.
Qed.

Lemma dstate_eqb_spec a b : dstate_eqb a b = true <-> a = b.
Proof. destruct a, b; cbn; split; intros H; try reflexivity; try discriminate. Qed.

Definition blength (r : dres) : nat :=
  match r with Complete b _ | Incomplete b => List.length b end.

Lemma blength_prepend l r : blength (prepend l r) = List.length l + blength r.
Proof. destruct r; cbn; rewrite app_length; reflexivity. Qed.

Lemma step_pending q c :
  match dr_step q c with
  | DSkip _ => True
  | DEmit q' _ => pending q' = [] /\ pending q = []
  | DEmitUnread q' _ => pending q' = [] /\ pending q = [CR]
  end.
Proof. destruct q; cbn; repeat destruct (Ascii.eqb _ _); auto. Qed.

(* Induction along the reader: from a stream c :: s the automaton goes on
   with s, or - pushing c back from SDotCR, into a state that pushes nothing
   back - once more with c :: s. *)
Lemma reader_ind (P : dstate -> bytes -> Prop) :
  (forall q, P q []) -> (forall s, P SEOF s) ->
  (forall q c s, q <> SEOF ->
     match dr_step q c with
     | DSkip q' | DEmit q' _ => P q' s
     | DEmitUnread q' _ => P q' (c :: s)
     end -> P q (c :: s)) ->
  forall q s, P q s.
Proof.
  intros Hnil Heof Hstep.
  assert (Hp : forall q, List.length (pending q) <= 1) by (intros []; cbn; lia).
  assert (H : forall n q s, 2 * List.length s + List.length (pending q) <= n -> P q s);
    [|intros q s; eapply H, le_n].
  induction n as [|n IH]; intros q [|c s] Hm; try apply Hnil; cbn [List.length] in Hm; [lia|].
  assert (q = SEOF \/ q <> SEOF) as [->|Hq] by (destruct q; auto; right; discriminate);
    [apply Heof|].
  apply Hstep; [exact Hq|]. pose proof (step_pending q c) as Pd.
  destruct (dr_step q c) as [q'|q' x|q' x]; apply IH.
  - specialize (Hp q'). lia.
  - destruct Pd as [-> _]. cbn. lia.
  - destruct Pd as [-> Pq]. rewrite Pq in Hm. cbn in *. lia.
Qed.

Lemma owed_bound q s :
  blength (spec_of q s) <= List.length s + List.length (pending q).
Proof.
  revert q s. apply reader_ind.
  - intros q. destruct q; cbn; lia.
  - intros s. cbn. lia.
  - intros q c s Hq IH. pose proof (step_spec q c s Hq) as E. pose proof (step_pending q c) as Pd.
    cbn [List.length]. destruct (dr_step q c) as [q'|q' x|q' x]; rewrite E, ?blength_prepend.
    + assert (List.length (pending q') <= 1) by (destruct q'; cbn; lia). lia.
    + destruct Pd as [Pd _]. rewrite Pd in IH. cbn in *. lia.
    + destruct Pd as [Pd Pq]. rewrite Pd in IH. rewrite Pq. cbn in *. lia.
Qed.

Lemma raws_bytes_avail rs : List.length (raws_bytes rs) <= raws_avail rs.
Proof.
  induction rs as [|[c d|e] r IH]; cbn; try lia.
  rewrite app_length. lia.
Qed.

Lemma tstream_avail t : List.length (tstream t) <= t_avail t.
Proof.
  unfold tstream, t_avail. rewrite app_length. pose proof (raws_bytes_avail (t_raw t)). lia.
Qed.

Lemma owed_fuel q t : blength (spec_of q (tstream t)) + 1 < be_fuel t.
Proof.
  pose proof (owed_bound q (tstream t)). pose proof (tstream_avail t).
  unfold be_fuel. destruct q; cbn in *; lia.
Qed.

Definition adv (q : dstate) (t : transport) (o : bytes) (q' : dstate) (t' : transport) : Prop :=
  spec_of q (tstream t) = prepend o (spec_of q' (tstream t')) /\ later t t'.

(* the reader emitted o and then ran into the end of the schedule's octets *)
Definition failed (q : dstate) (t : transport) (o : bytes) (q' : dstate) (t' : transport) : Prop :=
  q' <> SEOF /\ spec_of q (tstream t) = prepend o (Incomplete (pending q')) /\ spent t t'.

Lemma adv_refl q t : transparent t -> adv q t [] q t.
Proof. intros H. split; [symmetry; apply prepend_nil|apply later_refl, H]. Qed.

Lemma adv_trans q t o1 q1 t1 o2 q2 t2 :
  adv q t o1 q1 t1 -> adv q1 t1 o2 q2 t2 -> adv q t (o1 ++ o2) q2 t2.
Proof.
  intros [A L] [A' L']. split; [|eapply later_trans; eauto].
  rewrite A, A', prepend_app. reflexivity.
Qed.

Lemma adv_failed q t o1 q1 t1 o2 q2 t2 :
  adv q t o1 q1 t1 -> failed q1 t1 o2 q2 t2 -> failed q t (o1 ++ o2) q2 t2.
Proof.
  intros [A L] (Q & A' & S). split; [exact Q|]. split; [|eapply later_spent; eauto].
  rewrite A, A', prepend_app. reflexivity.
Qed.

Lemma step_adv q t c s t1 :
  q <> SEOF -> tstream t = c :: s -> tstream t1 = s -> later t t1 ->
  match dr_step q c with
  | DSkip q1 => adv q t [] q1 t1
  | DEmit q1 x => adv q t [x] q1 t1
  | DEmitUnread q1 x => adv q t [x] q1 (t_unread_byte c t1)
  end.
Proof.
  intros Hq Es Es1 Hl. pose proof (step_spec q c s Hq) as E.
  destruct (dr_step q c); (split; [|exact Hl]);
    rewrite Es, ?unread_stream, Es1, ?prepend_nil; exact E.
Qed.

Lemma dr_loop_length fuel :
  forall s t room o e s' t',
    dr_loop fuel s t room = (o, e, s', t') -> List.length o <= room.
Proof.
  induction fuel as [|fuel IH]; intros s t room o e s' t' H; cbn [dr_loop] in H.
  { inversion H; subst; cbn; lia. }
  destruct room as [|room']; [inversion H; subst; cbn; lia|].
  destruct (dstate_eqb s SEOF); [inversion H; subst; cbn; lia|].
  destruct (t_read_byte t) as [[c|err] t1]; [|inversion H; subst; cbn; lia].
  destruct (dr_step s c) as [s1|s1 x|s1 x].
  - eapply IH; eassumption.
  - destruct (dr_loop fuel s1 t1 room') as [[[o1 e1] s2] t2] eqn:El.
    apply IH in El. inversion H; subst. cbn. lia.
  - destruct (dr_loop fuel s1 (t_unread_byte c t1) room') as [[[o1 e1] s2] t2] eqn:El.
    apply IH in El. inversion H; subst. cbn. lia.
Qed.

Definition loop_outcome (q : dstate) (t : transport) (room : nat) (o : bytes)
    (e : option rerr) (q' : dstate) (t' : transport) : Prop :=
  match e with
  | None => adv q t o q' t' /\ (List.length o = room \/ q' = SEOF)
  | Some err => err = rerr_of_terr (tterm t) /\ failed q t o q' t' /\ List.length o < room
  end.

Lemma loop_outcome_step q t x q1 t1 room o e q' t' :
  adv q t x q1 t1 -> loop_outcome q1 t1 room o e q' t' ->
  loop_outcome q t (List.length x + room) (x ++ o) e q' t'.
Proof.
  intros A H. pose proof A as [_ (_ & T & _)].
  destruct e as [err|]; cbn in *; rewrite app_length.
  - destruct H as (-> & F & L). rewrite T.
    split; [reflexivity|]. split; [eapply adv_failed; eauto|lia].
  - destruct H as (A' & L). split; [eapply adv_trans; eauto|].
    destruct L as [L|L]; [left; lia|right; exact L].
Qed.

Lemma dr_loop_spec fuel :
  forall q t room o e q' t',
    transparent t -> room + List.length (tstream t) < fuel ->
    dr_loop fuel q t room = (o, e, q', t') -> loop_outcome q t room o e q' t'.
Proof.
  induction fuel as [|fuel IH]; intros q t room o e q' t' Htr Hf H; [lia|].
  cbn [dr_loop] in H.
  destruct room as [|room].
  { inversion H; subst. split; [apply adv_refl, Htr|left; reflexivity]. }
  destruct (dstate_eqb q SEOF) eqn:Eq.
  { inversion H; subst. apply dstate_eqb_spec in Eq.
    split; [apply adv_refl, Htr|right; exact Eq]. }
  assert (Hq : q <> SEOF) by (intros ->; discriminate).
  destruct (tstream t) as [|c s] eqn:Es.
  - (* the stream is exhausted: the schedule's failure *)
    destruct (read_byte_nil t Htr Es) as (t1 & Hrb & Hsp). rewrite Hrb in H.
    inversion H; subst. split; [reflexivity|]. split; [|cbn; lia].
    split; [exact Hq|]. split; [rewrite Es; apply spec_of_nil, Hq|exact Hsp].
  - destruct (read_byte_cons t c s Htr Es) as (t1 & Hrb & Hs1 & Hl1). rewrite Hrb in H.
    pose proof (step_adv q t c s t1 Hq Es Hs1 Hl1) as Hadv.
    cbn [List.length] in Hf.
    destruct (dr_step q c) as [q1|q1 x|q1 x].
    + apply (loop_outcome_step _ _ [] _ _ (S room) _ _ _ _ Hadv).
      apply IH; [apply Hl1|rewrite Hs1; lia|exact H].
    + destruct (dr_loop fuel q1 t1 room) as [[[o1 e1] q2] t2] eqn:Hrec.
      inversion H; subst o e q' t'.
      apply (loop_outcome_step _ _ [x] _ _ room _ _ _ _ Hadv).
      apply IH; [apply Hl1|rewrite Hs1; lia|exact Hrec].
    + destruct (dr_loop fuel q1 (t_unread_byte c t1) room) as [[[o1 e1] q2] t2] eqn:Hrec.
      inversion H; subst o e q' t'.
      apply (loop_outcome_step _ _ [x] _ _ room _ _ _ _ Hadv).
      apply IH; [apply Hl1|rewrite unread_stream, Hs1; cbn; lia|exact Hrec].
Qed.

Lemma rerr_of_terr_not_eof e : rerr_of_terr e <> REOF.
Proof. destruct e; discriminate. Qed.
Lemma rerr_of_terr_not_large e : rerr_of_terr e <> RTooLarge.
Proof. destruct e; discriminate. Qed.

Definition budget_ok (d : dreader) : Prop := d_limited d = true -> (0 <= d_n d)%Z.

Definition charged (d : dreader) (o : bytes) (d' : dreader) : Prop :=
  d_limited d' = d_limited d /\
  d_n d' = (if d_limited d then d_n d - Z.of_nat (List.length o) else d_n d)%Z /\
  budget_ok d'.

Lemma charged_nil d : budget_ok d -> charged d [] d.
Proof. intros H. split; [reflexivity|]. split; [destruct (d_limited d); cbn; lia|exact H]. Qed.

Lemma charged_trans d o1 d1 o2 d2 :
  charged d o1 d1 -> charged d1 o2 d2 -> charged d (o1 ++ o2) d2.
Proof.
  intros (A & B & _) (A' & B' & C'). split; [congruence|]. split; [|exact C'].
  rewrite B', A, B. destruct (d_limited d); [|reflexivity]. rewrite app_length. lia.
Qed.

Lemma charged_le d o d' :
  charged d o d' -> d_limited d = true -> (Z.of_nat (List.length o) <= d_n d)%Z.
Proof. intros (A & B & C) Hl. rewrite Hl in *. specialize (C A). lia. Qed.

(* What one Read, or a run of Reads, can come to.  [o]: the octets handed
   out; the last argument: the error of the (last) Read. *)
Inductive outcome (d : dreader) (t : transport) (o : bytes) (d' : dreader) (t' : transport)
  : option rerr -> Prop :=
| O_more :     (* no error: the reader is mid-message *)
    adv (d_state d) t o (d_state d') t' -> charged d o d' ->
    outcome d t o d' t' None
| O_eof :      (* io.EOF: the end marker has been consumed *)
    adv (d_state d) t o (d_state d') t' -> d_state d' = SEOF -> charged d o d' ->
    outcome d t o d' t' (Some REOF)
| O_large x :  (* ErrDataTooLarge: the whole budget handed over, then the
                  probe met one more message octet x (which is dropped) *)
    d_limited d = true -> Z.of_nat (List.length o) = d_n d -> d_n d' = (-1)%Z ->
    adv (d_state d) t (o ++ [x]) (d_state d') t' ->
    outcome d t o d' t' (Some RTooLarge)
| O_fail :     (* the schedule's failure, before any end marker *)
    failed (d_state d) t o (d_state d') t' -> charged d o d' ->
    outcome d t o d' t' (Some (rerr_of_terr (tterm t))).

Lemma outcome_after d t o1 d1 t1 o2 d' t' e :
  adv (d_state d) t o1 (d_state d1) t1 -> charged d o1 d1 ->
  outcome d1 t1 o2 d' t' e -> outcome d t (o1 ++ o2) d' t' e.
Proof.
  intros A C H. pose proof A as [_ (_ & T & _)]. pose proof C as (Cl & Cn & _).
  destruct H as [A' C'|A' Q C'|x Hl Hn Hn' A'|F C']; try rewrite T.
  - apply O_more; [eapply adv_trans|eapply charged_trans]; eauto.
  - apply O_eof; [eapply adv_trans|exact Q|eapply charged_trans]; eauto.
  - rewrite Cl in Hl. rewrite Hl in Cn. apply (O_large _ _ _ _ _ x); [exact Hl| |exact Hn'|].
    + rewrite app_length. lia.
    + rewrite <- app_assoc. eapply adv_trans; eauto.
  - apply O_fail; [eapply adv_failed|eapply charged_trans]; eauto.
Qed.

(* dataReader.Read is one run of the loop with some room, followed by the
   bookkeeping of the size limit - whatever the transport does.  The one-octet
   probe of a reader whose budget is used up is the exception: an octet it
   gets is dropped and the error is ErrDataTooLarge. *)
Lemma dr_read_loop d t lenb o e d' t' :
  0 < lenb -> budget_ok d -> dr_read d t lenb = (o, e, d', t') ->
  exists room o1 e1,
    1 <= room /\ dr_loop (dr_fuel t room) (d_state d) t room = (o1, e1, d_state d', t') /\
    (o = o1 /\ e = eof_fix e1 (d_state d') /\ charged d o d' \/
     room = 1 /\ o1 <> [] /\ o = [] /\ e = Some RTooLarge /\
     d_limited d = true /\ d_n d = 0%Z /\ d_n d' = (-1)%Z).
Proof.
  intros Hl Hb H. unfold dr_read in H. unfold charged, budget_ok in *.
  destruct (d_limited d) eqn:Elim.
  - specialize (Hb eq_refl). destruct (Z.eqb_spec (d_n d) 0) as [En0|En0].
    + destruct (dr_loop (dr_fuel t 1) (d_state d) t 1) as [[[o1 e1] q1] t1] eqn:Hloop.
      exists 1, o1, e1. split; [lia|].
      destruct o1 as [|x o1]; inversion H; subst; (split; [exact Hloop|]); cbn.
      * left. repeat split; lia.
      * right. repeat split; auto. discriminate.
    + destruct (Z.ltb_spec (d_n d) 0); [lia|].
      set (room := if (d_n d <? Z.of_nat lenb)%Z then Z.to_nat (d_n d) else lenb) in H.
      assert (Hroom : 1 <= room /\ (Z.of_nat room <= d_n d)%Z)
        by (unfold room; destruct (Z.ltb_spec (d_n d) (Z.of_nat lenb)); lia).
      destruct (dr_loop (dr_fuel t room) (d_state d) t room) as [[[o1 e1] q1] t1] eqn:Hloop.
      pose proof (dr_loop_length _ _ _ _ _ _ _ _ Hloop). inversion H; subst.
      exists room, o, e1. split; [lia|]. split; [exact Hloop|].
      cbn. left. repeat split; lia.
  - destruct (dr_loop (dr_fuel t lenb) (d_state d) t lenb) as [[[o1 e1] q1] t1] eqn:Hloop.
    inversion H; subst. exists lenb, o, e1. split; [exact Hl|]. split; [exact Hloop|].
    cbn. left. repeat split. discriminate.
Qed.

(* a loop run, with "if err == nil && r.state == stateEOF { err = io.EOF }" *)
Lemma read_of_loop d t room o e t' d' :
  transparent t -> 1 <= room ->
  dr_loop (dr_fuel t room) (d_state d) t room = (o, e, d_state d', t') ->
  charged d o d' ->
  outcome d t o d' t' (eof_fix e (d_state d')) /\
  (eof_fix e (d_state d') = None -> 1 <= List.length o).
Proof.
  intros Htr Hr Hloop Hc. pose proof (tstream_avail t) as Hav.
  apply dr_loop_spec in Hloop; [|exact Htr|unfold dr_fuel; lia].
  destruct e as [err|]; cbn [eof_fix loop_outcome] in *.
  - destruct Hloop as (-> & F & _). split; [apply O_fail; assumption|discriminate].
  - destruct Hloop as (A & L). destruct (dstate_eqb (d_state d') SEOF) eqn:Eq.
    + apply dstate_eqb_spec in Eq. split; [apply O_eof; assumption|discriminate].
    + split; [apply O_more; assumption|]. intros _.
      destruct L as [L|L]; [lia|]. rewrite L in Eq. discriminate.
Qed.

Lemma dr_read_spec d t lenb o e d' t' :
  transparent t -> 0 < lenb -> budget_ok d ->
  dr_read d t lenb = (o, e, d', t') ->
  outcome d t o d' t' e /\ (e = None -> 1 <= List.length o).
Proof.
  intros Htr Hl Hb H.
  destruct (dr_read_loop _ _ _ _ _ _ _ Hl Hb H)
    as (room & o1 & e1 & Hr & Hloop & [(-> & -> & C)|(-> & Hne & -> & -> & Hlim & Hn & Hn')]).
  - exact (read_of_loop _ _ _ _ _ _ _ Htr Hr Hloop C).
  - (* the probe: one octet and no failure, since a failure leaves room *)
    split; [|discriminate].
    pose proof (tstream_avail t) as Hav. pose proof (dr_loop_length _ _ _ _ _ _ _ _ Hloop) as Hlen.
    apply dr_loop_spec in Hloop; [|exact Htr|unfold dr_fuel; lia].
    destruct o1 as [|x [|]]; [contradiction| |cbn in Hlen; lia].
    destruct e1 as [err|]; [cbn in Hloop; lia|].
    apply (O_large _ _ _ _ _ x); auto; apply Hloop.
Qed.

Lemma pos_size_pos n : 0 < pos_size n.
Proof. destruct n; cbn; lia. Qed.

(* [got]: octets the backend already holds (they count for its stopping
   rule).  Fuel: every Read without error hands out at least one of the
   octets still owed. *)
Lemma be_read_spec fuel :
  forall sizes cur stop got d t out e d' t',
    transparent t -> budget_ok d -> blength (spec_of (d_state d) (tstream t)) + 1 < fuel ->
    be_read fuel sizes cur stop got d t = (out, e, d', t') ->
    exists o, out = got ++ o /\ outcome d t o d' t' e /\
              (e = None -> exists k, stop = Some k /\ (k <= blen out)%N).
Proof.
  induction fuel as [|fuel IH]; intros sizes cur stop got d t out e d' t' Htr Hb Hf H; [lia|].
  cbn [be_read] in H.
  destruct (match stop with Some k => (k <=? blen got)%N | None => false end) eqn:Estop.
  { inversion H; subst out e d' t'; clear H. exists []. rewrite app_nil_r.
    split; [reflexivity|]. split; [apply O_more; [apply adv_refl, Htr|apply charged_nil, Hb]|].
    destruct stop as [k|]; [|discriminate]. apply N.leb_le in Estop. eauto. }
  destruct (next_size sizes cur) as [sz cur'].
  destruct (dr_read d t (pos_size sz)) as [[[o1 e1] d1] t1] eqn:Hrd.
  destruct (dr_read_spec _ _ _ _ _ _ _ Htr (pos_size_pos sz) Hb Hrd) as [Hro Hpos].
  destruct e1 as [err|].
  - inversion H; subst out e d' t'; clear H. exists o1.
    split; [reflexivity|]. split; [exact Hro|discriminate].
  - specialize (Hpos eq_refl). inversion Hro as [A C| | |]; subst.
    pose proof A as [E (Htr1 & _)]. rewrite E, blength_prepend in Hf.
    destruct (IH sizes cur' stop (got ++ o1) d1 t1 out e d' t' Htr1 (proj2 (proj2 C)))
      as (o2 & Ho & Hrs & Hstop); [lia|exact H|].
    exists (o1 ++ o2). split; [rewrite Ho, app_assoc; reflexivity|].
    split; [eapply outcome_after; eauto|exact Hstop].
Qed.

Lemma budget_ok_new mx : budget_ok (new_data_reader mx).
Proof.
  unfold budget_ok, new_data_reader. destruct (0 <? mx)%Z eqn:E; cbn; intros H; [|discriminate].
  apply Z.ltb_lt in E. lia.
Qed.

(* everything a backend can observe, from any reader state, for every
   schedule, read sizes and stopping point *)
Theorem backend_reads_spec (sizes : list nat) (stop : option N) (d : dreader) (t : transport) :
  transparent t -> budget_ok d ->
  let '(out, e, d', t') := backend_reads sizes stop d t in
  outcome d t out d' t' e /\ (e = None -> exists k, stop = Some k /\ (k <= blen out)%N).
Proof.
  intros Htr Hb. unfold backend_reads.
  destruct (be_read (be_fuel t) sizes [] stop [] d t) as [[[out e] d'] t'] eqn:H.
  destruct (be_read_spec _ _ _ _ _ _ _ _ _ _ _ Htr Hb (owed_fuel _ t) H) as (o & -> & Hrs).
  exact Hrs.
Qed.

(* C01: the DATA body reaches the backend byte-exact *)
Theorem data_byte_exact (t : transport) (sizes : list nat) :
  transparent t ->
  let '(out, e, d', t') := backend_reads sizes None (new_data_reader 0) t in
  match unstuff (tstream t) with
  | Complete body rest =>
      out = body /\ e = Some REOF /\ tstream t' = rest /\ transparent t' /\
      tterm t' = tterm t /\ t_limit t' = t_limit t
  | Incomplete body =>
      e = Some (rerr_of_terr (tterm t)) /\
      exists w, body = out ++ w /\ List.length w <= 1
  end.
Proof.
  intros Htr. pose proof (backend_reads_spec sizes None _ t Htr (budget_ok_new 0)) as H.
  destruct (backend_reads sizes None (new_data_reader 0) t) as [[[out e] d'] t'].
  change (unstuff (tstream t)) with (spec_of (d_state (new_data_reader 0)) (tstream t)).
  destruct H as [[A _|[A (T & L & M & _)] Q _|x Hl|(_ & A & _) _] Hstop].
  - destruct (Hstop eq_refl) as (k & X & _). discriminate.
  - rewrite A, Q. cbn. rewrite app_nil_r. auto 7.
  - discriminate.
  - rewrite A. cbn. split; [reflexivity|]. eexists; split; [reflexivity|].
    destruct (d_state d'); cbn; lia.
Qed.
