(* Proofs for property C13: the status collector of Lmtp.v (sequential) and
   the two-task model of LmtpConc.v (all interleavings) against the direct
   specification LmtpSpec.v.

   Both models meet the specification for the same reason.  A list of
   statuses [out] is determined by its recipients [map fst out] and, for each
   address a, the statuses it holds for a, [calls_for a out] (sent_expected).
   A channel is a FIFO: what was sent on a's channel is what has been
   received for a followed by what is still buffered.  So it is enough to say
   what was sent on each channel; when the receptions happen does not matter. *)
From Smtp Require Import Bytes Reply Lmtp LmtpSpec LmtpConc.

Lemma bytes_eqb_spec a b : reflect (a = b) (bytes_eqb a b).
Proof. apply iff_reflect. symmetry. apply bytes_eqb_eq. Qed.

Lemma count_addr_nil a : count_addr a [] = 0.
Proof. reflexivity. Qed.

Lemma count_addr_cons a b l :
  count_addr a (b :: l) = (if bytes_eqb a b then 1 else 0) + count_addr a l.
Proof. unfold count_addr. cbn [filter]. destruct (bytes_eqb a b); reflexivity. Qed.

Lemma count_addr_app a l1 l2 : count_addr a (l1 ++ l2) = count_addr a l1 + count_addr a l2.
Proof. unfold count_addr. rewrite filter_app, app_length. reflexivity. Qed.

Lemma count_addr_in a l : In a l <-> 0 < count_addr a l.
Proof.
  induction l as [|b l IH].
  - cbn. split; [tauto | lia].
  - rewrite count_addr_cons. cbn [In]. destruct (bytes_eqb_spec a b) as [->|Hne].
    + split; [lia | auto].
    + rewrite IH. split; [intros [H|H]; [congruence | lia] | intros H; right; lia].
Qed.

Lemma calls_for_nil a : calls_for a [] = [].
Proof. reflexivity. Qed.

Lemma calls_for_cons a b e l :
  calls_for a ((b, e) :: l) = if bytes_eqb a b then e :: calls_for a l else calls_for a l.
Proof. unfold calls_for. cbn [filter fst]. destruct (bytes_eqb a b); reflexivity. Qed.

Lemma calls_for_app a l1 l2 : calls_for a (l1 ++ l2) = calls_for a l1 ++ calls_for a l2.
Proof. unfold calls_for. rewrite filter_app, map_app. reflexivity. Qed.

Lemma calls_for_length a l : List.length (calls_for a l) = count_addr a (map fst l).
Proof.
  induction l as [|[b e] l IH]; [reflexivity|].
  rewrite calls_for_cons. cbn [map fst]. rewrite count_addr_cons.
  destruct (bytes_eqb a b); cbn [List.length]; lia.
Qed.

Lemma calls_for_fill a e l : calls_for a (map (fun b => (b, e)) l) = repeat e (count_addr a l).
Proof.
  induction l as [|b l IH]; [reflexivity|].
  cbn [map]. rewrite calls_for_cons, count_addr_cons, IH. destruct (bytes_eqb a b); reflexivity.
Qed.

Lemma assign_app pick seen d t :
  assign pick seen (d ++ t) = assign pick seen d ++ assign pick (seen ++ d) t.
Proof.
  revert seen; induction d as [|a d IH]; intros seen; cbn [assign app].
  - rewrite app_nil_r. reflexivity.
  - rewrite IH, <- app_assoc. reflexivity.
Qed.

Lemma assign_names pick seen rcpts : map fst (assign pick seen rcpts) = rcpts.
Proof.
  revert seen; induction rcpts as [|a r IH]; intros seen; cbn [assign map fst]; [reflexivity|].
  rewrite IH. reflexivity.
Qed.

Lemma assign_length pick seen rcpts : List.length (assign pick seen rcpts) = List.length rcpts.
Proof. rewrite <- (assign_names pick seen rcpts) at 2. rewrite map_length. reflexivity. Qed.

Lemma expected_names rcpts calls ret : map fst (expected_statuses rcpts calls ret) = rcpts.
Proof. apply assign_names. Qed.

Lemma assign_calls_for pick d out :
  (forall a k, k < List.length (calls_for a out) -> pick a k = nth k (calls_for a out) d) ->
  assign pick [] (map fst out) = out.
Proof.
  induction out as [|[a e] out IH] using rev_ind; intros H; [reflexivity|].
  rewrite map_app, assign_app. cbn [map fst assign app]. f_equal.
  - apply IH. intros b k Hk. rewrite H, calls_for_app by (rewrite calls_for_app, app_length; lia).
    apply app_nth1. exact Hk.
  - rewrite <- calls_for_length, H, calls_for_app, calls_for_cons, bytes_eqb_refl, nth_middle.
    + reflexivity.
    + rewrite calls_for_app, calls_for_cons, bytes_eqb_refl, app_length. cbn [List.length]. lia.
Qed.

Lemma nth_app_repeat (l : list berr) e n k : nth k (l ++ repeat e n) e = nth k l e.
Proof.
  destruct (Nat.lt_ge_cases k (List.length l)) as [L|G]; [apply app_nth1; exact L|].
  rewrite app_nth2, (nth_overflow l) by exact G. apply nth_repeat.
Qed.

Lemma sent_expected rcpts pre e out :
  map fst out = rcpts ->
  (forall a, exists n rest, calls_for a pre ++ repeat e n = calls_for a out ++ rest) ->
  out = expected_statuses rcpts pre e.
Proof.
  intros <- H. symmetry. apply (assign_calls_for _ e). intros a k Hk.
  destruct (H a) as (n & rest & E). unfold status_of.
  rewrite <- (nth_app_repeat _ e n), E. apply app_nth1. exact Hk.
Qed.

(* The collector seen as a capacity and a queue per address.  SetStatus and
   the receive act on the first entry for an address, the one [coll_get]
   finds, so nothing has to be said about the keys being distinct. *)
Fixpoint coll_get (a : bytes) (c : collector) : option (nat * list berr) :=
  match c with
  | [] => None
  | (a', nq) :: r => if bytes_eqb a a' then Some nq else coll_get a r
  end.
Definition cap (a : bytes) (c : collector) : nat :=
  match coll_get a c with Some (n, _) => n | None => 0 end.
Definition que (a : bytes) (c : collector) : list berr :=
  match coll_get a c with Some (_, q) => q | None => [] end.

Lemma cap_cons b a n q r : cap b ((a, (n, q)) :: r) = if bytes_eqb b a then n else cap b r.
Proof. unfold cap. cbn [coll_get]. destruct (bytes_eqb b a); reflexivity. Qed.

Lemma que_cons b a n q r : que b ((a, (n, q)) :: r) = if bytes_eqb b a then q else que b r.
Proof. unfold que. cbn [coll_get]. destruct (bytes_eqb b a); reflexivity. Qed.

Lemma room_cons a n q r : room ((a, (n, q)) :: r) = n - List.length q + room r.
Proof. reflexivity. Qed.

Lemma coll_add_rcpt_view a c b :
  cap b (coll_add_rcpt a c) = (if bytes_eqb b a then 1 else 0) + cap b c /\
  que b (coll_add_rcpt a c) = que b c.
Proof.
  induction c as [|[a' [n q]] r IH]; cbn [coll_add_rcpt].
  - rewrite cap_cons, que_cons. destruct (bytes_eqb b a); split; reflexivity.
  - destruct (bytes_eqb_spec a a') as [->|Hne]; rewrite !cap_cons, !que_cons.
    + destruct (bytes_eqb b a'); split; reflexivity.
    + destruct (bytes_eqb_spec b a') as [->|]; [|exact IH].
      destruct (bytes_eqb_spec a' a); [congruence | split; reflexivity].
Qed.

Lemma room_coll_add_rcpt a c : room (coll_add_rcpt a c) <= S (room c).
Proof.
  induction c as [|[a' [n q]] r IH]; cbn [coll_add_rcpt]; [cbn; lia|].
  destruct (bytes_eqb a a'); rewrite !room_cons; lia.
Qed.

Lemma mk_collector_view rcpts :
  (forall b, cap b (mk_collector rcpts) = count_addr b rcpts /\ que b (mk_collector rcpts) = []) /\
  room (mk_collector rcpts) <= List.length rcpts.
Proof.
  unfold mk_collector. induction rcpts as [|a r [IHv IHr]] using rev_ind; [repeat split; cbn; lia|].
  rewrite fold_left_app, app_length. cbn [fold_left List.length]. split.
  - intros b. destruct (coll_add_rcpt_view a (fold_left (fun c a => coll_add_rcpt a c) r []) b) as [-> ->].
    destruct (IHv b) as [-> ->]. rewrite count_addr_app, count_addr_cons, count_addr_nil. split; [lia | reflexivity].
  - pose proof (room_coll_add_rcpt a (fold_left (fun c a => coll_add_rcpt a c) r [])). lia.
Qed.

Lemma mk_collector_cap rcpts a : cap a (mk_collector rcpts) = count_addr a rcpts.
Proof. apply mk_collector_view. Qed.

Lemma mk_collector_que rcpts a : que a (mk_collector rcpts) = [].
Proof. apply mk_collector_view. Qed.

Lemma set_status_spec a e c :
  match set_status a e c with
  | Some c' => List.length (que a c) < cap a c /\
               (forall b, cap b c' = cap b c) /\
               (forall b, que b c' = que b c ++ calls_for b [(a, e)]) /\
               S (room c') = room c
  | None => cap a c <= List.length (que a c)
  end.
Proof.
  induction c as [|[a' [n q]] r IH]; cbn [set_status]; [cbn; lia|].
  rewrite cap_cons, que_cons. destruct (bytes_eqb_spec a a') as [->|Hne].
  - destruct (Nat.ltb_spec (List.length q) n) as [L|G]; [|exact G].
    split; [exact L|]. split; [|split].
    + intros b. rewrite !cap_cons. reflexivity.
    + intros b. rewrite !que_cons, calls_for_cons.
      destruct (bytes_eqb b a'); [reflexivity | symmetry; apply app_nil_r].
    + rewrite !room_cons, app_length. cbn [List.length]. lia.
  - destruct (set_status a e r) as [c'|]; [|exact IH]. cbn [option_map].
    destruct IH as (L & Hc & Hq & Hr). split; [exact L|]. split; [|split].
    + intros b. rewrite !cap_cons, Hc. reflexivity.
    + intros b. rewrite !que_cons, Hq, calls_for_cons.
      destruct (bytes_eqb_spec b a') as [->|]; [|reflexivity].
      destruct (bytes_eqb_spec a' a); [congruence | symmetry; apply app_nil_r].
    + rewrite !room_cons. lia.
Qed.

Lemma pop_status_spec a c :
  match pop_status a c with
  | Some (e, c') => (forall b, cap b c' = cap b c) /\
                    (forall b, que b c = calls_for b [(a, e)] ++ que b c') /\
                    room c' <= S (room c)
  | None => que a c = []
  end.
Proof.
  induction c as [|[a' [n q]] r IH]; cbn [pop_status]; [reflexivity|].
  rewrite que_cons. destruct (bytes_eqb_spec a a') as [->|Hne].
  - destruct q as [|e q']; [reflexivity|]. split; [|split].
    + intros b. rewrite !cap_cons. reflexivity.
    + intros b. rewrite !que_cons, calls_for_cons. destruct (bytes_eqb b a'); reflexivity.
    + rewrite !room_cons. cbn [List.length]. lia.
  - destruct (pop_status a r) as [[e c']|]; [|exact IH].
    destruct IH as (Hc & Hq & Hr). split; [|split].
    + intros b. rewrite !cap_cons, Hc. reflexivity.
    + intros b. rewrite !que_cons, Hq, calls_for_cons.
      destruct (bytes_eqb_spec b a') as [->|]; [|reflexivity].
      destruct (bytes_eqb_spec a' a); [congruence | reflexivity].
    + rewrite !room_cons. lia.
Qed.

Lemma fill_remaining_get e c a :
  coll_get a (fill_remaining e c) =
  match coll_get a c with
  | Some (n, q) => Some (n, q ++ repeat e (n - List.length q))
  | None => None
  end.
Proof.
  unfold fill_remaining. induction c as [|[a' [n q]] r IH]; cbn [map coll_get]; [reflexivity|].
  destruct (bytes_eqb a a'); [reflexivity | exact IH].
Qed.

Lemma fill_remaining_cap e c a : cap a (fill_remaining e c) = cap a c.
Proof. unfold cap. rewrite fill_remaining_get. destruct (coll_get a c) as [[n q]|]; reflexivity. Qed.

Lemma fill_remaining_que e c a :
  que a (fill_remaining e c) = que a c ++ repeat e (cap a c - List.length (que a c)).
Proof.
  unfold que, cap. rewrite fill_remaining_get. destruct (coll_get a c) as [[n q]|]; reflexivity.
Qed.

Lemma emit_statuses_sent rcpts : forall c,
  (forall a, count_addr a rcpts <= List.length (que a c)) ->
  map fst (emit_statuses rcpts c) = rcpts /\
  forall a, exists rest, que a c = calls_for a (emit_statuses rcpts c) ++ rest.
Proof.
  induction rcpts as [|a r IH]; intros c H; cbn [emit_statuses].
  - split; [reflexivity|]. intros a. exists (que a c). reflexivity.
  - pose proof (pop_status_spec a c) as P. destruct (pop_status a c) as [[e c']|].
    + destruct P as (_ & Hq & _). destruct (IH c') as [Hn Hr].
      { intros b. specialize (H b).
        rewrite Hq, app_length, calls_for_length in H. cbn [map fst] in H.
        rewrite !count_addr_cons, count_addr_nil in H. lia. }
      cbn [map fst]. rewrite Hn. split; [reflexivity|].
      intros b. destruct (Hr b) as [rest E]. exists rest.
      rewrite Hq, E, app_assoc, <- calls_for_app. reflexivity.
    + specialize (H a). rewrite P, count_addr_cons, bytes_eqb_refl in H. cbn in H. lia.
Qed.

Lemma contract_ok_iff rcpts calls :
  contract_ok rcpts calls = true <->
  forall a, List.length (calls_for a calls) <= count_addr a rcpts.
Proof.
  unfold contract_ok. rewrite forallb_forall. split.
  - intros H a. destruct (Nat.eq_dec (List.length (calls_for a calls)) 0) as [E|E]; [lia|].
    assert (Hin : In a (map fst calls)) by (apply count_addr_in; rewrite <- calls_for_length; lia).
    apply in_map_iff in Hin as (x & <- & Hin). apply H in Hin.
    apply andb_true_iff in Hin as [_ Hin]. apply Nat.leb_le. exact Hin.
  - intros H x Hin. apply andb_true_iff. split; [|apply Nat.leb_le, H].
    apply existsb_exists. exists (fst x). split; [|apply bytes_eqb_refl].
    apply count_addr_in. specialize (H (fst x)).
    apply (in_map fst), count_addr_in in Hin. rewrite <- calls_for_length in Hin. lia.
Qed.

Lemma ok_calls_from_prefix rcpts calls : forall seen,
  exists post, calls = ok_calls_from rcpts seen calls ++ post.
Proof.
  induction calls as [|[a e] r IH]; intros seen; cbn [ok_calls_from].
  - exists []. reflexivity.
  - destruct (count_addr a seen <? count_addr a rcpts).
    + destruct (IH (seen ++ [a])) as [post Hp]. exists post. cbn [app]. rewrite <- Hp. reflexivity.
    + eexists. reflexivity.
Qed.

(* the subtraction is truncated: an address without calls imposes nothing on [seen] *)
Lemma ok_calls_from_contract rcpts calls : forall seen,
  ok_calls_from rcpts seen calls = calls <->
  forall a, List.length (calls_for a calls) <= count_addr a rcpts - count_addr a seen.
Proof.
  induction calls as [|[a e] r IH]; intros seen; cbn [ok_calls_from].
  - split; [intros _ b; cbn; lia | reflexivity].
  - destruct (Nat.ltb_spec (count_addr a seen) (count_addr a rcpts)) as [L|G].
    + assert (Hb : forall b,
        List.length (calls_for b r) <= count_addr b rcpts - count_addr b (seen ++ [a]) <->
        List.length (calls_for b ((a, e) :: r)) <= count_addr b rcpts - count_addr b seen).
      { intros b. rewrite count_addr_app, count_addr_cons, count_addr_nil, calls_for_cons.
        destruct (bytes_eqb_spec b a) as [->|]; cbn [List.length]; lia. }
      split.
      * intros H b. injection H as H. apply Hb, IH, H.
      * intros H. f_equal. apply IH. intros b. apply Hb, H.
    + split; [discriminate|]. intros H. specialize (H a).
      rewrite calls_for_cons, bytes_eqb_refl in H. cbn [List.length] in H. lia.
Qed.

Lemma contract_ok_ok_calls rcpts calls :
  contract_ok rcpts calls = true <-> ok_calls rcpts calls = calls.
Proof.
  unfold ok_calls. rewrite contract_ok_iff, ok_calls_from_contract.
  split; intros H a; specialize (H a); rewrite count_addr_nil, Nat.sub_0_r in *; exact H.
Qed.

Lemma ok_calls_length_contract rcpts calls :
  (List.length (ok_calls rcpts calls) =? List.length calls) = contract_ok rcpts calls.
Proof.
  apply Bool.eq_true_iff_eq. rewrite Nat.eqb_eq, contract_ok_ok_calls. split; [|congruence].
  intros H. destruct (ok_calls_from_prefix rcpts calls []) as [post Hp].
  fold (ok_calls rcpts calls) in Hp. pose proof (f_equal (@List.length _) Hp) as Hl.
  rewrite app_length in Hl. destruct post; [rewrite app_nil_r in Hp; congruence | cbn in Hl; lia].
Qed.

(* [pre] can be the calls that took effect in a delivery that ends with flag
   [p] (true: errPanic is handed out and the connection closed) *)
Definition took (rcpts : list bytes) (calls : list (bytes * berr)) (panic : bool)
           (pre : list (bytes * berr)) (p : bool) : Prop :=
  (exists post, calls = pre ++ post) /\
  (p = false -> pre = calls /\ panic = false) /\
  (contract_ok rcpts calls = true -> pre = calls /\ p = panic).

(* Statuses [out] and flag [p] are a possible outcome of the transaction: the
   specified statuses for the calls that took effect, the others getting the
   return value or errPanic.  The sequential collector and every finished run
   of the two tasks are of this form, and the oracle accepts whatever is
   (CheckLmtpProofs.oracle_core_accepts). *)
Definition outcome (rcpts : list bytes) (calls : list (bytes * berr)) (ret : berr) (panic : bool)
           (out : list (bytes * berr)) (p : bool) : Prop :=
  exists pre, took rcpts calls panic pre p /\
              out = expected_statuses rcpts pre (if p then err_panic else ret).

Lemma outcome_contract rcpts calls ret panic out p :
  contract_ok rcpts calls = true -> outcome rcpts calls ret panic out p ->
  p = panic /\ out = expected_statuses rcpts calls (if panic then err_panic else ret).
Proof. intros Hok (pre & (_ & _ & H) & Ho). destruct (H Hok) as [<- <-]. auto. Qed.

Lemma run_statuses_spec rcpts calls : forall seen c,
  (forall a, cap a c = count_addr a rcpts) ->
  (forall a, List.length (que a c) = count_addr a seen) ->
  exists c',
    run_statuses calls c =
      (c', negb (List.length (ok_calls_from rcpts seen calls) =? List.length calls)) /\
    (forall a, cap a c' = count_addr a rcpts) /\
    (forall a, que a c' = que a c ++ calls_for a (ok_calls_from rcpts seen calls)).
Proof.
  induction calls as [|[a e] r IH]; intros seen c Hc Hq; cbn [run_statuses ok_calls_from].
  - exists c. repeat split; [exact Hc|]. intros a. symmetry. apply app_nil_r.
  - pose proof (set_status_spec a e c) as Hsend. rewrite Hc, Hq in Hsend.
    (* the call succeeds iff it does not exceed the occurrences of a *)
    destruct (Nat.ltb_spec (count_addr a seen) (count_addr a rcpts)) as [L|G];
      destruct (set_status a e c) as [c1|]; try lia.
    + destruct Hsend as (_ & Hc1 & Hq1 & _).
      destruct (IH (seen ++ [a]) c1) as (c' & Hr & Hc' & Hq').
      { intros b. rewrite Hc1. apply Hc. }
      { intros b. rewrite Hq1, app_length, Hq, calls_for_length, count_addr_app. reflexivity. }
      exists c'. repeat split; [exact Hr | exact Hc' |].
      intros b. rewrite Hq', Hq1, <- app_assoc, <- calls_for_app. reflexivity.
    + exists c. repeat split; [exact Hc|]. intros b. symmetry. apply app_nil_r.
Qed.

Lemma emit_fill rcpts okc fv c :
  (forall a, cap a c = count_addr a rcpts) ->
  (forall a, que a c = calls_for a okc) ->
  emit_statuses rcpts (fill_remaining fv c) = expected_statuses rcpts okc fv.
Proof.
  intros Hc Hq. destruct (emit_statuses_sent rcpts (fill_remaining fv c)) as [Hn Hr].
  { intros a. rewrite fill_remaining_que, app_length, repeat_length, Hc. lia. }
  apply sent_expected; [exact Hn|]. intros a. destruct (Hr a) as [rest E].
  exists (cap a c - List.length (que a c)), rest. rewrite <- E, fill_remaining_que, Hq. reflexivity.
Qed.

Lemma run_statuses_mk rcpts calls :
  exists c', run_statuses calls (mk_collector rcpts) = (c', negb (contract_ok rcpts calls)) /\
    forall fv, emit_statuses rcpts (fill_remaining fv c') = expected_statuses rcpts (ok_calls rcpts calls) fv.
Proof.
  destruct (run_statuses_spec rcpts calls [] (mk_collector rcpts)) as (c' & Hr & Hc & Hq).
  { apply mk_collector_cap. }
  { intros a. rewrite mk_collector_que. reflexivity. }
  fold (ok_calls rcpts calls) in Hr, Hq. rewrite ok_calls_length_contract in Hr.
  exists c'. split; [exact Hr|]. intros fv. apply emit_fill; [exact Hc|].
  intros a. rewrite Hq, mk_collector_que. reflexivity.
Qed.

(* What the collector hands out, for ALL recipient lists, call lists, return
   values: the calls before the first contract violation take effect, the
   rest is filled with the return value, or with errPanic after a panic; a
   panic is reported iff the backend panicked or broke the contract. *)
Theorem lmtp_statuses_spec rcpts calls ret panic :
  lmtp_statuses rcpts calls ret panic =
  let p := panic || negb (contract_ok rcpts calls) in
  (expected_statuses rcpts (ok_calls rcpts calls) (if p then err_panic else ret), p).
Proof.
  unfold lmtp_statuses. destruct (run_statuses_mk rcpts calls) as (c' & -> & He).
  cbv zeta. rewrite (orb_comm panic).
  destruct (negb (contract_ok rcpts calls) || panic); rewrite He; reflexivity.
Qed.

Lemma took_ok_calls rcpts calls panic :
  took rcpts calls panic (ok_calls rcpts calls) (panic || negb (contract_ok rcpts calls)).
Proof.
  split; [apply ok_calls_from_prefix|]. split.
  - intros H. apply orb_false_iff in H as [H1 H2]. apply negb_false_iff, contract_ok_ok_calls in H2. auto.
  - intros H. rewrite H, orb_false_r. apply contract_ok_ok_calls in H. auto.
Qed.

Theorem lmtp_statuses_outcome rcpts calls ret panic :
  outcome rcpts calls ret panic (fst (lmtp_statuses rcpts calls ret panic))
          (snd (lmtp_statuses rcpts calls ret panic)).
Proof.
  rewrite lmtp_statuses_spec. exists (ok_calls rcpts calls). split; [apply took_ok_calls | reflexivity].
Qed.

(* always one status per recipient, in RCPT order, each naming its recipient:
   the emission never finds an empty channel *)
Theorem lmtp_statuses_total rcpts calls ret panic :
  map fst (fst (lmtp_statuses rcpts calls ret panic)) = rcpts /\
  snd (lmtp_statuses rcpts calls ret panic) = (panic || negb (contract_ok rcpts calls)) /\
  (panic || negb (contract_ok rcpts calls) = true ->
   fst (lmtp_statuses rcpts calls ret panic) =
   expected_statuses rcpts (ok_calls rcpts calls) err_panic) /\
  (panic || negb (contract_ok rcpts calls) = false ->
   fst (lmtp_statuses rcpts calls ret panic) = expected_statuses rcpts calls ret).
Proof.
  rewrite lmtp_statuses_spec. cbv zeta. cbn [fst snd]. repeat split.
  - apply expected_names.
  - intros H. rewrite H. reflexivity.
  - intros H. rewrite H. apply orb_false_iff in H as [_ H]. apply negb_false_iff in H.
    apply contract_ok_ok_calls in H. rewrite H. reflexivity.
Qed.

Lemma plain_statuses_expected rcpts ret : plain_statuses rcpts ret = expected_statuses rcpts [] ret.
Proof.
  apply sent_expected; [unfold plain_statuses; rewrite map_map; apply map_id|].
  intros a. exists (count_addr a rcpts), []. rewrite app_nil_r. symmetry. apply calls_for_fill.
Qed.

(* the share of [work] that a send on a channel can change *)
Definition core_work (s : cstate) : nat :=
  3 * List.length (cs_todo s) + room (cs_coll s) + (if cs_parked s then 0 else 1).

(* everything sent so far on a's channel, oldest first: what the handler
   has received for a, then what is buffered *)
Definition sent (s : cstate) (a : bytes) : list berr :=
  calls_for a (cs_out s) ++ que a (cs_coll s).

Record Core (rcpts : list bytes) (s : cstate) : Prop := {
  co_rcpts : rcpts = map fst (cs_out s) ++ cs_todo s;
  co_cap : forall a, cap a (cs_coll s) = count_addr a rcpts;
  co_parked : cs_parked s = true ->
              match cs_todo s with a :: _ => que a (cs_coll s) = [] | [] => False end
}.

Lemma Core_set_del rcpts s d : Core rcpts s -> Core rcpts (set_del s d).
Proof. intros [H1 H2 H3]. constructor; assumption. Qed.

(* [s'] is [s] after a send of e on a's channel: the value joins what was
   sent on the channel, whether it was buffered or handed to the handler *)
Definition sends (a : bytes) (e : berr) (s s' : cstate) : Prop :=
  cs_del s' = cs_del s /\ cs_fin s' = cs_fin s /\ core_work s' < core_work s /\
  (forall rcpts, Core rcpts s -> Core rcpts s' /\ forall b, sent s' b = sent s b ++ calls_for b [(a, e)]).

Lemma send_buffered a e s :
  (forall r, cs_todo s = a :: r -> cs_parked s = false) ->
  match option_map (set_coll s) (set_status a e (cs_coll s)) with
  | Some s' => sends a e s s'
  | None => cap a (cs_coll s) <= List.length (que a (cs_coll s))
  end.
Proof.
  intros Hno. pose proof (set_status_spec a e (cs_coll s)) as Hset.
  destruct (set_status a e (cs_coll s)) as [c'|]; [|exact Hset]. destruct Hset as (_ & Hc & Hq & Hr).
  split; [reflexivity|]. split; [reflexivity|].
  split; [unfold core_work; cbn [set_coll cs_todo cs_coll cs_parked]; lia|].
  intros rcpts [H1 H2 H3]. split.
  - constructor; cbn [set_coll cs_todo cs_coll cs_parked cs_out]; [exact H1 | intros b; rewrite Hc; apply H2 |].
    intros Hp. specialize (H3 Hp). destruct (cs_todo s) as [|a' r]; [exact H3|].
    rewrite Hq, H3, calls_for_cons. destruct (bytes_eqb_spec a' a) as [->|]; [|reflexivity].
    rewrite (Hno r eq_refl) in Hp. discriminate.
  - intros b. unfold sent. cbn [set_coll cs_coll cs_out]. rewrite Hq. apply app_assoc.
Qed.

Lemma chan_send_spec a e s :
  match chan_send a e s with
  | Some s' => sends a e s s'
  | None => cap a (cs_coll s) <= List.length (que a (cs_coll s))
  end.
Proof.
  unfold chan_send.
  destruct (cs_todo s) as [|a' r] eqn:Et; [|destruct (cs_parked s && bytes_eqb a a') eqn:Ep].
  - apply send_buffered. intros r. rewrite Et. discriminate.
  - (* hand-off: the handler is parked on a's channel, which is empty *)
    apply andb_true_iff in Ep as [Ep Ea]. apply bytes_eqb_eq in Ea. subst a'.
    split; [reflexivity|]. split; [reflexivity|]. split.
    + unfold core_work. cbn [cs_todo cs_coll cs_parked]. rewrite Et, Ep. cbn [List.length]. lia.
    + intros rcpts [H1 H2 H3]. specialize (H3 Ep). rewrite Et in H1, H3. split.
      * constructor; cbn [cs_todo cs_coll cs_parked cs_out]; [|exact H2|discriminate].
        rewrite map_app, <- app_assoc. exact H1.
      * intros b. unfold sent. cbn [cs_coll cs_out]. rewrite calls_for_app, <- !app_assoc. f_equal.
        rewrite calls_for_cons. destruct (bytes_eqb_spec b a) as [->|]; [rewrite H3; reflexivity | symmetry; apply app_nil_r].
  - apply send_buffered. intros r'. rewrite Et. intros [= <- <-].
    rewrite bytes_eqb_refl, andb_true_r in Ep. exact Ep.
Qed.

Section Conc.
  Variable rcpts : list bytes.
  Variable calls : list (bytes * berr).
  Variable ret : berr.
  Variable panic : bool.
  Variable ord : list bytes.

  Notation del_step := (del_step ret panic ord).
  Notation step := (step ret panic ord).
  Notation run := (run ret panic ord).
  Notation work := (work ord).
  Notation took := (took rcpts calls panic).
  Notation Core := (Core rcpts).

  Lemma del_step_progress s : del_done s = false -> work (del_step s) < work s.
  Proof.
    unfold del_done, LmtpConc.del_step, LmtpConc.work, finished. intros Hd.
    destruct (cs_del s) as [[|[a e] l]|[|a o] e p|p] eqn:Ed; try discriminate.
    - destruct panic; cbn [set_del cs_del cs_todo cs_coll cs_parked cs_fin]; lia.
    - pose proof (chan_send_spec a e s) as Hsend. destruct (chan_send a e s) as [s'|].
      + destruct Hsend as (_ & Hf & Hw & _). unfold core_work in Hw.
        cbn [set_del cs_del cs_todo cs_coll cs_parked cs_fin List.length]. rewrite Hf. lia.
      + cbn [set_del cs_del cs_todo cs_coll cs_parked cs_fin List.length]. lia.
    - cbn [set_del cs_del cs_todo cs_coll cs_parked cs_fin List.length]. lia.
    - pose proof (chan_send_spec a e s) as Hsend. destruct (chan_send a e s) as [s'|].
      + destruct Hsend as (Hd' & Hf & Hw & _). unfold core_work in Hw. rewrite Hd', Hf, Ed. lia.
      + cbn [set_del cs_del cs_todo cs_coll cs_parked cs_fin List.length]. lia.
  Qed.

  Lemma del_step_done s : del_done s = true -> del_step s = s.
  Proof.
    unfold del_done, LmtpConc.del_step. destruct (cs_del s) as [l|o e p|p]; try discriminate. reflexivity.
  Qed.

  Lemma han_step_work s :
    work (han_step s) < work s \/
    han_step s = s /\ (finished s = true \/ cs_todo s = [] /\ del_done s = false \/ cs_parked s = true).
  Proof.
    unfold han_step, LmtpConc.work, finished, del_done. destruct (cs_fin s) as [p|] eqn:Ef; [auto|].
    destruct (cs_todo s) as [|a r] eqn:Et.
    - destruct (cs_del s) as [l|o e p|p] eqn:Ed; auto 7.
      left. cbn [cs_del cs_todo cs_coll cs_parked cs_fin List.length]. lia.
    - destruct (cs_parked s) eqn:Ep; [auto|]. left.
      pose proof (pop_status_spec a (cs_coll s)) as P.
      destruct (pop_status a (cs_coll s)) as [[e c']|];
        cbn [cs_del cs_todo cs_coll cs_parked cs_fin List.length]; lia.
  Qed.

  Lemma step_work s b : step s b = s \/ work (step s b) < work s.
  Proof.
    destruct b; cbn [LmtpConc.step].
    - destruct (del_done s) eqn:Ed; [left; apply del_step_done | right; apply del_step_progress]; exact Ed.
    - destruct (han_step_work s) as [H|[H _]]; auto.
  Qed.

  Lemma run_work_le sch : forall s, work (run sch s) <= work s.
  Proof.
    induction sch as [|b sch IH]; intros s; cbn [LmtpConc.run fold_left]; [lia|].
    fold (run sch (step s b)). specialize (IH (step s b)).
    destruct (step_work s b) as [H|H]; [rewrite H in *; exact IH | lia].
  Qed.

  Lemma run_stutter_or_less sch : forall s,
    (forall b, In b sch -> step s b = s) \/ work (run sch s) < work s.
  Proof.
    induction sch as [|b sch IH]; intros s; [left; intros b []|].
    cbn [LmtpConc.run fold_left]. fold (run sch (step s b)).
    destruct (step_work s b) as [H|H].
    - rewrite H. destruct (IH s) as [L|R]; [left | right; exact R].
      intros b' [<-|Hb]; [exact H | apply L; exact Hb].
    - right. pose proof (run_work_le sch (step s b)). lia.
  Qed.

  Definition fv (p : bool) : berr := if p then err_panic else ret.

  (* Inside fillRemaining e, channels [o] still to visit.  [log] are the sends
     made so far, in order: the SetStatus calls [pre] that succeeded, then
     the fill values.  A channel that fillRemaining has left behind was full. *)
  Definition filling (log : list (bytes * berr)) (o : list bytes) (e : berr) (p : bool) : Prop :=
    exists pre fl, log = pre ++ map (fun a => (a, e)) fl /\ took pre p /\ e = fv p /\
      forall a, In a ord -> In a o \/ count_addr a rcpts <= List.length (calls_for a log).

  Definition DelInv (d : dstate) (log : list (bytes * berr)) : Prop :=
    match d with
    | DCalls l => calls = log ++ l
    | DFill o e p => filling log o e p
    | DDone p => filling log [] (fv p) p
    end.

  Definition FinInv (s : cstate) : Prop :=
    match cs_fin s with
    | Some p => cs_todo s = [] /\ cs_del s = DDone p
    | None => True
    end.

  Definition Inv (s : cstate) : Prop :=
    exists log, (forall a, sent s a = calls_for a log) /\ Core s /\ DelInv (cs_del s) log /\ FinInv s.

  Lemma Inv_unfinished s log :
    cs_fin s = None -> Core s -> (forall a, sent s a = calls_for a log) -> DelInv (cs_del s) log -> Inv s.
  Proof. intros Hf HC Hs HD. exists log. unfold FinInv. rewrite Hf. auto. Qed.

  Lemma Inv_init : Inv (conc_init rcpts calls).
  Proof.
    apply (Inv_unfinished _ []); [reflexivity | | | reflexivity].
    - constructor; [reflexivity | apply mk_collector_cap | discriminate].
    - intros a. apply mk_collector_que.
  Qed.

  Lemma finished_stable s b : Inv s -> finished s = true -> step s b = s.
  Proof.
    intros (_ & _ & _ & _ & HF) Hf. unfold finished in Hf. unfold FinInv in HF.
    destruct (cs_fin s) as [q|] eqn:Ef; [|discriminate]. destruct HF as [_ Hd].
    destruct b; cbn [LmtpConc.step].
    - apply del_step_done. unfold del_done. rewrite Hd. reflexivity.
    - unfold han_step. rewrite Ef. reflexivity.
  Qed.

  Lemma Inv_del_step s : Inv s -> Inv (del_step s).
  Proof.
    intros HI. pose proof HI as (log & Hs & HC & HD & HF). unfold LmtpConc.del_step, FinInv in *.
    destruct (cs_fin s) eqn:Ef; [destruct HF as [_ ->]; exact HI|].
    assert (Hfull : forall a, cap a (cs_coll s) <= List.length (que a (cs_coll s)) ->
                              count_addr a rcpts <= List.length (calls_for a log)).
    { intros a H. rewrite <- Hs, <- (co_cap rcpts s HC). unfold sent. rewrite app_length. lia. }
    assert (Hsent : forall a e s', sends a e s s' ->
                    cs_fin s' = None /\ Core s' /\ forall b, sent s' b = calls_for b (log ++ [(a, e)])).
    { intros a e s' (_ & Hf & _ & H). destruct (H rcpts HC) as [HC' Hs']. split; [congruence|]. split; [exact HC'|].
      intros b. rewrite Hs', Hs, calls_for_app. reflexivity. }
    destruct (cs_del s) as [[|[a e] l]|[|a o] e p|p] eqn:Ed.
    - cbn in HD. rewrite app_nil_r in HD. subst log.
      assert (HD : DelInv (DFill ord (fv panic) panic) calls).
      { exists calls, []. split; [symmetry; apply app_nil_r|]. split; [|auto].
        split; [exists []; symmetry; apply app_nil_r | auto]. }
      destruct panic; apply (Inv_unfinished _ calls); auto using Core_set_del.
    - cbn in HD. pose proof (chan_send_spec a e s) as Hsend. destruct (chan_send a e s) as [s'|].
      + destruct (Hsent _ _ _ Hsend) as (Hf & HC' & Hs').
        apply (Inv_unfinished _ (log ++ [(a, e)])); auto using Core_set_del.
        cbn. rewrite <- app_assoc. exact HD.
      + (* SetStatus panics: outside the contract *)
        apply Hfull in Hsend. apply (Inv_unfinished _ log); auto using Core_set_del.
        exists log, []. split; [symmetry; apply app_nil_r|]. split; [|auto].
        split; [eexists; exact HD|]. split; [discriminate|]. intros Hok. exfalso.
        pose proof (proj1 (contract_ok_iff _ _) Hok a) as Hk.
        rewrite HD, calls_for_app, calls_for_cons, bytes_eqb_refl, app_length in Hk.
        cbn [List.length] in Hk. lia.
    - destruct HD as (pre & fl & Hl & Ht & -> & Hfil).
      apply (Inv_unfinished _ log); auto using Core_set_del. exists pre, fl. auto.
    - destruct HD as (pre & fl & Hl & Ht & He & Hfil).
      pose proof (chan_send_spec a e s) as Hsend. destruct (chan_send a e s) as [s'|].
      + destruct (Hsent _ _ _ Hsend) as (Hf & HC' & Hs'). destruct Hsend as (Hd & _).
        apply (Inv_unfinished _ (log ++ [(a, e)])); auto. rewrite Hd, Ed.
        exists pre, (fl ++ [a]). split; [rewrite map_app, app_assoc, <- Hl; reflexivity|].
        split; [exact Ht|]. split; [exact He|]. intros b Hb. destruct (Hfil b Hb) as [H|H]; [left; exact H | right].
        rewrite calls_for_app, app_length. lia.
      + apply Hfull in Hsend. apply (Inv_unfinished _ log); auto using Core_set_del.
        exists pre, fl. split; [exact Hl|]. split; [exact Ht|]. split; [exact He|].
        intros b Hb. destruct (Hfil b Hb) as [[<-|H]|H]; auto.
    - exact HI.
  Qed.

  (* the handler's steps do not change what was sent *)
  Lemma Inv_han_step s : Inv s -> Inv (han_step s).
  Proof.
    intros HI. pose proof HI as (log & Hs & [H1 H2 H3] & HD & _). unfold han_step.
    destruct (cs_fin s) eqn:Ef; [exact HI|].
    destruct (cs_todo s) as [|a r] eqn:Et.
    - destruct (cs_del s) as [l|o e p|p] eqn:Ed; try exact HI.
      exists log. split; [exact Hs|]. split; [constructor; assumption|].
      split; [exact HD | split; reflexivity].
    - destruct (cs_parked s) eqn:Ep; [exact HI|]. pose proof (pop_status_spec a (cs_coll s)) as P.
      destruct (pop_status a (cs_coll s)) as [[e c']|].
      + destruct P as (Hc & Hq & _). apply (Inv_unfinished _ log); [reflexivity | | | exact HD].
        * constructor; cbn [cs_todo cs_coll cs_parked cs_out]; [|intros b; rewrite Hc; apply H2|discriminate].
          rewrite map_app, <- app_assoc. exact H1.
        * intros b. rewrite <- Hs. unfold sent. cbn [cs_coll cs_out].
          rewrite calls_for_app, <- app_assoc, <- Hq. reflexivity.
      + apply (Inv_unfinished _ log); [reflexivity | | exact Hs | exact HD].
        constructor; [exact H1 | exact H2 | intros _; exact P].
  Qed.

  Lemma Inv_run sch : forall s, Inv s -> Inv (run sch s).
  Proof.
    induction sch as [|b sch IH]; intros s H; [exact H|].
    cbn [LmtpConc.run fold_left]. apply IH. destruct b; [apply Inv_del_step | apply Inv_han_step]; exact H.
  Qed.

  Lemma Inv_conc_run sch : Inv (conc_run rcpts calls ret panic ord sch).
  Proof. apply Inv_run, Inv_init. Qed.

  Lemma Inv_outcome s p : Inv s -> cs_fin s = Some p -> outcome rcpts calls ret panic (cs_out s) p.
  Proof.
    intros (log & Hs & [H1 _ _] & HD & HF) Hfin.
    unfold FinInv in HF. rewrite Hfin in HF. destruct HF as [Ht Hd]. rewrite Hd in HD.
    destruct HD as (pre & fl & Hl & Htook & _). unfold fv in Hl. exists pre. split; [exact Htook|].
    apply sent_expected; [rewrite H1, Ht; symmetry; apply app_nil_r|].
    intros a. exists (count_addr a fl), (que a (cs_coll s)).
    rewrite <- calls_for_fill, <- calls_for_app, <- Hl, <- Hs. reflexivity.
  Qed.

  (* fillRemaining visits the channel of every recipient (Go: it ranges over
     statusMap, whose keys are the recipients) *)
  Definition covers : Prop := forall a, In a rcpts -> In a ord.

  (* after fillRemaining the handler cannot be parked: the channel of its next
     recipient was left full, and fewer statuses were received for that
     address than it has occurrences *)
  Lemma han_step_progress s :
    covers -> Inv s -> del_done s = true -> finished s = false -> work (han_step s) < work s.
  Proof.
    intros Hcov (log & Hs & [H1 H2 H3] & HD & _) Hdd Hnf.
    destruct (han_step_work s) as [H|(_ & [H|[[_ H]|Hp]])]; [exact H | congruence.. |]. exfalso.
    specialize (H3 Hp). destruct (cs_todo s) as [|a r]; [exact H3|].
    unfold del_done in Hdd. destruct (cs_del s) as [l|o e p|p]; try discriminate.
    destruct HD as (_ & _ & _ & _ & _ & Hfil). destruct (Hfil a) as [[]|Hfa].
    { apply Hcov. rewrite H1. apply in_or_app. right. left. reflexivity. }
    rewrite <- Hs in Hfa. unfold sent in Hfa.
    rewrite H3, app_nil_r, calls_for_length, H1, count_addr_app, count_addr_cons, bytes_eqb_refl in Hfa. lia.
  Qed.

  Lemma Inv_enabled s :
    covers -> Inv s -> finished s = false -> exists b, work (step s b) < work s.
  Proof.
    intros Hcov HI Hnf. destruct (del_done s) eqn:Ed.
    - exists false. apply han_step_progress; assumption.
    - exists true. apply del_step_progress. exact Ed.
  Qed.

  Lemma finished_run sch : forall s, Inv s -> finished s = true -> run sch s = s.
  Proof.
    induction sch as [|b sch IH]; intros s HI Hf; [reflexivity|].
    cbn [LmtpConc.run fold_left]. rewrite (finished_stable s b HI Hf). apply IH; assumption.
  Qed.

  Lemma round_progress s r :
    covers -> Inv s -> finished s = false -> In true r -> In false r -> work (run r s) < work s.
  Proof.
    intros Hcov HI Hnf Ht Hf. destruct (run_stutter_or_less r s) as [Hst|Hw]; [|exact Hw].
    exfalso. destruct (Inv_enabled s Hcov HI Hnf) as [b Hb].
    assert (Hin : In b r) by (destruct b; assumption).
    rewrite (Hst b Hin) in Hb. lia.
  Qed.

  Lemma fair_terminates n sch :
    covers -> fair_rounds n sch -> forall s, Inv s -> work s <= n -> finished (run sch s) = true.
  Proof.
    intros Hcov Hfair.
    induction Hfair as [sch|n r sch Ht Hf Hfair IH]; intros s HI Hw;
      (destruct (finished s) eqn:Ef; [rewrite finished_run; assumption|]).
    - exfalso. unfold LmtpConc.work in Hw. rewrite Ef in Hw. lia.
    - unfold LmtpConc.run. rewrite fold_left_app. apply IH; [apply Inv_run; exact HI|].
      pose proof (round_progress s r Hcov HI Ef Ht Hf). fold (run r s). lia.
  Qed.
End Conc.

Definition work_bound (rcpts : list bytes) (calls : list (bytes * berr)) (ord : list bytes) : nat :=
  4 * List.length rcpts + List.length calls + List.length ord + 4.

Lemma work_init rcpts calls ord :
  work ord (conc_init rcpts calls) <= work_bound rcpts calls ord.
Proof.
  unfold work, work_bound, conc_init, finished. cbn [cs_todo cs_coll cs_parked cs_del cs_fin].
  pose proof (proj2 (mk_collector_view rcpts)). lia.
Qed.

(* Every schedule, every backend behaviour: when the handler has received
   from [done] (flag p = "close the connection"), what it has written is a
   possible outcome in the sense above *)
Theorem conc_outcome rcpts calls ret panic ord sch p :
  let s := conc_run rcpts calls ret panic ord sch in
  cs_fin s = Some p -> outcome rcpts calls ret panic (cs_out s) p.
Proof. apply (Inv_outcome rcpts calls ret panic ord), Inv_conc_run. Qed.

Lemma work_lt_neq ord s s' : work ord s' < work ord s -> s' <> s.
Proof. intros H ->. lia. Qed.

(* No reachable state is a deadlock: the delivery task is never blocked (its
   step always makes progress until it has finished), and once it has
   finished the handler is not blocked either.  So whenever the handler is
   blocked, the delivery task can move.  (A step that decreases [work] is not
   a stutter.) *)
Theorem conc_progress rcpts calls ret panic ord sch :
  (forall a, In a rcpts -> In a ord) ->
  let s := conc_run rcpts calls ret panic ord sch in
  (del_done s = false -> work ord (del_step ret panic ord s) < work ord s) /\
  (del_done s = true -> finished s = false -> work ord (han_step s) < work ord s).
Proof.
  intros Hcov s. split; [apply del_step_progress|].
  apply (han_step_progress rcpts calls ret panic ord); [exact Hcov | apply Inv_conc_run].
Qed.

Theorem conc_finished_stable rcpts calls ret panic ord sch sch' :
  finished (conc_run rcpts calls ret panic ord sch) = true ->
  conc_run rcpts calls ret panic ord (sch ++ sch') = conc_run rcpts calls ret panic ord sch.
Proof.
  intros Hf. unfold conc_run, run. rewrite fold_left_app.
  apply (finished_run rcpts calls ret panic ord sch'); [apply Inv_conc_run | exact Hf].
Qed.

Fixpoint round_robin (n : nat) : list bool :=
  match n with 0 => [] | S n => true :: false :: round_robin n end.

Lemma round_robin_fair n : fair_rounds n (round_robin n).
Proof.
  induction n as [|n IH]; [constructor|].
  change (round_robin (S n)) with ([true; false] ++ round_robin n).
  constructor; [left; reflexivity | right; left; reflexivity | exact IH].
Qed.

Lemma fair_rounds_app n sch extra : fair_rounds n sch -> fair_rounds n (sch ++ extra).
Proof.
  induction 1 as [sch|n r sch Ht Hf H IH]; [constructor|].
  rewrite <- app_assoc. constructor; assumption.
Qed.

(* Go's fillRemaining ranges over the keys of statusMap = the distinct
   recipients: every such order covers the recipients *)
Lemma collector_keys_cover rcpts a : In a rcpts -> In a (map fst (mk_collector rcpts)).
Proof.
  intros H. apply count_addr_in in H. rewrite <- mk_collector_cap in H.
  unfold cap in H. induction (mk_collector rcpts) as [|[a' nq] r IH]; cbn [coll_get] in H; [lia|].
  cbn [map fst]. destruct (bytes_eqb_spec a a') as [->|]; [left; reflexivity | right; apply IH; exact H].
Qed.

Definition ex_a := bs "a@x".
Definition ex_b := bs "b@y".
Definition ex_e (n : Z) : berr := BSmtp (450 + n) (4, 0, n)%Z (bs "status").

(* duplicates, calls out of RCPT order, one recipient without a call *)
Example ex_expected :
  expected_statuses [ex_a; ex_b; ex_a; ex_b; ex_a]
                    [(ex_b, ex_e 1); (ex_a, ex_e 2); (ex_b, BNil); (ex_a, ex_e 4)] (BPlain (bs "ret"))
  = [(ex_a, ex_e 2); (ex_b, ex_e 1); (ex_a, ex_e 4); (ex_b, BNil); (ex_a, BPlain (bs "ret"))].
Proof. vm_compute. reflexivity. Qed.

Example ex_contract_holds :
  contract_ok [ex_a; ex_b; ex_a; ex_b; ex_a]
              [(ex_b, ex_e 1); (ex_a, ex_e 2); (ex_b, BNil); (ex_a, ex_e 4)] = true.
Proof. vm_compute. reflexivity. Qed.

Example ex_contract_broken :
  contract_ok [ex_a; ex_b] [(ex_a, ex_e 1); (ex_a, ex_e 2)] = false /\
  contract_ok [ex_a; ex_b] [(bs "c@z", ex_e 1)] = false.
Proof. vm_compute. split; reflexivity. Qed.

Example ex_lmtp_statuses :
  lmtp_statuses [ex_a; ex_b; ex_a; ex_b; ex_a]
                [(ex_b, ex_e 1); (ex_a, ex_e 2); (ex_b, BNil); (ex_a, ex_e 4)] (BPlain (bs "ret")) false
  = ([(ex_a, ex_e 2); (ex_b, ex_e 1); (ex_a, ex_e 4); (ex_b, BNil); (ex_a, BPlain (bs "ret"))], false).
Proof. vm_compute. reflexivity. Qed.

(* one call too many for a: the calls before it count, the rest gets errPanic *)
Example ex_lmtp_statuses_broken :
  lmtp_statuses [ex_a; ex_b; ex_a] [(ex_a, ex_e 1); (ex_a, ex_e 2); (ex_a, ex_e 3); (ex_b, ex_e 4)] BNil false
  = ([(ex_a, ex_e 1); (ex_b, err_panic); (ex_a, ex_e 2)], true).
Proof. vm_compute. reflexivity. Qed.

(* a concrete interleaving: the handler parks first, gets a's first status by
   hand-off, and the run finishes with the specified statuses *)
Example ex_conc_run :
  let s := conc_run [ex_a; ex_b; ex_a] [(ex_b, ex_e 1); (ex_a, ex_e 2)] BNil false [ex_b; ex_a]
                    [false; true; true; false; false; true; false; true; true; true; true; true; true; false; false; true; false] in
  cs_fin s = Some false /\
  cs_out s = [(ex_a, ex_e 2); (ex_b, ex_e 1); (ex_a, BNil)].
Proof. vm_compute. split; reflexivity. Qed.

Example ex_conc_round_robin :
  let rc := [ex_a; ex_b; ex_a] in let cl := [(ex_b, ex_e 1); (ex_a, ex_e 2)] in
  (forall a, In a rc -> In a [ex_a; ex_b]) /\
  fair_rounds (work_bound rc cl [ex_a; ex_b]) (round_robin (work_bound rc cl [ex_a; ex_b])) /\
  finished (conc_run rc cl BNil false [ex_a; ex_b] (round_robin (work_bound rc cl [ex_a; ex_b]))) = true.
Proof.
  cbv zeta. split; [|split].
  - cbn. tauto.
  - apply round_robin_fair.
  - vm_compute. reflexivity.
Qed.

(* OUTSIDE the contract the outcome of handleDataLMTP depends on the
   schedule.  Recipients a, b; the backend sets a twice, then b.  If the
   delivery task runs first, the second call finds a's channel full and
   panics: b gets 421 and the connection is closed.  If the handler has
   parked on a's channel first, the first status is handed over directly, the
   second call fits into the buffer, nothing panics and b gets its status. *)
Example ex_schedule_dependence :
  let rc := [ex_a; ex_b] in
  let cl := [(ex_a, ex_e 1); (ex_a, ex_e 2); (ex_b, ex_e 3)] in
  let s1 := conc_run rc cl BNil false rc (repeat true 10 ++ repeat false 4) in
  let s2 := conc_run rc cl BNil false rc (false :: repeat true 10 ++ repeat false 4) in
  (cs_fin s1 = Some true /\ cs_out s1 = [(ex_a, ex_e 1); (ex_b, err_panic)]) /\
  (cs_fin s2 = Some false /\ cs_out s2 = [(ex_a, ex_e 1); (ex_b, ex_e 3)]) /\
  lmtp_statuses rc cl BNil false = ([(ex_a, ex_e 1); (ex_b, err_panic)], true).
Proof. vm_compute. repeat split; reflexivity. Qed.
