(* Round-trip and alphabet theorems for the encoding/base64 model of
   Base64.v. *)
From Smtp Require Import Bytes Base64.
Local Open Scope char_scope.

(* test vectors of RFC 4648 and round trips over each padding length *)
Example test_rt1 : b64_decode (b64_encode (bs "hello, world")) = Some (bs "hello, world").
Proof. vm_compute. reflexivity. Qed.
Example test_rt2 : b64_decode (b64_encode (bs "a")) = Some (bs "a").
Proof. vm_compute. reflexivity. Qed.
Example test_rt3 : b64_decode (b64_encode (bs "ab")) = Some (bs "ab").
Proof. vm_compute. reflexivity. Qed.
Example test_enc : b64_encode (bs "foobar") = bs "Zm9vYmFy".
Proof. vm_compute. reflexivity. Qed.
Example test_enc2 : b64_encode (bs "fooba") = bs "Zm9vYmE=".
Proof. vm_compute. reflexivity. Qed.
Example test_enc1 : b64_encode (bs "foob") = bs "Zm9vYg==".
Proof. vm_compute. reflexivity. Qed.

Lemma b64_val_char (s : sextet) : b64_val (b64_char s) = Some s.
Proof.
  destruct s as [[[[[b5 b4] b3] b2] b1] b0].
  destruct b5, b4, b3, b2, b1, b0; vm_compute; reflexivity.
Qed.

Lemma is_nl_val (c : ascii) : is_nl c = true -> b64_val c = None.
Proof.
  unfold is_nl. intros H. apply orb_true_iff in H as [H|H];
    apply Ascii.eqb_eq in H; subst c; vm_compute; reflexivity.
Qed.

Lemma pad_val : b64_val "=" = None.
Proof. vm_compute. reflexivity. Qed.

Lemma pad_not_nl : is_nl "=" = false.
Proof. vm_compute. reflexivity. Qed.

(* an alphabet character has a value, a newline has none *)
Lemma b64_char_not_nl (s : sextet) : is_nl (b64_char s) = false.
Proof.
  apply not_true_is_false. intros H%is_nl_val. rewrite b64_val_char in H. discriminate.
Qed.

(* the regrouping of three octets into four sextets is undone by dec_4 *)
Lemma enc3_spec (a b c : ascii) :
  exists s1 s2 s3 s4,
    enc3 a b c = [b64_char s1; b64_char s2; b64_char s3; b64_char s4]
    /\ dec_4 s1 s2 s3 s4 = [a; b; c].
Proof.
  destruct a as [a0 a1 a2 a3 a4 a5 a6 a7].
  destruct b as [b0 b1 b2 b3 b4 b5 b6 b7].
  destruct c as [c0 c1 c2 c3 c4 c5 c6 c7].
  do 4 eexists. split; reflexivity.
Qed.

Lemma enc2_spec (a b : ascii) :
  exists s1 s2 s3,
    enc2 a b = [b64_char s1; b64_char s2; b64_char s3; "="]
    /\ firstn 2 (dec_4 s1 s2 s3 zero6) = [a; b].
Proof.
  destruct a as [a0 a1 a2 a3 a4 a5 a6 a7].
  destruct b as [b0 b1 b2 b3 b4 b5 b6 b7].
  do 3 eexists. split; reflexivity.
Qed.

Lemma enc1_spec (a : ascii) :
  exists s1 s2,
    enc1 a = [b64_char s1; b64_char s2; "="; "="]
    /\ firstn 1 (dec_4 s1 s2 zero6 zero6) = [a].
Proof.
  destruct a as [a0 a1 a2 a3 a4 a5 a6 a7].
  do 2 eexists. split; reflexivity.
Qed.

Lemma list_ind3 (A : Type) (P : list A -> Prop) :
  P [] -> (forall a, P [a]) -> (forall a b, P [a; b]) ->
  (forall a b c t, P t -> P (a :: b :: c :: t)) ->
  forall l, P l.
Proof.
  intros H0 H1 H2 H3.
  fix IH 1. intros [|a [|b [|c t]]].
  - exact H0.
  - apply H1.
  - apply H2.
  - apply H3. apply IH.
Qed.

Lemma go_char (s : sextet) (t : bytes) (q : list sextet) :
  b64_decode_go (b64_char s :: t) q =
  match q with
  | [s3; s2; s1] => option_map (app (dec_4 s1 s2 s3 s)) (b64_decode_go t [])
  | _ => b64_decode_go t (s :: q)
  end.
Proof. cbn [b64_decode_go]. rewrite b64_val_char. reflexivity. Qed.

Lemma go_quad (s1 s2 s3 s4 : sextet) (t : bytes) :
  b64_decode_go (b64_char s1 :: b64_char s2 :: b64_char s3 :: b64_char s4 :: t) [] =
  option_map (app (dec_4 s1 s2 s3 s4)) (b64_decode_go t []).
Proof. rewrite !go_char. reflexivity. Qed.

Lemma go_pad1 (s1 s2 s3 : sextet) :
  b64_decode_go [b64_char s1; b64_char s2; b64_char s3; "="] [] =
  Some (firstn 2 (dec_4 s1 s2 s3 zero6)).
Proof.
  rewrite !go_char. cbn [b64_decode_go]. rewrite pad_val, pad_not_nl.
  reflexivity.
Qed.

Lemma go_pad2 (s1 s2 : sextet) :
  b64_decode_go [b64_char s1; b64_char s2; "="; "="] [] =
  Some (firstn 1 (dec_4 s1 s2 zero6 zero6)).
Proof.
  rewrite !go_char. cbn [b64_decode_go]. rewrite pad_val, pad_not_nl.
  cbn [skip_nl]. rewrite pad_not_nl. reflexivity.
Qed.

Theorem b64_decode_encode : forall x : bytes, b64_decode (b64_encode x) = Some x.
Proof.
  unfold b64_decode.
  induction x as [|a|a b|a b c t IH] using list_ind3.
  - reflexivity.
  - cbn [b64_encode]. destruct (enc1_spec a) as (s1 & s2 & He & Hd).
    rewrite He, go_pad2, Hd. reflexivity.
  - cbn [b64_encode]. destruct (enc2_spec a b) as (s1 & s2 & s3 & He & Hd).
    rewrite He, go_pad1, Hd. reflexivity.
  - cbn [b64_encode]. destruct (enc3_spec a b c) as (s1 & s2 & s3 & s4 & He & Hd).
    rewrite He. cbn [app]. rewrite go_quad, IH, Hd. reflexivity.
Qed.
Print Assumptions b64_decode_encode.

Theorem b64_encode_alphabet :
  forall x c, In c (b64_encode x) -> b64_val c <> None \/ c = "="%char.
Proof.
  intros x. apply Forall_forall.
  assert (Hc : forall s, b64_val (b64_char s) <> None \/ b64_char s = "="%char).
  { intros s. left. rewrite b64_val_char. discriminate. }
  induction x as [|a|a b|a b c t IH] using list_ind3; cbn [b64_encode].
  - constructor.
  - destruct (enc1_spec a) as (s1 & s2 & -> & _). repeat apply Forall_cons; auto.
  - destruct (enc2_spec a b) as (s1 & s2 & s3 & -> & _). repeat apply Forall_cons; auto.
  - destruct (enc3_spec a b c) as (s1 & s2 & s3 & s4 & -> & _). cbn [app].
    repeat apply Forall_cons; auto.
Qed.
Print Assumptions b64_encode_alphabet.

Lemma b64_encode_not_mem (d : ascii) :
  b64_val d = None -> d <> "="%char ->
  forall x, mem_byte d (b64_encode x) = false.
Proof.
  intros Hv Hp x. destruct (mem_byte d (b64_encode x)) eqn:E; [|reflexivity].
  apply mem_byte_In in E. apply b64_encode_alphabet in E as [E|E]; contradiction.
Qed.

Corollary b64_encode_no_crlf :
  forall x, mem_byte CR (b64_encode x) = false /\ mem_byte LF (b64_encode x) = false.
Proof.
  intros x. split; apply b64_encode_not_mem;
    solve [vm_compute; reflexivity | discriminate].
Qed.
Print Assumptions b64_encode_no_crlf.

Corollary b64_encode_no_space : forall x, mem_byte SP (b64_encode x) = false.
Proof.
  intros x. apply b64_encode_not_mem; solve [vm_compute; reflexivity | discriminate].
Qed.

(* "*" (the client's AUTH cancellation) decodes to nothing, an encoding to its source *)
Corollary b64_encode_not_star : forall x, b64_encode x <> bs "*".
Proof. intros x H. pose proof (b64_decode_encode x) as E. rewrite H in E. discriminate E. Qed.
Print Assumptions b64_encode_not_star.

Lemma b64_encode_no_nl (x : bytes) : forallb (fun c => negb (is_nl c)) (b64_encode x) = true.
Proof.
  apply forallb_forall. intros c Hin.
  destruct (is_nl c) eqn:E; [|reflexivity]. exfalso.
  apply b64_encode_alphabet in Hin as [Hin|Hin].
  - apply Hin. apply is_nl_val. exact E.
  - subst c. vm_compute in E. discriminate.
Qed.

(* likewise "=" alone is not an encoding *)
Lemma b64_encode_not_pad (x : bytes) : b64_encode x <> bs "=".
Proof. intros H. pose proof (b64_decode_encode x) as E. rewrite H in E. discriminate E. Qed.

Theorem decode_sasl_response_encode :
  forall x, x <> [] -> decode_sasl_response (b64_encode x) = Some x.
Proof.
  intros x Hx. unfold decode_sasl_response.
  destruct (bytes_eqb (b64_encode x) (bs "=")) eqn:E.
  - apply bytes_eqb_eq in E. exfalso. exact (b64_encode_not_pad x E).
  - apply b64_decode_encode.
Qed.
Print Assumptions decode_sasl_response_encode.

Theorem decode_sasl_response_pad : decode_sasl_response (bs "=") = Some [].
Proof. vm_compute. reflexivity. Qed.
Print Assumptions decode_sasl_response_pad.

Definition non_nl (c : ascii) : bool := negb (is_nl c).
Definition strip_nl (s : bytes) : bytes := filter non_nl s.

Lemma strip_nl_cons (c : ascii) (t : bytes) :
  strip_nl (c :: t) = if is_nl c then strip_nl t else c :: strip_nl t.
Proof. unfold strip_nl. cbn [filter]. unfold non_nl at 1. destruct (is_nl c); reflexivity. Qed.

Lemma skip_nl_strip (t : bytes) :
  (skip_nl t = [] /\ strip_nl t = []) \/
  (exists c2 t2, skip_nl t = c2 :: t2 /\ is_nl c2 = false
                 /\ strip_nl t = c2 :: strip_nl t2).
Proof.
  induction t as [|c t IH].
  - left. split; reflexivity.
  - rewrite strip_nl_cons. cbn [skip_nl].
    destruct (is_nl c) eqn:E.
    + exact IH.
    + right. exists c, t. repeat split. exact E.
Qed.

(* the decoder sees only the non-newline octets *)
Theorem b64_decode_go_strip_nl (s : bytes) :
  forall q, b64_decode_go s q = b64_decode_go (strip_nl s) q.
Proof.
  induction s as [|c t IH]; intros q.
  - reflexivity.
  - rewrite strip_nl_cons.
    destruct (is_nl c) eqn:Hnl.
    + cbn [b64_decode_go]. rewrite (is_nl_val c Hnl), Hnl. apply IH.
    + cbn [b64_decode_go]. rewrite Hnl. destruct (b64_val c) as [v|].
      * destruct q as [|s3 [|s2 [|s1 [|s0 q]]]]; try apply IH.
        rewrite IH. reflexivity.
      * destruct (Ascii.eqb c "="); [|reflexivity].
        destruct q as [|s2 [|s1 [|s0 [|s q]]]]; try reflexivity.
        -- destruct (skip_nl_strip t) as [[H1 H2]|(c2 & t2 & H1 & H2 & H3)].
           ++ rewrite H1, H2. reflexivity.
           ++ rewrite H1, H3. cbn [skip_nl]. rewrite H2.
              destruct (Ascii.eqb c2 "="); [|reflexivity].
              destruct (skip_nl_strip t2) as [[K1 K2]|(c3 & t3 & K1 & K2 & K3)].
              ** rewrite K1, K2. reflexivity.
              ** rewrite K1, K3. cbn [skip_nl]. rewrite K2. reflexivity.
        -- destruct (skip_nl_strip t) as [[H1 H2]|(c2 & t2 & H1 & H2 & H3)].
           ++ rewrite H1, H2. reflexivity.
           ++ rewrite H1, H3. cbn [skip_nl]. rewrite H2. reflexivity.
Qed.

Corollary b64_decode_strip_nl (s : bytes) : b64_decode s = b64_decode (strip_nl s).
Proof. apply b64_decode_go_strip_nl. Qed.
Print Assumptions b64_decode_strip_nl.

Lemma strip_nl_app (a b : bytes) : strip_nl (a ++ b) = strip_nl a ++ strip_nl b.
Proof. apply filter_app. Qed.

Lemma strip_nl_all_nl (nl : bytes) : forallb is_nl nl = true -> strip_nl nl = [].
Proof.
  induction nl as [|c t IH]; cbn [forallb]; intros H.
  - reflexivity.
  - apply andb_true_iff in H as [H1 H2]. rewrite strip_nl_cons, H1.
    apply IH. exact H2.
Qed.

Lemma strip_nl_none (s : bytes) : forallb non_nl s = true -> strip_nl s = s.
Proof.
  induction s as [|c t IH]; cbn [forallb]; intros H.
  - reflexivity.
  - apply andb_true_iff in H as [H1 H2]. rewrite strip_nl_cons.
    unfold non_nl in H1. apply negb_true_iff in H1. rewrite H1.
    f_equal. apply IH. exact H2.
Qed.

(* any number of CR/LF insertions at any positions *)
Theorem b64_decode_nl_insensitive_gen :
  forall x s, strip_nl s = b64_encode x -> b64_decode s = Some x.
Proof.
  intros x s H. rewrite b64_decode_strip_nl, H. apply b64_decode_encode.
Qed.
Print Assumptions b64_decode_nl_insensitive_gen.

(* in particular one run of them at one position *)
Theorem b64_decode_nl_insensitive :
  forall x pre post, b64_encode x = pre ++ post ->
  forall nl, forallb is_nl nl = true ->
  b64_decode (pre ++ nl ++ post) = Some x.
Proof.
  intros x pre post He nl Hnl. apply b64_decode_nl_insensitive_gen.
  rewrite !strip_nl_app, (strip_nl_all_nl nl Hnl). cbn [app]. rewrite <- strip_nl_app, <- He.
  apply strip_nl_none, b64_encode_no_nl.
Qed.
Print Assumptions b64_decode_nl_insensitive.
