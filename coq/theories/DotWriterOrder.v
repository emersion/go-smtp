(* The client's dot-writer never drops or reorders an octet of the
   message, for EVERY body (also outside the "CR only in CRLF" domain of the
   round-trip theorem): the body is an order-preserving subsequence of what the
   server's specification extracts from the wire.  (What is added is said by
   [norm_w]: CRs and LFs of line-ending normalisation.) *)
From Smtp Require Import Bytes Transport DataReader DotSpec
  DotSpecOrder DotWriter DotWriterProofs C16Proofs.

(* every octet of the body is delivered, after at most an added CR *)
Lemma norm_w_cons w c t : exists pre w', norm_w w (c :: t) = pre ++ c :: norm_w w' t.
Proof.
  cbn [norm_w].
  destruct (Ascii.eqb_spec c LF) as [->|_]; [|destruct (Ascii.eqb_spec c CR) as [->|_]];
    destruct w; ((exists []; eexists; reflexivity) || (exists [CR]; eexists; reflexivity)).
Qed.

Lemma norm_w_subseq : forall body w, subseq body (norm_w w body).
Proof.
  induction body as [|c t IH]; intros w; [constructor|].
  destruct (norm_w_cons w c t) as (pre & w' & ->).
  apply subseq_app_l. constructor. apply IH.
Qed.

Theorem dot_write_nothing_dropped parts tail :
  exists received,
    unstuff (dot_write_all parts ++ tail) = Complete received tail /\
    subseq (List.concat parts) received.
Proof.
  exists (dw_received (List.concat parts)). split.
  - apply dot_roundtrip_parts_any.
  - apply norm_w_subseq.
Qed.

(* composed with the server's DATA reader: for EVERY body, every partition
   into Write calls, every network segmentation and every backend read size
   the backend reads, then sees io.EOF, a message that contains every octet
   of the body in order, and the command stream resumes behind it *)
Theorem client_message_nothing_dropped (t : transport) (parts : list bytes) (tail : bytes) (sizes : list nat) :
  transparent t ->
  tstream t = dot_write_all parts ++ tail ->
  let '(out, e, d', t') := backend_reads sizes None (new_data_reader 0) t in
  subseq (List.concat parts) out /\ e = Some REOF /\ tstream t' = tail.
Proof.
  intros Htr Hs.
  pose proof (client_message_framed t parts tail sizes Htr Hs) as H.
  destruct (backend_reads sizes None (new_data_reader 0) t) as [[[out e] d'] t'].
  destruct H as (-> & B & C & _). split; [apply norm_w_subseq|auto].
Qed.
