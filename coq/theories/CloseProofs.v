(* Finding F30 repaired: when the end of a DATA message (the end marker) or of
   a BDAT chunk (the declared number of octets) has NOT been reached when the
   handler sends its reply, the position in the octet stream is unknown and
   the connection is closed - the rest of the message, should the peer send
   it later, is never read as commands.

   The defect needed a read failure that REPEATS (an expired read deadline
   makes every read fail until the command loop arms it again; end-of-file is
   repeated as well).  The theorems speak about the model's own terms, for
   every connection state, backend plan and network schedule.  DATA: the state
   handle_data returns is one equation ([handle_data_state]); closed unless
   the drain of the rest of the message ([dr_drain], "io.Copy(ioutil.Discard,
   r)") reached the end marker, and then the transport stands exactly behind
   the marker (DataProofs2.drain_resume_gen).  BDAT: the handler-level facts
   are BdatProofs.bdat_incomplete_chunk_closes, bdat_incomplete_refused_closes
   and bdat_chunk_cut (one failure is survived, a repeated one is not);
   [bdat_closed_loop_stops] adds the command loop. *)
From Smtp Require Import Bytes Transport DataReader DotSpec DataProofs2
  Reply Lmtp Conn ConnProofs BdatProofs.

(* whatever is still buffered or still to come: nothing is read, executed or
   answered *)
Lemma serve_loop_after_close fuel cfg c :
  c_closed c = true -> c_session c = false -> c_bdat c = None ->
  serve_loop (S fuel) cfg c = [EClose].
Proof.
  intros Hc Hs Hb. cbn [serve_loop]. rewrite Hc, final_close_eq. unfold close_ev. rewrite Hs, Hb. reflexivity.
Qed.

(* the state in which DATA is answered 354 *)
Definition data_accepted (c : conn) : Prop :=
  c_bdat c = None /\ c_binarymime c = false /\ c_from c = true /\ c_rcpts c <> [] /\ c_session c = true.

(* what handle_data computes on the way: the plan the backend follows, what
   it obtained, and the drain of the rest of the message *)
Definition data_run (cfg : config) (c : conn)
  : data_plan * (bytes * option rerr) * (option rerr * dreader * transport) :=
  let p := fst (pop_data c) in
  let '(got, term, d1, t1) :=
    backend_reads (dp_sizes p) (dp_stop p) (new_data_reader (cf_max_bytes cfg)) (c_t c) in
  (p, (got, term), dr_drain d1 t1).

(* The state handle_data returns once DATA has been accepted.  After a panic
   (of the backend, or of a SetStatus call) the connection is closed where
   the backend stopped reading; otherwise the rest of the message is drained
   and the connection closed unless the drain reached the end marker; the
   transaction is reset in either case. *)
Lemma handle_data_state (cfg : config) (c : conn) :
  data_accepted c ->
  let '(p, _, (de, d2, t2)) := data_run cfg c in
  exists (panicked : bool) t1,
    (dp_panic p = false -> dp_status p = [] -> panicked = false) /\
    fst (handle_data cfg c [])
    = reset_c (if panicked then close_c (upd_t (snd (pop_data c)) t1)
               else if drained de then upd_t (snd (pop_data c)) t2
                    else close_c (upd_t (snd (pop_data c)) t2)).
Proof.
  intros (Hbd & Hbm & Hfr & Hrc & Hse).
  assert (Hpop : c_t (snd (pop_data c)) = c_t c)
    by (unfold pop_data; destruct (pop _ _); reflexivity).
  unfold data_run, handle_data, call_data. rewrite Hbd, Hbm, Hfr, Hse.
  destruct (c_rcpts c); [congruence|]. cbn [negb orb].
  destruct (pop_data c) as [p c1]. cbn [fst snd] in *. rewrite Hpop.
  destruct (backend_reads (dp_sizes p) (dp_stop p) (new_data_reader (cf_max_bytes cfg)) (c_t c))
    as [[[got term] d1] t1].
  destruct (dr_drain d1 t1) as [[de d2] t2].
  cbv zeta. unfold close_unless.
  (* the three ways of calling the backend differ in the replies and in what counts as a panic *)
  destruct (cf_lmtp cfg); cbn [negb]; [destruct (cf_lmtp_session cfg); cbn [negb]|].
  1: destruct (lmtp_statuses _ (dp_status p) (plan_ret p term) (dp_panic p)) as [sts panicked] eqn:Es;
     exists panicked, t1; split;
     [intros H1 H2; rewrite H1, H2 in Es; unfold lmtp_statuses in Es; cbn in Es; inversion Es; reflexivity|].
  2,3: exists (dp_panic p), t1; split; [auto|]; destruct (dp_panic p) as [|] eqn:Ep.
  1: destruct panicked.
  all: try destruct (data_error_to_status (plan_ret p term)) as [[code ec] msg].
  all: try destruct (drained de).
  all: rewrite ?do_close_eq, ?do_reset_eq; cbv beta iota; rewrite ?do_close_eq, ?do_reset_eq; reflexivity.
Qed.

Lemma closed_loop_stops cfg (c' : conn) :
  c_closed c' = true -> t_closed (c_t c') = true -> c_session c' = false -> c_bdat c' = None ->
  c_closed c' = true /\ t_closed (c_t c') = true /\ c_session c' = false /\ c_bdat c' = None /\
  forall fuel, serve_loop (S fuel) cfg c' = [EClose].
Proof. intros H1 H2 H3 H4. repeat split; try assumption. intros fuel. apply serve_loop_after_close; assumption. Qed.

(* DATA accepted (354 sent), the backend returned - having read all, part or
   nothing - and the drain of the rest of the message ended with anything but
   io.EOF: closed (flag and socket), the session logged out, and the command
   loop run on that state with ANY remaining input does nothing but the
   deferred Close *)
Theorem handle_data_failed_drain_closes (cfg : config) (c : conn) :
  data_accepted c ->
  let '(p, _, (de, d2, t2)) := data_run cfg c in
  drained de = false ->
  let c' := fst (handle_data cfg c []) in
  c_closed c' = true /\ t_closed (c_t c') = true /\ c_session c' = false /\ c_bdat c' = None /\
  forall fuel, serve_loop (S fuel) cfg c' = [EClose].
Proof.
  intros Ha. pose proof (handle_data_state cfg c Ha) as H.
  destruct (data_run cfg c) as [[p x] [[de d2] t2]]. destruct H as (panicked & t1 & _ & H).
  intros Hde. cbv zeta. rewrite H, Hde. destruct panicked; apply closed_loop_stops; reflexivity.
Qed.

Theorem bdat_closed_loop_stops (cfg : config) (c : conn) (arg : bytes) (n : N) :
  (exists last, bdat_classify cfg c arg = BvAccept n last /\
                blen (raws_bytes (raws_after (t_raw (c_t c)))) < n - blen (tstream (c_t c)))%N
  \/ match bdat_classify cfg c arg with
     | BvNoEnvelope s | BvBadLast s | BvOverLimit s => s = n
     | _ => False
     end ->
  t_closed (c_t c) = false -> (blen (tstream (c_t c)) < n)%N ->
  let c' := fst (handle_bdat cfg c arg) in
  c_closed c' = true /\ t_closed (c_t c') = true /\
  forall fuel, serve_loop (S fuel) cfg c' = [EClose].
Proof.
  intros Hcase Hcl Hn.
  assert (H : let c' := fst (handle_bdat cfg c arg) in
              c_closed c' = true /\ t_closed (c_t c') = true /\ c_session c' = false /\ c_bdat c' = None).
  { destruct Hcase as [(last & Hcls & Hn2)|Hcls].
    - exact (bdat_incomplete_chunk_closes cfg c arg n last Hcls Hcl Hn Hn2).
    - exact (bdat_incomplete_refused_closes cfg c arg n Hcls Hcl Hn). }
  cbv zeta in *. destruct H as (H1 & H2 & H3 & H4). repeat split; try assumption.
  intros fuel. apply serve_loop_after_close; assumption.
Qed.

Definition f30_prelude : bytes :=
  xln "EHLO x" ++ xln "MAIL FROM:<a@b>" ++ xln "RCPT TO:<c@d>".
Definition f30_rest : bytes :=
  xln "MAIL FROM:<bait@evil>" ++ xln "." ++ xln "NOOP" ++ xln "QUIT".

Definition has_mail (a : string) (tr : list event) : bool :=
  existsb (fun e => match e with EMail f _ _ => bytes_eqb f (bs a) | _ => false end) tr.

(* DATA; the read deadline expires inside the message and stays expired (two
   failures in a row: the backend's read, the drain), then the client sends
   the rest: 554 and the connection is closed - the bait line, NOOP and QUIT
   are never read.  With ONE failure the drain goes on, finds the end marker,
   and NOOP and QUIT are executed (the bait line is message text). *)
Example f30_data_witness :
  let run fails := serve 40 (ex_cfg 0 2000) ex_be
                     [[xraw (f30_prelude ++ xln "DATA" ++ xln "first line")] ++ fails ++ [xraw f30_rest]] in
  let sticky := run [RFail TTimeout; RFail TTimeout] in
  let once := run [RFail TTimeout] in
  cmd_lines sticky = [bs "EHLO x"; bs "MAIL FROM:<a@b>"; bs "RCPT TO:<c@d>"; bs "DATA"] /\
  wire_codes sticky = map bs ["220"; "250"; "250"; "250"; "354"; "554"]%string /\
  has_mail "bait@evil" sticky = false /\
  skipn (List.length sticky - 3) sticky = [ELogout; EClose; EClose] /\
  cmd_lines once = [bs "EHLO x"; bs "MAIL FROM:<a@b>"; bs "RCPT TO:<c@d>"; bs "DATA"; bs "NOOP"; bs "QUIT"] /\
  wire_codes once = map bs ["220"; "250"; "250"; "250"; "354"; "554"; "250"; "221"]%string /\
  has_mail "bait@evil" once = false.
Proof. vm_compute. repeat split; reflexivity. Qed.

(* the hypotheses of handle_data_failed_drain_closes / _drained_resumes on the
   states of that conversation *)
Definition f30_conn (rs : list raw) : conn :=
  mkC (mkT [] rs 0 2000 false) [] ex_be (bs "x") true 0 false true [bs "c@d"] false false false None 0.

Example f30_data_hypotheses :
  let sticky := f30_conn [xraw (xln "first line"); RFail TTimeout; RFail TTimeout; xraw f30_rest] in
  let once := f30_conn [xraw (xln "first line"); RFail TTimeout; xraw f30_rest] in
  data_accepted sticky /\ data_accepted once /\
  (let '(_, (_, term), (de, _, _)) := data_run (ex_cfg 0 2000) sticky in (term, drained de))
  = (Some (RTransport TTimeout), false) /\
  (let '(p, (_, term), (de, _, t2)) := data_run (ex_cfg 0 2000) once in
   (term, drained de, dp_panic p, dp_status p, tstream t2))
  = (Some (RTransport TTimeout), true, false, [], xln "NOOP" ++ xln "QUIT").
Proof.
  split; [repeat split; try reflexivity; discriminate|].
  split; [repeat split; try reflexivity; discriminate|].
  vm_compute. split; reflexivity.
Qed.

(* BDAT 30 with 12 octets, the deadline expires and stays expired: accepted
   chunk (554, closed) and refused chunk (502, closed); with ONE failure the
   accepted chunk's discard skips the remaining 18 octets and NOOP is executed *)
Example f30_bdat_witness :
  let chunk1 := bs "first part" ++ crlf in
  let chunk2 := bs "MAIL FROM:<x@y>" ++ crlf ++ bs "!" in
  let tail := xln "NOOP" ++ xln "QUIT" in
  let run pre fails := serve 40 (ex_cfg 0 2000) ex_be
                         [[xraw (pre ++ xln "BDAT 30" ++ chunk1)] ++ fails ++ [xraw (chunk2 ++ tail)]] in
  let sticky := run f30_prelude [RFail TTimeout; RFail TTimeout] in
  let once := run f30_prelude [RFail TTimeout] in
  let refused := run (xln "EHLO x") [RFail TTimeout] in
  blen chunk1 = 12%N /\ blen chunk2 = 18%N /\
  wire_codes sticky = map bs ["220"; "250"; "250"; "250"; "554"]%string /\
  has_mail "x@y" sticky = false /\
  skipn (List.length sticky - 3) sticky = [ELogout; EClose; EClose] /\
  wire_codes once = map bs ["220"; "250"; "250"; "250"; "554"; "250"; "221"]%string /\
  has_mail "x@y" once = false /\
  cmd_lines once = [bs "EHLO x"; bs "MAIL FROM:<a@b>"; bs "RCPT TO:<c@d>"; bs "BDAT 30"; bs "NOOP"; bs "QUIT"] /\
  wire_codes refused = map bs ["220"; "250"; "502"]%string /\
  has_mail "x@y" refused = false /\
  cmd_lines refused = [bs "EHLO x"; bs "BDAT 30"].
Proof. vm_compute. repeat split; reflexivity. Qed.
