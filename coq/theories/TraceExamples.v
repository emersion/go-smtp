(* Concrete conversations used as non-vacuity witnesses for the trace
   properties (props/C03.v, C08.v, C09.v, C10.v, C19.v). *)
From Smtp Require Import Bytes Transport Reply Conn
  ConnNoPanic.
Local Open Scope string_scope.
Local Open Scope list_scope.

Definition raw_of (b : bytes) : raw := match b with c :: d => RData c d | [] => RFail TEof end.
Definition ln (s : string) : bytes := bs s ++ crlf.

(* a short rendering of an event, to display the shape of a trace *)
Definition show_kind (e : event) : string :=
  match e with
  | EWire b => String.append "reply " (string_of_list_ascii (firstn 3 b))
  | ECmd l => String.append "cmd " (string_of_list_ascii (firstn 4 l))
  | ENewSession _ t BNil => if t then "NewSession(tls)" else "NewSession"
  | ENewSession _ _ _ => "NewSession failed"
  | EMail _ _ BNil => "Mail" | EMail _ _ _ => "Mail rejected"
  | ERcpt _ _ BNil => "Rcpt" | ERcpt _ _ _ => "Rcpt rejected"
  | EData _ _ _ p => if p then "Data PANICS" else "Data"
  | EBdatStart => "BdatStart"
  | EDelivery _ _ _ p => if p then "Delivery PANICS" else "Delivery"
  | EReset => "Reset" | ELogout => "Logout"
  | EAuth _ _ => "Auth" | EAuthNext _ _ _ _ => "AuthNext" | EAuthOk => "AuthOk"
  | EClose => "Close" | EPanic => "PANIC RECOVERED"
  | ETlsStart ok => if ok then "TlsStart ok" else "TlsStart failed"
  | EOutOfFuel => "OutOfFuel"
  end.

(* example 1: SMTP, recipient limit 2, AUTH, DATA, RSET, STARTTLS, QUIT with a pipelined
   command behind QUIT *)

Definition ex1_cfg : config :=
  mkCfg false true (bs "mx") 2 0 2000 true false false false false false false (Some [bs "PLAIN"]) false.

Definition ex1_be : backend := mkBE [] [] [] [] [mkAP BNil [SaslStep [] true BNil]].

Definition ex1_plain : list raw :=
  [raw_of (ln "EHLO client.example" ++ ln "AUTH PLAIN AGEAYg==" ++ ln "MAIL FROM:<a@example.org>"
           ++ ln "RCPT TO:<b@example.org>" ++ ln "RCPT TO:<c@example.org>" ++ ln "RCPT TO:<d@example.org>"
           ++ ln "DATA" ++ ln "hello" ++ ln "." ++ ln "RCPT TO:<late@example.org>"
           ++ ln "MAIL FROM:<a2@example.org>" ++ ln "RSET" ++ ln "STARTTLS")].
Definition ex1_tls : list raw := [raw_of (ln "EHLO client.example" ++ ln "QUIT" ++ ln "NOOP")].

Definition ex1_trace : list event := serve 40 ex1_cfg ex1_be [ex1_plain; ex1_tls].

Definition ex1_shape : list string :=
  ["reply 220"; "cmd EHLO"; "NewSession"; "reply 250"; "cmd AUTH"; "Auth"; "AuthNext"; "reply 235";
   "AuthOk"; "cmd MAIL"; "Mail"; "reply 250"; "cmd RCPT"; "Rcpt"; "reply 250"; "cmd RCPT"; "Rcpt";
   "reply 250"; "cmd RCPT"; "reply 452"; "cmd DATA"; "reply 354"; "Data"; "reply 250"; "Reset";
   "cmd RCPT"; "reply 502"; "cmd MAIL"; "Mail"; "reply 250"; "cmd RSET"; "Reset"; "reply 250";
   "cmd STAR"; "reply 220"; "TlsStart ok"; "Logout"; "cmd EHLO"; "NewSession(tls)"; "reply 250";
   "cmd QUIT"; "reply 221"; "Logout"; "Close"; "Close"].

Lemma ex1_shape_ok : map show_kind ex1_trace = ex1_shape.
Proof. vm_compute. reflexivity. Qed.

Lemma ex1_fuel_ok : ~ In EOutOfFuel ex1_trace.
Proof.
  assert (H : existsb (fun e => match e with EOutOfFuel => true | _ => false end) ex1_trace = false)
    by (vm_compute; reflexivity).
  intros Hin. apply Bool.not_true_iff_false in H. apply H. apply existsb_exists.
  exists EOutOfFuel. split; [exact Hin|reflexivity].
Qed.

Lemma ex1_backend_ok : backend_ok ex1_cfg ex1_be.
Proof. constructor. Qed.

(* example 2: a chunked transfer (BDAT), then a DATA whose backend panics: the panic is
   recovered; the hypothesis of C19's no-panic theorem is necessary *)

Definition ex2_cfg : config :=
  mkCfg false false (bs "mx") 0 0 2000 false false false false false false false None false.

Definition ex2_be : backend :=
  mkBE [] [] [] [dp_default; mkDP [4096%nat] None BNil true true []] [].

Definition ex2_raws : list raw :=
  [raw_of (ln "EHLO client.example" ++ ln "MAIL FROM:<a@example.org>" ++ ln "RCPT TO:<b@example.org>"
           ++ ln "BDAT 5" ++ bs "hello" ++ ln "BDAT 2 LAST" ++ crlf
           ++ ln "MAIL FROM:<a@example.org>" ++ ln "RCPT TO:<b@example.org>"
           ++ ln "DATA" ++ ln "x" ++ ln "." ++ ln "NOOP")].

Definition ex2_trace : list event := serve 40 ex2_cfg ex2_be [ex2_raws].

Definition ex2_shape : list string :=
  ["reply 220"; "cmd EHLO"; "NewSession"; "reply 250"; "cmd MAIL"; "Mail"; "reply 250"; "cmd RCPT";
   "Rcpt"; "reply 250"; "cmd BDAT"; "BdatStart"; "reply 250"; "cmd BDAT"; "Delivery"; "reply 250";
   "Reset"; "cmd MAIL"; "Mail"; "reply 250"; "cmd RCPT"; "Rcpt"; "reply 250"; "cmd DATA"; "reply 354";
   "Data PANICS"; "Reset"; "PANIC RECOVERED"; "reply 421"; "Logout"; "Close"; "Close"].

Lemma ex2_shape_ok : map show_kind ex2_trace = ex2_shape.
Proof. vm_compute. reflexivity. Qed.
