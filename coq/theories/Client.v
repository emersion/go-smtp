(* client.go: the go-smtp CLIENT, operation by operation, together with the
   parts of net/textproto and bufio it runs (Conn.Cmd, Writer.PrintfLine,
   Writer.DotWriter / closeDot, dotWriter.Write / Close over a 4096-octet
   bufio.Writer, Reader.ReadResponse through ClientReply.v).

   The server is a pre-scripted octet stream [c_in]: every reply the client
   reads is taken from it with [client_read_response]; the octets the client
   puts on the wire are appended to [c_out].

   Out of scope (stated, not modelled):
   - reply lines longer than 2000 octets (the client's lineLimitReader then
     fails with ErrTooLongLine);
   - deadlines / timeouts (SetDeadline is invisible on a scripted stream);
   - the TLS handshake: after a successful STARTTLS the client continues on a
     separate application stream [c_tls_in] (None: the handshake fails, every
     later read or write is an I/O error and no plaintext octet is written);
   - a '%' in the SASL mechanism NAME: Auth passes "AUTH mech resp" as a
     FORMAT string to textproto's Cmd, so fmt would rewrite "%x" into
     "%!x(MISSING)"; the model writes the name unchanged (mechanism names are
     supplied by the sasl.Client implementation, not by a string argument);
   - handles of a data writer obtained before STARTTLS (startTLS is only
     reachable from the constructors, before any other method);
   - re-entrant use of the client from inside the LMTP status callback. *)
From Smtp Require Import Bytes GoStrings Xtext Base64 Reply ClientReply Rfc3339 DotWriter Conn.
Local Open Scope char_scope.

(* ---------- results ---------- *)

(* the error value returned by an API method:
   nil | *SMTPError | any error created locally (its Error() text; a
   textproto.ProtocolError is such a text as well) | an error of the
   connection (io.EOF, net.ErrClosed, a TLS error, ...) *)
Inductive result :=
| RNil
| RSmtp (code : Z) (ec : ecode) (msg : bytes)
| RLocal (text : bytes)
| RIo.

Definition res_of_cerr (e : cerr) : result :=
  match e with
  | CNil => RNil
  | CSmtp c ec m => RSmtp c ec m
  | CProto t => RLocal t
  | CEof => RIo
  end.

Definition is_nil (r : result) : bool := match r with RNil => true | _ => false end.

(* the error texts of client.go *)
Definition err_line : bytes := bs "smtp: a line must not contain CR or LF".
Definition err_hello_late : bytes := bs "smtp: Hello called after other methods".
Definition err_requiretls : bytes := bs "smtp: server does not support REQUIRETLS".
Definition err_smtputf8 : bytes := bs "smtp: server does not support SMTPUTF8".
Definition err_ret : bytes := bs "smtp: Unknown RET parameter value".
Definition err_8bitmime : bytes := bs "smtp: server does not support 8BITMIME".
Definition err_binarymime : bytes := bs "smtp: server does not support BINARYMIME".
Definition err_body : bytes := bs "smtp: Unknown BODY parameter value".
Definition err_envid : bytes := bs "smtp: Malformed ENVID parameter value".
Definition err_notify : bytes := bs "smtp: Malformed NOTIFY parameter value".
Definition err_illegal_addr : bytes := bs "smtp: Illegal address".
Definition err_addr_type : bytes := bs "smtp: Unknown address type".
Definition err_closed_twice : bytes := bs "smtp: data writer closed twice".
Definition err_not_lmtp : bytes := bs "smtp: not a LMTP client".
Definition err_no_starttls : bytes := bs "smtp: server doesn't support STARTTLS".
(* base64.CorruptInputError: the harness renders every such error with this text *)
Definition err_base64 : bytes := bs "base64".
(* what the scripted mechanism returns when asked for more steps than scripted *)
Definition err_script_exhausted : bytes := bs "verif: sasl script exhausted".
(* model only: Write/Close without a data writer (the harness never does it) *)
Definition err_no_writer : bytes := bs "verif: no data writer".

(* ---------- state ---------- *)

(* dataCloser + the dotWriter it wraps *)
Record dwriter := mkDW {
  d_st : wstate;       (* dotWriter.state *)
  d_closed : bool;     (* dataCloser.closed *)
  d_cb : bool;         (* statusCb != nil *)
  d_open : bool        (* textproto.Writer.dot == this dotWriter *)
}.

Definition extmap := list (bytes * bytes).

Record client := mkC {
  c_lmtp : bool;
  c_local : bytes;                 (* localName *)
  c_did_greet : bool;
  c_greet_err : result;
  c_did_hello : bool;
  c_hello_err : result;
  c_ext : option extmap;           (* None: nil map *)
  c_rcpts : list bytes;
  c_tls : bool;                    (* the connection was upgraded by STARTTLS *)
  c_closed : bool;                 (* the connection is closed, or its TLS handshake failed:
                                      every Write on it fails *)
  c_werr : bool;                   (* sticky error of textproto's bufio.Writer *)
  c_in : bytes;                    (* what the server will still send *)
  c_tls_in : option bytes;         (* application stream after an upgrade; None: handshake fails *)
  c_out : bytes;                   (* octets written to the connection so far *)
  c_wbuf : bytes;                  (* pending octets in textproto's bufio.Writer *)
  c_dw : option dwriter;           (* the most recent data writer *)
  c_cbs : list (bytes * result)    (* status callback invocations so far, in order *)
}.

Definition set_local (c : client) (v : bytes) : client :=
  mkC (c_lmtp c) v (c_did_greet c) (c_greet_err c) (c_did_hello c) (c_hello_err c) (c_ext c)
      (c_rcpts c) (c_tls c) (c_closed c) (c_werr c) (c_in c) (c_tls_in c) (c_out c) (c_wbuf c)
      (c_dw c) (c_cbs c).
Definition set_greet (c : client) (d : bool) (e : result) : client :=
  mkC (c_lmtp c) (c_local c) d e (c_did_hello c) (c_hello_err c) (c_ext c)
      (c_rcpts c) (c_tls c) (c_closed c) (c_werr c) (c_in c) (c_tls_in c) (c_out c) (c_wbuf c)
      (c_dw c) (c_cbs c).
Definition set_did_hello (c : client) (v : bool) : client :=
  mkC (c_lmtp c) (c_local c) (c_did_greet c) (c_greet_err c) v (c_hello_err c) (c_ext c)
      (c_rcpts c) (c_tls c) (c_closed c) (c_werr c) (c_in c) (c_tls_in c) (c_out c) (c_wbuf c)
      (c_dw c) (c_cbs c).
Definition set_hello_err (c : client) (v : result) : client :=
  mkC (c_lmtp c) (c_local c) (c_did_greet c) (c_greet_err c) (c_did_hello c) v (c_ext c)
      (c_rcpts c) (c_tls c) (c_closed c) (c_werr c) (c_in c) (c_tls_in c) (c_out c) (c_wbuf c)
      (c_dw c) (c_cbs c).
Definition set_ext (c : client) (v : option extmap) : client :=
  mkC (c_lmtp c) (c_local c) (c_did_greet c) (c_greet_err c) (c_did_hello c) (c_hello_err c) v
      (c_rcpts c) (c_tls c) (c_closed c) (c_werr c) (c_in c) (c_tls_in c) (c_out c) (c_wbuf c)
      (c_dw c) (c_cbs c).
Definition set_rcpts (c : client) (v : list bytes) : client :=
  mkC (c_lmtp c) (c_local c) (c_did_greet c) (c_greet_err c) (c_did_hello c) (c_hello_err c) (c_ext c)
      v (c_tls c) (c_closed c) (c_werr c) (c_in c) (c_tls_in c) (c_out c) (c_wbuf c)
      (c_dw c) (c_cbs c).
Definition set_closed (c : client) (v : bool) : client :=
  mkC (c_lmtp c) (c_local c) (c_did_greet c) (c_greet_err c) (c_did_hello c) (c_hello_err c) (c_ext c)
      (c_rcpts c) (c_tls c) v (c_werr c) (c_in c) (c_tls_in c) (c_out c) (c_wbuf c)
      (c_dw c) (c_cbs c).
Definition set_werr (c : client) (v : bool) : client :=
  mkC (c_lmtp c) (c_local c) (c_did_greet c) (c_greet_err c) (c_did_hello c) (c_hello_err c) (c_ext c)
      (c_rcpts c) (c_tls c) (c_closed c) v (c_in c) (c_tls_in c) (c_out c) (c_wbuf c)
      (c_dw c) (c_cbs c).
Definition set_in (c : client) (v : bytes) : client :=
  mkC (c_lmtp c) (c_local c) (c_did_greet c) (c_greet_err c) (c_did_hello c) (c_hello_err c) (c_ext c)
      (c_rcpts c) (c_tls c) (c_closed c) (c_werr c) v (c_tls_in c) (c_out c) (c_wbuf c)
      (c_dw c) (c_cbs c).
(* one conn.Write(o) that succeeds, leaving [b] pending *)
Definition set_out_wbuf (c : client) (o b : bytes) : client :=
  mkC (c_lmtp c) (c_local c) (c_did_greet c) (c_greet_err c) (c_did_hello c) (c_hello_err c) (c_ext c)
      (c_rcpts c) (c_tls c) (c_closed c) (c_werr c) (c_in c) (c_tls_in c) o b
      (c_dw c) (c_cbs c).
Definition set_wbuf (c : client) (b : bytes) : client := set_out_wbuf c (c_out c) b.
Definition set_dw (c : client) (v : option dwriter) : client :=
  mkC (c_lmtp c) (c_local c) (c_did_greet c) (c_greet_err c) (c_did_hello c) (c_hello_err c) (c_ext c)
      (c_rcpts c) (c_tls c) (c_closed c) (c_werr c) (c_in c) (c_tls_in c) (c_out c) (c_wbuf c)
      v (c_cbs c).
Definition add_cb (c : client) (rcpt : bytes) (status : result) : client :=
  mkC (c_lmtp c) (c_local c) (c_did_greet c) (c_greet_err c) (c_did_hello c) (c_hello_err c) (c_ext c)
      (c_rcpts c) (c_tls c) (c_closed c) (c_werr c) (c_in c) (c_tls_in c) (c_out c) (c_wbuf c)
      (c_dw c) (c_cbs c ++ [(rcpt, status)]).

(* NewClient(conn) / NewClientLMTP(conn) on a connection that will deliver
   [stream]; [tls_stream] is what the TLS session would deliver after an
   upgrade *)
Definition new_client (lmtp : bool) (stream : bytes) (tls_stream : option bytes) : client :=
  mkC lmtp (bs "localhost") false RNil false RNil None [] false false false
      stream tls_stream [] [] None [].

(* ---------- bufio.Writer (4096) + the connection ---------- *)

(* [new] is written to a bufio.Writer holding [pending]: whole buffers are
   flushed while more than 4096 octets are pending, so afterwards at most 4096
   are (WriteByte flushes a FULL buffer only when the next octet arrives).
   Result: (flushed to the connection, still pending). *)
Definition bufio_push (pending new : bytes) : bytes * bytes :=
  let total := pending ++ new in
  let n := blen total in
  if (n <=? 4096)%N then ([], total)
  else let k := N.to_nat ((n - 1) / 4096 * 4096)%N in (firstn k total, skipn k total).

(* bufio.Writer.Write / WriteByte of the octets [o] *)
Definition bw_write (c : client) (o : bytes) : client :=
  if c_werr c then c
  else
    let '(fl, pend) := bufio_push (c_wbuf c) o in
    match fl with
    | [] => set_wbuf c pend
    | _ :: _ => if c_closed c then set_werr c true
                else set_out_wbuf c (c_out c ++ fl) pend
    end.

(* bufio.Writer.Flush: true = nil error *)
Definition bw_flush (c : client) : bool * client :=
  if c_werr c then (false, c)
  else
    match c_wbuf c with
    | [] => (true, c)
    | _ :: _ => if c_closed c then (false, set_werr c true)
                else (true, set_out_wbuf c (c_out c ++ c_wbuf c) [])
    end.

(* textproto.Writer.closeDot: an open dotWriter is closed (its terminator is
   written and flushed, the error dropped) *)
Definition close_dot (c : client) : client :=
  match c_dw c with
  | Some d =>
      if d_open d then
        let c1 := set_dw c (Some (mkDW (d_st d) (d_closed d) (d_cb d) false)) in
        snd (bw_flush (bw_write c1 (dw_close (d_st d))))
      else c
  | None => c
  end.

(* textproto.Writer.PrintfLine with the already formatted line *)
Definition printf_line (c : client) (line : bytes) : bool * client :=
  bw_flush (bw_write (close_dot c) (line ++ crlf)).

(* Client.readResponse(expect) *)
Definition c_read (c : client) (expect : Z) : (Z * bytes * cerr) * client :=
  let '(r, rest) := client_read_response expect (c_in c) in (r, set_in c rest).

(* Client.cmd(expect, line) *)
Definition c_cmd (c : client) (expect : Z) (line : bytes) : (Z * bytes * result) * client :=
  let '(ok, c1) := printf_line c line in
  if ok then
    let '((code, msg, e), c2) := c_read c1 expect in ((code, msg, res_of_cerr e), c2)
  else ((0%Z, [], RIo), c1).

(* ---------- greeting and hello ---------- *)

(* validateLine *)
Definition valid_line (s : bytes) : bool := negb (mem_byte LF s || mem_byte CR s).

(* Client.greet *)
Definition c_greet (c : client) : result * client :=
  if c_did_greet c then (c_greet_err c, c)
  else
    let '((_, _, e), c1) := c_read c 220 in
    match e with
    | CNil => (RNil, set_greet c1 true (c_greet_err c1))
    | _ => (res_of_cerr e, set_closed (set_greet c1 true (res_of_cerr e)) true)
    end.

(* Client.helo *)
Definition c_helo (c : client) : result * client :=
  let '((_, _, e), c1) := c_cmd (set_ext c None) 250 (bs "HELO " ++ c_local c) in (e, c1).

(* the map built by ehlo(): later lines overwrite earlier ones; represented
   as an association list searched from the head *)
Definition ext_line (m : extmap) (line : bytes) : extmap :=
  match cut_byte " " line with
  | Some (k, v) => (k, v) :: m
  | None => (line, []) :: m
  end.

Definition parse_ext (msg : bytes) : extmap :=
  match split_byte LF msg with
  | _ :: ((_ :: _) as l) => fold_left ext_line l []
  | _ => []
  end.

Fixpoint ext_get (k : bytes) (m : extmap) : option bytes :=
  match m with
  | [] => None
  | (k', v) :: r => if bytes_eqb k k' then Some v else ext_get k r
  end.

(* _, ok := c.ext[key] *)
Definition has_ext (e : option extmap) (k : bytes) : bool :=
  match e with
  | Some m => match ext_get k m with Some _ => true | None => false end
  | None => false
  end.

(* Client.ehlo *)
Definition c_ehlo (c : client) : result * client :=
  let verb := if c_lmtp c then bs "LHLO " else bs "EHLO " in
  let '((_, msg, e), c1) := c_cmd c 250 (verb ++ c_local c) in
  match e with
  | RNil => (RNil, set_ext c1 (Some (parse_ext msg)))
  | _ => (e, c1)
  end.

Definition is_500_502 (r : result) : bool :=
  match r with
  | RSmtp code _ _ => (code =? 500)%Z || (code =? 502)%Z
  | _ => false
  end.

(* Client.hello *)
Definition c_hello (c : client) : result * client :=
  if c_did_hello c then (c_hello_err c, c)
  else
    let '(g, c1) := c_greet c in
    match g with
    | RNil =>
        let '(e, c2) := c_ehlo (set_did_hello c1 true) in
        match e with
        | RNil => (c_hello_err c2, c2)
        | _ =>
            if is_500_502 e then
              let '(h, c3) := c_helo c2 in (h, set_hello_err c3 h)
            else (e, set_hello_err c2 e)
        end
    | _ => (g, c1)
    end.

(* run [k] after a successful lazy hello *)
Definition with_hello (c : client) (k : client -> result * client) : result * client :=
  let '(h, c1) := c_hello c in
  match h with RNil => k c1 | _ => (h, c1) end.

(* Client.Hello(localName) *)
Definition c_hello_api (c : client) (name : bytes) : result * client :=
  if negb (valid_line name) then (RLocal err_line, c)
  else if c_did_hello c then (RLocal err_hello_late, c)
  else c_hello (set_local c name).

(* Client.Extension(ext) *)
Definition c_extension (c : client) (name : bytes) : (bool * bytes) * client :=
  let '(h, c1) := c_hello c in
  match h with
  | RNil =>
      match c_ext c1 with
      | Some m =>
          match ext_get (to_upper name) m with
          | Some v => ((true, v), c1)
          | None => ((false, []), c1)
          end
      | None => ((false, []), c1)
      end
  | _ => ((false, []), c1)
  end.

(* the final error of a command *)
Definition cmd_err (c : client) (expect : Z) (line : bytes) : result * client :=
  let '((_, _, e), c1) := c_cmd c expect line in (e, c1).

(* Client.Verify(addr) *)
Definition c_verify (c : client) (addr : bytes) : result * client :=
  if negb (valid_line addr) then (RLocal err_line, c)
  else with_hello c (fun c1 => cmd_err c1 250 (bs "VRFY " ++ addr)).

(* ---------- MAIL ---------- *)

Definition key (s : string) : bytes := bs s.

(* the DSN block of Mail: RET and ENVID *)
Definition mail_dsn_params (o : mail_opts) : list bytes + bytes :=
  let ret :=
    if bytes_eqb (mo_ret o) (bs "FULL") || bytes_eqb (mo_ret o) (bs "HDRS")
    then inl [bs "RET=" ++ mo_ret o]
    else match mo_ret o with [] => inl [] | _ :: _ => inr err_ret end in
  match ret with
  | inr e => inr e
  | inl p =>
      match mo_envid o with
      | [] => inl p
      | _ :: _ =>
          if is_printable_ascii (mo_envid o)
          then inl (p ++ [bs "ENVID=" ++ encode_xtext (mo_envid o)])
          else inr err_envid
      end
  end.

(* the value of AUTH=: a non-nil empty *opts.Auth stands for AUTH=<> *)
Definition auth_value (a : bytes) : bytes :=
  match a with
  | [] => bs "<>"
  | _ :: _ => encode_xtext a
  end.

(* the BODY parameter: MailOptions.Body when it is set (7BIT / 8BITMIME need
   the 8BITMIME extension, BINARYMIME needs BINARYMIME; anything else is refused
   locally), otherwise BODY=8BITMIME whenever the server offers 8BITMIME *)
Definition mail_body_param (ext : option extmap) (opts : option mail_opts) : list bytes + bytes :=
  let dflt := if has_ext ext (key "8BITMIME") then [bs "BODY=8BITMIME"] else [] in
  match opts with
  | None => inl dflt
  | Some o =>
      match mo_body o with
      | [] => inl dflt
      | _ :: _ =>
          if bytes_eqb (mo_body o) (bs "7BIT") || bytes_eqb (mo_body o) (bs "8BITMIME") then
            if has_ext ext (key "8BITMIME") then inl [bs "BODY=" ++ mo_body o] else inr err_8bitmime
          else if bytes_eqb (mo_body o) (bs "BINARYMIME") then
            if has_ext ext (key "BINARYMIME") then inl [bs "BODY=" ++ mo_body o] else inr err_binarymime
          else inr err_body
      end
  end.

(* the parameters of the MAIL line in the order Mail appends them (each is
   preceded by one SP on the line), or the local error that aborts the call *)
Definition mail_params (ext : option extmap) (opts : option mail_opts) : list bytes + bytes :=
  match mail_body_param ext opts with
  | inr e => inr e
  | inl p1 =>
  match opts with
  | None => inl p1
  | Some o =>
      let p2 := if has_ext ext (key "SIZE") && negb (mo_size o =? 0)%Z
                then p1 ++ [bs "SIZE=" ++ dec_of_Z (mo_size o)] else p1 in
      if mo_requiretls o && negb (has_ext ext (key "REQUIRETLS")) then inr err_requiretls
      else
        let p3 := if mo_requiretls o then p2 ++ [bs "REQUIRETLS"] else p2 in
        if mo_utf8 o && negb (has_ext ext (key "SMTPUTF8")) then inr err_smtputf8
        else
          let p4 := if mo_utf8 o then p3 ++ [bs "SMTPUTF8"] else p3 in
          match (if has_ext ext (key "DSN") then mail_dsn_params o else inl []) with
          | inr e => inr e
          | inl d =>
              let p5 := p4 ++ d in
              inl (match mo_auth o with
                   | Some a => if has_ext ext (key "AUTH")
                               then p5 ++ [bs "AUTH=" ++ auth_value a] else p5
                   | None => p5
                   end)
          end
  end
  end.

(* " p1 p2 ..." *)
Definition render_params (ps : list bytes) : bytes := flat_map (fun p => " " :: p) ps.

Definition mail_line (from : bytes) (ps : list bytes) : bytes :=
  bs "MAIL FROM:<" ++ from ++ bs ">" ++ render_params ps.

(* Mail after validateLine and hello *)
Definition c_mail_step (from : bytes) (opts : option mail_opts) (c : client) : result * client :=
  let c1 := set_rcpts c [] in
  match mail_params (c_ext c1) opts with
  | inr e => (RLocal e, c1)
  | inl ps => cmd_err c1 250 (mail_line from ps)
  end.

(* Client.Mail(from, opts) *)
Definition c_mail (c : client) (from : bytes) (opts : option mail_opts) : result * client :=
  if negb (valid_line from) then (RLocal err_line, c)
  else with_hello c (c_mail_step from opts).

(* ---------- RCPT ---------- *)

(* Time.IsZero: January 1, year 1, 00:00:00 UTC *)
Definition rt_is_zero (t : rtime) : bool :=
  (rt_unix t =? -62135596800)%Z && (rt_nsec t =? 0)%Z.

(* civil date of a day number (days since 1970-01-01), proleptic Gregorian *)
Definition civil_from_days (days : Z) : Z * Z * Z :=
  let z := (days + 719468)%Z in
  let era := (z / 146097)%Z in
  let doe := (z - era * 146097)%Z in
  let yoe := ((doe - doe / 1460 + doe / 36524 - doe / 146096) / 365)%Z in
  let doy := (doe - (365 * yoe + yoe / 4 - yoe / 100))%Z in
  let mp := ((5 * doy + 2) / 153)%Z in
  let d := (doy - (153 * mp + 2) / 5 + 1)%Z in
  let m := if (mp <? 10)%Z then (mp + 3)%Z else (mp - 9)%Z in
  let y := (yoe + era * 400 + (if (m <=? 2)%Z then 1 else 0))%Z in
  (y, m, d).

(* time.appendInt(b, x, width) *)
Definition append_int (x : Z) (width : nat) : bytes :=
  let d := dec_of_N (Z.to_N (Z.abs x)) in
  (if (x <? 0)%Z then ["-"] else []) ++ repeat "0" (width - List.length d) ++ d.

(* Time.Format(time.RFC3339) *)
Definition format_rfc3339 (t : rtime) : bytes :=
  let off := rt_off t in
  let loc := (rt_unix t + off)%Z in
  let days := (loc / 86400)%Z in
  let secs := (loc mod 86400)%Z in
  let '(y, m, d) := civil_from_days days in
  append_int y 4 ++ "-" :: append_int m 2 ++ "-" :: append_int d 2 ++ "T" ::
  append_int (secs / 3600) 2 ++ ":" :: append_int (secs mod 3600 / 60) 2 ++ ":" ::
  append_int (secs mod 60) 2 ++
  (if (off =? 0)%Z then ["Z"]
   else
     let zone := Z.quot off 60 in
     let az := Z.abs zone in
     (if (zone <? 0)%Z then "-" else "+") :: append_int (az / 60) 2 ++ ":" :: append_int (az mod 60) 2).

(* the DSN block of Rcpt: NOTIFY and ORCPT *)
Definition rcpt_dsn_params (ext : option extmap) (o : rcpt_opts) : list bytes + bytes :=
  let notify :=
    match ro_notify o with
    | [] => inl []
    | _ :: _ => if notify_ok (ro_notify o)
                then inl [bs "NOTIFY=" ++ join (bs ",") (ro_notify o)]
                else inr err_notify
    end in
  match notify with
  | inr e => inr e
  | inl p =>
      match ro_orcpt o with
      | [] => inl p
      | _ :: _ =>
          if bytes_eqb (ro_orcpt_type o) (bs "RFC822") then
            if is_printable_ascii (ro_orcpt o)
            then inl (p ++ [bs "ORCPT=RFC822;" ++ encode_xtext (ro_orcpt o)])
            else inr err_illegal_addr
          else if bytes_eqb (ro_orcpt_type o) (bs "UTF-8") then
            inl (p ++ [bs "ORCPT=UTF-8;" ++
                       (if has_ext ext (key "SMTPUTF8")
                        then encode_utf8_addr_unitext (ro_orcpt o)
                        else encode_utf8_addr_xtext (ro_orcpt o))])
          else inr err_addr_type
      end
  end.

Definition rcpt_params (ext : option extmap) (opts : option rcpt_opts) : list bytes + bytes :=
  match opts with
  | None => inl []
  | Some o =>
      match (if has_ext ext (key "DSN") then rcpt_dsn_params ext o else inl []) with
      | inr e => inr e
      | inl d =>
          inl (match ro_rrvs o with
               | Some t => if has_ext ext (key "RRVS") && negb (rt_is_zero t)
                           then d ++ [bs "RRVS=" ++ format_rfc3339 t] else d
               | None => d
               end)
      end
  end.

Definition rcpt_line (to : bytes) (ps : list bytes) : bytes :=
  bs "RCPT TO:<" ++ to ++ bs ">" ++ render_params ps.

(* Client.Rcpt(to, opts): no hello() here *)
Definition c_rcpt (c : client) (to : bytes) (opts : option rcpt_opts) : result * client :=
  if negb (valid_line to) then (RLocal err_line, c)
  else
    match rcpt_params (c_ext c) opts with
    | inr e => (RLocal e, c)
    | inl ps =>
        let '(e, c1) := cmd_err c 25 (rcpt_line to ps) in
        match e with
        | RNil => (RNil, set_rcpts c1 (c_rcpts c1 ++ [to]))
        | _ => (e, c1)
        end
    end.

(* ---------- DATA ---------- *)

(* Data / LMTPData after the 354: c.text.DotWriter() wrapped in a dataCloser *)
Definition open_writer (c : client) (cb : bool) : client :=
  set_dw (close_dot c) (Some (mkDW WBegin false cb true)).

(* Client.Data() *)
Definition c_data (c : client) : result * client :=
  let '(e, c1) := cmd_err c 354 (bs "DATA") in
  match e with
  | RNil => (RNil, open_writer c1 false)
  | _ => (e, c1)
  end.

(* Client.LMTPData(statusCb); cb = (statusCb != nil) *)
Definition c_lmtp_data (c : client) (cb : bool) : result * client :=
  if negb (c_lmtp c) then (RLocal err_not_lmtp, c)
  else
    let '(e, c1) := cmd_err c 354 (bs "DATA") in
    match e with
    | RNil => (RNil, open_writer c1 cb)
    | _ => (e, c1)
    end.

(* dataCloser.Write(part) = dotWriter.Write(part).  Note that neither checks
   whether the writer was closed. *)
Definition dw_write (c : client) (part : bytes) : result * client :=
  match c_dw c with
  | None => (RLocal err_no_writer, c)
  | Some d =>
      let '(st, o) := DotWriter.dw_write (d_st d) part in
      let c1 := bw_write (set_dw c (Some (mkDW st (d_closed d) (d_cb d) (d_open d)))) o in
      match part with
      | [] => (RNil, c1)
      | _ :: _ => ((if c_werr c1 then RIo else RNil), c1)
      end
  end.

(* the LMTP reply loop of dataCloser.Close: one reply per entry of c.rcpts *)
Fixpoint lmtp_replies (rcpts : list bytes) (cb : bool) (c : client) (first : result)
  : result * client :=
  match rcpts with
  | [] => (first, c)
  | r :: rs =>
      let '((_, _, e), c1) := c_read c 250 in
      match e with
      | CNil => lmtp_replies rs cb (if cb then add_cb c1 r RNil else c1) first
      | CSmtp code ec m =>
          if cb then lmtp_replies rs cb (add_cb c1 r (RSmtp code ec m)) first
          else lmtp_replies rs cb c1 (if is_nil first then RSmtp code ec m else first)
      | _ => (res_of_cerr e, c1)
      end
  end.

(* dataCloser.Close() *)
Definition dw_close (c : client) : result * client :=
  match c_dw c with
  | None => (RLocal err_no_writer, c)
  | Some d =>
      if d_closed d then (RLocal err_closed_twice, c)
      else
        let c1 := set_dw c (Some (mkDW (d_st d) true (d_cb d) false)) in
        let '(ok, c2) := bw_flush (bw_write c1 (DotWriter.dw_close (d_st d))) in
        if negb ok then (RIo, c2)
        else if c_lmtp c2 then lmtp_replies (c_rcpts c2) (d_cb d) c2 RNil
        else let '((_, _, e), c3) := c_read c2 250 in (res_of_cerr e, c3)
  end.

(* ---------- RSET, NOOP, QUIT ---------- *)

Definition c_reset_step (c : client) : result * client :=
  let '(e, c1) := cmd_err c 250 (bs "RSET") in
  match e with
  | RNil => (RNil, set_rcpts (set_hello_err (set_did_hello c1 false) RNil) [])
  | _ => (e, c1)
  end.
Definition c_reset (c : client) : result * client := with_hello c c_reset_step.

Definition c_noop (c : client) : result * client :=
  with_hello c (fun c1 => cmd_err c1 250 (bs "NOOP")).

Definition c_quit_step (c : client) : result * client :=
  let '(e, c1) := cmd_err c 221 (bs "QUIT") in
  match e with
  | RNil => (RNil, set_closed c1 true)     (* c.Close() *)
  | _ => (e, c1)
  end.
Definition c_quit (c : client) : result * client := with_hello c c_quit_step.

(* ---------- AUTH ---------- *)

(* the client-side mechanism as a script: Start() = (mech, ir, err), then one
   step per Next() call *)
Inductive cstep :=
| CResp (r : option bytes)     (* (r, nil); None: a nil response *)
| CErr (text : bytes).         (* (nil, err) *)

Record cscript := mkCS {
  cs_mech : bytes;
  cs_ir : option bytes;             (* None: nil; Some []: empty, sent as "=" *)
  cs_start_err : option bytes;
  cs_steps : list cstep
}.

(* "abort the AUTH": c.cmd(501, "*"), result dropped *)
Definition auth_abort (c : client) : client := snd (c_cmd c 501 (bs "*")).

(* the loop of Auth, entered with err == nil, after the reply (code, msg64).
   [got]: the challenges handed to the mechanism's Next so far. *)
Fixpoint auth_loop (steps : list cstep) (c : client) (code : Z) (msg64 : bytes) (got : list bytes)
  : result * list bytes * client :=
  if (code =? 334)%Z then
    match b64_decode msg64 with
    | None => (RLocal err_base64, got, auth_abort c)
    | Some msg =>
        match steps with
        | [] => (RLocal err_script_exhausted, got ++ [msg], auth_abort c)
        | CErr t :: _ => (RLocal t, got ++ [msg], auth_abort c)
        | CResp None :: _ => (RNil, got ++ [msg], c)
        | CResp (Some r) :: steps' =>
            let '((code', msg', e), c1) := c_cmd c 0 (b64_encode r) in
            match e with
            | RNil => auth_loop steps' c1 code' msg' (got ++ [msg])
            | _ => (e, got ++ [msg], c1)
            end
        end
    end
  else if (code =? 235)%Z then (RNil, got, c)
  else
    let '(c', ec, m) := to_smtp_err code msg64 in (RSmtp c' ec m, got, auth_abort c).

(* strings.TrimSpace(fmt.Sprintf("AUTH %s %s", mech, resp64)) *)
Definition auth_line (s : cscript) : bytes :=
  let resp64 :=
    match cs_ir s with
    | None => []
    | Some [] => bs "="
    | Some ((_ :: _) as ir) => b64_encode ir
    end in
  trim_space (bs "AUTH " ++ cs_mech s ++ " " :: resp64).

(* Auth after hello *)
Definition c_auth_step (s : cscript) (c : client) : result * list bytes * client :=
  match cs_start_err s with
  | Some t => (RLocal t, [], c)
  | None =>
      let '((code, msg64, e), c1) := c_cmd c 0 (auth_line s) in
      match e with
      | RNil => auth_loop (cs_steps s) c1 code msg64 []
      | _ => (e, [], c1)
      end
  end.

(* Client.Auth(a): (error, challenges the mechanism received, state) *)
Definition c_auth (c : client) (s : cscript) : result * list bytes * client :=
  let '(h, c1) := c_hello c in
  match h with
  | RNil => c_auth_step s c1
  | _ => (h, [], c1)
  end.

(* ---------- SendMail (method) ---------- *)

Fixpoint rcpt_all (c : client) (tos : list bytes) : result * client :=
  match tos with
  | [] => (RNil, c)
  | t :: r =>
      let '(e, c1) := c_rcpt c t None in
      match e with RNil => rcpt_all c1 r | _ => (e, c1) end
  end.

(* Client.SendMail(from, to, r) with r a bytes.Reader over [body]: io.Copy
   makes one Write call with the whole body (none when it is empty) *)
Definition c_send_mail (c : client) (from : bytes) (tos : list bytes) (body : bytes)
  : result * client :=
  let '(e1, c1) := c_mail c from None in
  match e1 with
  | RNil =>
      let '(e2, c2) := rcpt_all c1 tos in
      match e2 with
      | RNil =>
          let '(e3, c3) := c_data c2 in
          match e3 with
          | RNil =>
              let '(e4, c4) := match body with [] => (RNil, c3) | _ :: _ => dw_write c3 body end in
              match e4 with
              | RNil => dw_close c4
              | _ => (e4, c4)
              end
          | _ => (e3, c3)
          end
      | _ => (e2, c2)
      end
  | _ => (e1, c1)
  end.

(* ---------- STARTTLS ---------- *)

(* setConn(tls.Client(c.conn, config)): a new textproto.Conn (new bufio
   reader and writer) over the TLS session.  Whatever the old reader had
   buffered or would still have received in plaintext is gone; the client
   reads the TLS application stream from now on.  When the handshake will
   fail ([c_tls_in] = None) the new connection fails every Read and Write. *)
Definition switch_to_tls (c : client) : client :=
  mkC (c_lmtp c) (c_local c) (c_did_greet c) (c_greet_err c) false (c_hello_err c) (c_ext c)
      (c_rcpts c) true
      (match c_tls_in c with Some _ => c_closed c | None => true end)
      false
      (match c_tls_in c with Some s => s | None => [] end)
      None (c_out c) [] None (c_cbs c).

(* Client.startTLS up to the handshake *)
Definition c_starttls (c : client) : result * client :=
  with_hello c (fun c1 =>
    let '(e, c2) := cmd_err c1 220 (bs "STARTTLS") in
    match e with
    | RNil => (RNil, switch_to_tls c2)
    | _ => (e, c2)
    end).

(* initStartTLS *)
Definition c_init_starttls (c : client) : result * client :=
  let '(h, c1) := c_hello c in
  match h with
  | RNil =>
      let '((ok, _), c2) := c_extension c1 (bs "STARTTLS") in
      if ok then c_starttls c2 else (RLocal err_no_starttls, c2)
  | _ => (h, c1)
  end.

(* NewClientStartTLS: on error the connection is closed (and no client is
   returned) *)
Definition c_new_starttls (c : client) : result * client :=
  let '(e, c1) := c_init_starttls c in
  match e with
  | RNil => (RNil, c1)
  | _ => (e, set_closed c1 true)
  end.

(* ---------- API calls as data (for replaying recorded call sequences) ---------- *)

Inductive call :=
| KHello (name : bytes)
| KVerify (addr : bytes)
| KMail (from : bytes) (opts : option mail_opts)
| KRcpt (to : bytes) (opts : option rcpt_opts)
| KData
| KLmtpData (cb : bool)
| KWrite (part : bytes)
| KClose
| KReset
| KNoop
| KQuit
| KAuth (s : cscript)
| KExtension (name : bytes)
| KSendMail (from : bytes) (tos : list bytes) (body : bytes)
| KStartTLS.                       (* NewClientStartTLS: only as the first call *)

(* what a call returns besides the error *)
Record cret := mkR {
  r_err : result;
  r_ext : option (bool * bytes);   (* Extension *)
  r_got : list bytes               (* Auth: challenges given to the mechanism *)
}.

Definition ret (p : result * client) : cret * client := (mkR (fst p) None [], snd p).

Definition run_call (c : client) (k : call) : cret * client :=
  match k with
  | KHello n => ret (c_hello_api c n)
  | KVerify a => ret (c_verify c a)
  | KMail f o => ret (c_mail c f o)
  | KRcpt t o => ret (c_rcpt c t o)
  | KData => ret (c_data c)
  | KLmtpData cb => ret (c_lmtp_data c cb)
  | KWrite p => ret (dw_write c p)
  | KClose => ret (dw_close c)
  | KReset => ret (c_reset c)
  | KNoop => ret (c_noop c)
  | KQuit => ret (c_quit c)
  | KAuth s => let '(e, got, c1) := c_auth c s in (mkR e None got, c1)
  | KExtension n => let '(x, c1) := c_extension c n in (mkR RNil (Some x) [], c1)
  | KSendMail f t b => ret (c_send_mail c f t b)
  | KStartTLS => ret (c_new_starttls c)
  end.

(* ---------- examples ---------- *)

Definition ex_stream : bytes :=
  bs "220 hi" ++ crlf ++
  bs "250-srv" ++ crlf ++ bs "250-SIZE 100" ++ crlf ++ bs "250-DSN" ++ crlf ++ bs "250 8BITMIME" ++ crlf ++
  bs "250 2.0.0 ok" ++ crlf ++ bs "250 ok" ++ crlf ++ bs "550 5.1.1 no" ++ crlf.

Example ex_mail_rcpt :
  let c0 := new_client false ex_stream None in
  let '(e1, c1) := c_mail c0 (bs "a@b") (Some (mkMO [] 42 false false (bs "FULL") (bs "id 1") None)) in
  let '(e2, c2) := c_rcpt c1 (bs "r@s") (Some (mkRO [bs "NEVER"] (bs "RFC822") (bs "o@p") None)) in
  let '(e3, c3) := c_rcpt c2 (bs "x@y") None in
  (e1, e2, e3, c_rcpts c3, c_out c3)
  = (RNil, RNil, RSmtp 550 (5, 1, 1)%Z (bs "no"), [bs "r@s"],
     bs "EHLO localhost" ++ crlf ++
     bs "MAIL FROM:<a@b> BODY=8BITMIME SIZE=42 RET=FULL ENVID=id+201" ++ crlf ++
     bs "RCPT TO:<r@s> NOTIFY=NEVER ORCPT=RFC822;o@p" ++ crlf ++
     bs "RCPT TO:<x@y>" ++ crlf).
Proof. vm_compute. reflexivity. Qed.

Example ex_inject_refused :
  let c0 := new_client false ex_stream None in
  c_mail c0 (bs "a@b>" ++ crlf ++ bs "RSET") None = (RLocal err_line, c0).
Proof. vm_compute. reflexivity. Qed.

(* MailOptions.Body is sent as given when its extension is offered *)
Example ex_body :
  let ext := Some (parse_ext (bs "srv" ++ [LF] ++ bs "8BITMIME")) in
  let body b := mkMO b 0 false false [] [] None in
  mail_params ext (Some (body (bs "7BIT"))) = inl [bs "BODY=7BIT"]
  /\ mail_params ext (Some (body (bs "8BITMIME"))) = inl [bs "BODY=8BITMIME"]
  /\ mail_params ext (Some (body (bs ""))) = inl [bs "BODY=8BITMIME"]
  /\ mail_params ext (Some (body (bs "BINARYMIME"))) = inr err_binarymime
  /\ mail_params ext (Some (body (bs "binarymime"))) = inr err_body
  /\ mail_params (Some (parse_ext (bs "srv" ++ [LF] ++ bs "BINARYMIME"))) (Some (body (bs "BINARYMIME")))
     = inl [bs "BODY=BINARYMIME"]
  /\ mail_params (Some (parse_ext (bs "srv" ++ [LF] ++ bs "BINARYMIME"))) (Some (body (bs "7BIT")))
     = inr err_8bitmime.
Proof. vm_compute. repeat split. Qed.

Example ex_rfc3339 :
  format_rfc3339 (mkRT 1700000000 0 0) = bs "2023-11-14T22:13:20Z"
  /\ format_rfc3339 (mkRT 1700000000 0 (-12600)) = bs "2023-11-14T18:43:20-03:30"
  /\ format_rfc3339 (mkRT (-62135596800) 0 3600) = bs "0001-01-01T01:00:00+01:00".
Proof. vm_compute. repeat split. Qed.
