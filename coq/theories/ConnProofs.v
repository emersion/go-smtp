(* The server model seen from outside its handlers - the dispatch of a command, one round
   of the command loop, what the operations on a chunked transfer emit, the commands that
   deliver nothing - as principles that every proof about all traces of the model uses.
   Then the first such proof: every trace is accepted by the monitor automaton of Order.v;
   a refinement with an abstraction function (absx) from connection states to monitor
   states and a loop invariant (Inv), one lemma per handler, induction along the loop. *)
From Smtp Require Import Bytes GoStrings Transport DataReader Parse Base64 Reply Conn Order OrderStrict.

(* reduce the projections and field updates of a connection record, and nothing else *)
Ltac cs :=
  cbn [c_t c_phases c_be c_helo c_session c_errs c_binarymime c_from c_rcpts c_did_auth c_closed
       c_tls c_bdat c_received upd_t upd_be upd_helo upd_session upd_errs upd_binarymime upd_from
       upd_rcpts upd_did_auth upd_bdat upd_received fst snd] in *.
(* the same in the conclusion only, and negb *)
Ltac cs_goal :=
  cbn [c_t c_phases c_be c_helo c_session c_errs c_binarymime c_from c_rcpts c_did_auth c_closed
       c_tls c_bdat c_received upd_t upd_be upd_helo upd_session upd_errs upd_binarymime upd_from
       upd_rcpts upd_did_auth upd_bdat upd_received fst snd negb].

Definition is_wire (e : event) : bool := match e with EWire _ => true | _ => false end.

Definition abort_ev (bd : option bdat) : list event :=
  match bd with Some b => snd (bd_end b RDataReset) | None => [] end.

Definition reset_c (c : conn) : conn :=
  mkC (c_t c) (c_phases c) (c_be c) (c_helo c) (c_session c) (c_errs c) (c_binarymime c) false []
      (c_did_auth c) (c_closed c) (c_tls c) None 0%Z.
Definition reset_ev (c : conn) : list event :=
  abort_ev (c_bdat c) ++ (if c_session c then [EReset] else []).

Lemma do_reset_eq c : do_reset c = (reset_c c, reset_ev c).
Proof.
  unfold do_reset, reset_c, reset_ev, abort_ev. destruct c as [t ph be h se er bm fr rc da cl tl bd rv].
  cbn. destruct bd as [b|]; [destruct (bd_end b RDataReset)|]; reflexivity.
Qed.

Definition close_c (c : conn) : conn :=
  mkC (set_closed (c_t c)) (c_phases c) (c_be c) (c_helo c) false (c_errs c) (c_binarymime c)
      (c_from c) (c_rcpts c) (c_did_auth c) true (c_tls c) None (c_received c).
Definition close_ev (c : conn) : list event :=
  abort_ev (c_bdat c) ++ (if c_session c then [ELogout] else []) ++ [EClose].

Lemma do_close_eq c : do_close c = (close_c c, close_ev c).
Proof.
  unfold do_close, close_c, close_ev, abort_ev. destruct c as [t ph be h se er bm fr rc da cl tl bd rv].
  cbn. destruct bd as [b|]; [destruct (bd_end b RDataReset)|]; reflexivity.
Qed.

Lemma close_ev_upd_t c t' : close_ev (upd_t c t') = close_ev c.
Proof. reflexivity. Qed.

(* A goal [Q (match x with ... end)] about the result of a handler is taken one step into the
   handler's body by destructing the innermost scrutinee (the equation is kept); a reset or a
   Close met there is put in closed form instead.  [walk] repeats that down to the leaves,
   which are explicit pairs of a state and an event list. *)
Ltac inner x :=
  lazymatch x with
  | match ?y with _ => _ end => inner y
  | do_reset ?c => rewrite (do_reset_eq c)
  | do_close ?c => rewrite (do_close_eq c)
  | _ => destruct x eqn:?
  end.
Ltac walk_step :=
  match goal with |- _ (match ?x with _ => _ end) => inner x; cbv beta iota zeta end.
Ltac walk := cbv zeta; cs_goal; repeat (walk_step; cs_goal); cs.

Lemma bd_end_cases b term :
  bd_end b term = (b, []) \/ bd_done b = None /\ bd_end b term = bd_finish b (Some term).
Proof. unfold bd_end. destruct (bd_done b); [left|right; split]; reflexivity. Qed.

Definition bd_more (b : bdat) (a : bytes) : bdat :=
  mkBD (bd_plan b) (bd_got b ++ a) None (bd_rcpts b) (bd_panics b).

Lemma bd_feed_cases b chunk :
  fst (bd_feed b chunk) = (b, [])
  \/ bd_done b = None
     /\ exists a, (a = chunk \/ exists n, a = fst (fst (take_N n chunk)))
        /\ (fst (bd_feed b chunk) = (bd_more b a, []) \/ fst (bd_feed b chunk) = bd_finish (bd_more b a) None).
Proof.
  unfold bd_feed. destruct chunk as [|x chunk]; [left; reflexivity|].
  destruct (bd_done b); [left; reflexivity|right; split; [reflexivity|]].
  destruct (dp_stop (bd_plan b)) as [k|]; [|exists (x :: chunk); split; left; reflexivity].
  destruct (take_N (k - blen (bd_got b)) (x :: chunk)) as [[a r] m] eqn:E.
  exists a. split; [right; exists (k - blen (bd_got b))%N; rewrite E; reflexivity|].
  fold (bd_more b a).
  destruct (_ <? _)%N; [left; reflexivity|right].
  destruct (bd_finish (bd_more b a) None). destruct (_ =? _)%N; reflexivity.
Qed.

Lemma bd_new_cases p rc sp :
  let b := mkBD p [] None rc (dp_panic p || sp) in
  bd_new p rc sp = (b, [EBdatStart])
  \/ bd_new p rc sp = (fst (bd_finish b None), EBdatStart :: snd (bd_finish b None)).
Proof. unfold bd_new. destruct (dp_stop p) as [[|k]|]; [right|left|left]; reflexivity. Qed.

Lemma forallb_Forall {A} (p : A -> bool) l : forallb p l = true <-> Forall (fun x => p x = true) l.
Proof. rewrite forallb_forall, Forall_forall. reflexivity. Qed.

Section ForallEvents.
Variable P : event -> Prop.

Lemma Forall_bd_end b term :
  (bd_done b = None -> P (EDelivery (bd_got b) (Some term) (plan_ret (bd_plan b) (Some term)) (bd_panics b))) ->
  Forall P (snd (bd_end b term)).
Proof.
  intros H. destruct (bd_end_cases b term) as [->|[Hd ->]]; [constructor|].
  repeat constructor. exact (H Hd).
Qed.

Lemma Forall_bd_feed b chunk :
  (forall a, P (EDelivery (bd_got b ++ a) None (plan_ret (bd_plan b) None) (bd_panics b))) ->
  Forall P (snd (fst (bd_feed b chunk))).
Proof.
  intros H. destruct (bd_feed_cases b chunk) as [->|(_ & a & _ & [->| ->])]; [constructor..|].
  repeat constructor. apply H.
Qed.

Lemma Forall_bd_new p rc sp :
  P EBdatStart -> P (EDelivery [] None (plan_ret p None) (dp_panic p || sp)) ->
  Forall P (snd (bd_new p rc sp)).
Proof. intros H1 H2. destruct (bd_new_cases p rc sp) as [->| ->]; repeat constructor; assumption. Qed.

Lemma Forall_abort_ev bd :
  (forall b, bd = Some b -> bd_done b = None ->
     P (EDelivery (bd_got b) (Some RDataReset) (plan_ret (bd_plan b) (Some RDataReset)) (bd_panics b))) ->
  Forall P (abort_ev bd).
Proof. intros H. destruct bd as [b|]; [apply Forall_bd_end, H; reflexivity|constructor]. Qed.

Lemma Forall_reset_ev c : Forall P (abort_ev (c_bdat c)) -> P EReset -> Forall P (reset_ev c).
Proof.
  intros H1 H2. apply Forall_app. split; [exact H1|]. destruct (c_session c); repeat constructor; exact H2.
Qed.

Lemma Forall_close_ev c :
  Forall P (abort_ev (c_bdat c)) -> P ELogout -> P EClose -> Forall P (close_ev c).
Proof.
  intros H1 H2 H3. apply Forall_app. split; [exact H1|].
  destruct (c_session c); repeat constructor; assumption.
Qed.

Lemma Forall_wires l : (forall w, P (EWire w)) -> forallb is_wire l = true -> Forall P l.
Proof.
  intros H Hw. apply forallb_Forall in Hw. revert Hw. apply Forall_impl.
  intros [] He; try discriminate. apply H.
Qed.

End ForallEvents.

Lemma status_reply_wire a e : is_wire (status_reply a e) = true.
Proof. unfold status_reply. destruct (data_error_to_status e) as [[? ?] ?]. reflexivity. Qed.

Lemma forallb_map_status_reply (f : bytes -> berr) l :
  forallb is_wire (map (fun a => status_reply a (f a)) l) = true.
Proof. induction l; cbn; [reflexivity|]. rewrite status_reply_wire. exact IHl. Qed.

Lemma forallb_map_status_reply2 (l : list (bytes * berr)) :
  forallb is_wire (map (fun '(a, e) => status_reply a e) l) = true.
Proof. induction l as [|[a e] l IH]; cbn; [reflexivity|]. rewrite status_reply_wire. exact IH. Qed.

Lemma bdat_lmtp_replies_wires cfg b e :
  forallb is_wire (fst (bdat_lmtp_replies cfg b e)) = true.
Proof.
  unfold bdat_lmtp_replies.
  match goal with |- context [let '(sts, panicked) := ?X in _] => destruct X as [sts panicked] end.
  cbn [fst]. apply forallb_map_status_reply2.
Qed.

Lemma conn_read_line_c c :
  snd (conn_read_line c) = upd_t c (c_t (snd (conn_read_line c))).
Proof.
  unfold conn_read_line. destruct (t_read_line (c_t c)) as [r t'].
  destruct r; [destruct (too_long t')|]; reflexivity.
Qed.

Definition is_auth_ev (e : event) : bool :=
  match e with EWire _ | EAuthNext _ _ _ _ => true | _ => false end.

Lemma Forall_auth_evs (P : event -> Prop) l :
  (forall w, P (EWire w)) -> (forall r ch d e, P (EAuthNext r ch d e)) ->
  forallb is_auth_ev l = true -> Forall P l.
Proof.
  intros H1 H2 Hw. apply forallb_Forall in Hw. revert Hw. apply Forall_impl.
  intros [] He; try discriminate; auto.
Qed.

Lemma auth_loop_spec steps : forall c resp,
  fst (fst (auth_loop steps c resp)) = upd_t c (c_t (fst (fst (auth_loop steps c resp))))
  /\ forallb is_auth_ev (snd (fst (auth_loop steps c resp))) = true.
Proof.
  assert (Hid : forall c : conn, c = upd_t c (c_t c)) by (intros []; reflexivity).
  induction steps as [|[ch done err] rest IH]; intros c resp; cbn [auth_loop].
  - split; [apply Hid|reflexivity].
  - destruct err; [|split; [apply Hid|reflexivity]..].
    destruct done; [split; [apply Hid|reflexivity]|].
    (* a line is read: the state is now c1, which is c but for the transport *)
    pose proof (conn_read_line_c c) as Hc1.
    destruct (conn_read_line c) as [[line|e] c1]; cbn [snd] in Hc1; [|split; [exact Hc1|reflexivity]].
    destruct (bytes_eqb line (bs "*")); [split; [exact Hc1|reflexivity]|].
    destruct (decode_sasl_response line) as [r|]; [|split; [exact Hc1|reflexivity]].
    destruct (IH c1 (Some r)) as [IH1 IH2]. destruct (auth_loop rest c1 (Some r)) as [[c2 ev] ok].
    cbn [fst snd] in *. split; [rewrite IH1 at 1; rewrite Hc1; reflexivity|exact IH2].
Qed.

Definition is_some {A} (o : option A) : bool := match o with Some _ => true | None => false end.

(* the transport behind the octets that could be read, and whether the declared size was
   not reached (then: Close) *)
Definition discard_t (cfg : config) (c : conn) (size : N) : transport :=
  set_limit (snd (t_copy_n size (set_limit (c_t c) 0))) (cf_max_line cfg).
Definition discard_short (c : conn) (size : N) : bool :=
  is_some (snd (fst (t_copy_n size (set_limit (c_t c) 0)))).

Lemma discard_chunk_eq cfg c size :
  discard_chunk cfg c size
  = if discard_short c size
    then (close_c (upd_t c (discard_t cfg c size)), close_ev (upd_t c (discard_t cfg c size)))
    else (upd_t c (discard_t cfg c size), []).
Proof.
  unfold discard_chunk, discard_short, discard_t, close_unless.
  destruct (t_copy_n size (set_limit (c_t c) 0)) as [[? [e|]] t1]; cbn [fst snd is_some].
  - apply do_close_eq.
  - reflexivity.
Qed.

(* Q is told the upper-cased command: literally for the commands with a handler of their own,
   for the others that it is none of the four on which anything later depends.  The replies
   written here are single responses; of their codes Q is told the range, or the code. *)
Lemma handle_cases_cmd cfg c cmd arg (Q : bytes -> hres -> Prop) :
  let other C := existsb (cmd_is C) ["BDAT"; "DATA"; "AUTH"; "STARTTLS"]%string = false in
  (forall C code ec msg, other C -> (200 <= code <= 599)%Z -> Q C (c, [reply code ec msg])) ->
  (forall C code ec msg, other C -> (200 <= code <= 599)%Z -> Q C (protocol_error c code ec msg)) ->
  (forall C enh, other C -> Q C (handle_greet cfg c enh arg)) ->
  Q (bs "MAIL") (handle_mail cfg c arg) ->
  Q (bs "RCPT") (handle_rcpt cfg c arg) ->
  (forall msg, Q (bs "RSET") (reset_c c, reset_ev c ++ [reply 250 (2, 0, 0)%Z msg])) ->
  Q (bs "BDAT") (handle_bdat cfg c arg) ->
  Q (bs "DATA") (handle_data cfg c arg) ->
  (forall msg, Q (bs "QUIT") (close_c c, reply 221 (2, 0, 0)%Z msg :: close_ev c)) ->
  Q (bs "AUTH") (handle_auth cfg c arg) ->
  Q (bs "STARTTLS") (handle_starttls cfg c) ->
  Q (to_upper cmd) (handle cfg c cmd arg).
Proof.
  intros other Hw Hpe Hgreet Hmail Hrcpt Hrset Hbdat Hdata Hquit Hauth Htls. unfold handle.
  destruct cmd as [|c0 cmd]; [apply Hpe; [reflexivity|lia]|].
  generalize (to_upper (c0 :: cmd)). intros C.
  assert (Hlit : forall s (X : bytes -> Prop), cmd_is C s = true -> X (bs s) -> X C).
  { intros s X E. apply bytes_eqb_eq in E. subst C. exact (fun x => x). }
  assert (Hoth : forall s, cmd_is C s = true -> other (bs s) -> other C).
  { intros s E. exact (Hlit s other E). }
  destruct (_ || cmd_is C "TURN") eqn:E0.
  { apply Hw; [|lia]. repeat (apply orb_true_iff in E0 as [E0|E0]); exact (Hoth _ E0 eq_refl). }
  destruct (_ || cmd_is C "LHLO") eqn:E1.
  { assert (Ho : other C)
      by (repeat (apply orb_true_iff in E1 as [E1|E1]); exact (Hoth _ E1 eq_refl)).
    destruct (cf_lmtp cfg && _); [apply Hw; [exact Ho|lia]|].
    destruct (negb (cf_lmtp cfg) && _); [apply Hw; [exact Ho|lia]|].
    apply Hgreet, Ho. }
  destruct (cmd_is C "MAIL") eqn:E2; [exact (Hlit _ (fun C => Q C _) E2 Hmail)|].
  destruct (cmd_is C "RCPT") eqn:E3; [exact (Hlit _ (fun C => Q C _) E3 Hrcpt)|].
  destruct (cmd_is C "VRFY") eqn:E4; [apply Hw; [exact (Hoth _ E4 eq_refl)|lia]|].
  destruct (cmd_is C "NOOP") eqn:E5; [apply Hw; [exact (Hoth _ E5 eq_refl)|lia]|].
  destruct (cmd_is C "RSET") eqn:E6.
  { rewrite do_reset_eq. exact (Hlit _ (fun C => Q C _) E6 (Hrset _)). }
  destruct (cmd_is C "BDAT") eqn:E7; [exact (Hlit _ (fun C => Q C _) E7 Hbdat)|].
  destruct (cmd_is C "DATA") eqn:E8; [exact (Hlit _ (fun C => Q C _) E8 Hdata)|].
  destruct (cmd_is C "QUIT") eqn:E9.
  { rewrite do_close_eq. exact (Hlit _ (fun C => Q C _) E9 (Hquit _)). }
  destruct (cmd_is C "AUTH") eqn:E10; [exact (Hlit _ (fun C => Q C _) E10 Hauth)|].
  destruct (cmd_is C "STARTTLS") eqn:E11; [exact (Hlit _ (fun C => Q C _) E11 Htls)|].
  apply Hpe; [|lia]. unfold other. cbn [existsb]. rewrite E7, E8, E10, E11. reflexivity.
Qed.

Lemma handle_cases cfg c cmd arg (Q : hres -> Prop) :
  (forall w, Q (c, [EWire w])) ->
  (forall code ec msg, Q (protocol_error c code ec msg)) ->
  (forall enh, Q (handle_greet cfg c enh arg)) ->
  Q (handle_mail cfg c arg) ->
  Q (handle_rcpt cfg c arg) ->
  (forall w, Q (reset_c c, reset_ev c ++ [EWire w])) ->
  Q (handle_bdat cfg c arg) ->
  Q (handle_data cfg c arg) ->
  (forall w, Q (close_c c, EWire w :: close_ev c)) ->
  Q (handle_auth cfg c arg) ->
  Q (handle_starttls cfg c) ->
  Q (handle cfg c cmd arg).
Proof.
  intros. apply (handle_cases_cmd cfg c cmd arg (fun _ => Q)); cbv zeta; unfold reply; auto.
Qed.

(* Every command but DATA and BDAT leaves the data plans of the backend script alone; a running
   chunked transfer stays, with the octet count, or it goes, and the count stays or is reset;
   the events are replies and callbacks other than deliveries, and what aborting the running
   transfer emits. *)

Definition plain_ev (e : event) : bool :=
  match e with
  | EData _ _ _ _ | EDelivery _ _ _ _ | EBdatStart | ECmd _ | EOutOfFuel => false
  | _ => true
  end.

Section Plain.
Variables (P : event -> Prop) (c : conn).
Hypothesis Pplain : forall e, plain_ev e = true -> P e.
Hypothesis Pabort : Forall P (abort_ev (c_bdat c)).

Definition Plain (r : hres) : Prop :=
  be_data (c_be (fst r)) = be_data (c_be c)
  /\ (c_bdat (fst r) = c_bdat c /\ c_received (fst r) = c_received c
      \/ c_bdat (fst r) = None /\ (c_received (fst r) = c_received c \/ c_received (fst r) = 0%Z))
  /\ Forall P (snd r).

(* a leaf of a handler: the state is c with some fields updated, the events are listed *)
Ltac plain_leaf :=
  unfold Plain, reset_c, close_c; cs; cbn [be_data];
  split; [reflexivity|]; split; [first [left; split; reflexivity|right; split; [reflexivity|auto]]|];
  repeat first
    [ apply Forall_nil
    | apply Forall_cons; [apply Pplain; reflexivity|]
    | apply Forall_reset_ev; [exact Pabort|apply Pplain; reflexivity]
    | apply Forall_close_ev; [exact Pabort|apply Pplain; reflexivity..]
    | apply Forall_app; split
    | match goal with |- Forall _ (if ?b then _ else _) => destruct b end ].

Lemma wire_plain w : Plain (c, [EWire w]).
Proof. plain_leaf. Qed.

Lemma reset_plain w : Plain (reset_c c, reset_ev c ++ [EWire w]).
Proof. plain_leaf. Qed.

Lemma close_plain w : Plain (close_c c, EWire w :: close_ev c).
Proof. plain_leaf. Qed.

Lemma protocol_error_plain code ec msg : Plain (protocol_error c code ec msg).
Proof. unfold protocol_error. walk; plain_leaf. Qed.

Lemma handle_greet_plain cfg enh arg : Plain (handle_greet cfg c enh arg).
Proof. unfold handle_greet. walk; plain_leaf. Qed.

Lemma handle_mail_plain cfg arg : Plain (handle_mail cfg c arg).
Proof. unfold handle_mail, pop_mail. walk; plain_leaf. Qed.

Lemma handle_rcpt_plain cfg arg : Plain (handle_rcpt cfg c arg).
Proof. unfold handle_rcpt, pop_rcpt. walk; plain_leaf. Qed.

Lemma handle_starttls_plain cfg : Plain (handle_starttls cfg c).
Proof. unfold handle_starttls. walk; plain_leaf. Qed.

(* the exchange only reads lines: its result is the state it started from, but for the transport *)
Lemma handle_auth_plain cfg arg : Plain (handle_auth cfg c arg).
Proof.
  unfold handle_auth, pop_auth. walk; try plain_leaf.
  all: match goal with H : auth_loop ?s ?c1 ?r = _ |- _ =>
         destruct (auth_loop_spec s c1 r) as [Hc2 Hev]; rewrite H in Hc2, Hev; cbn [fst snd] in Hc2, Hev end.
  all: rewrite Hc2; apply (Forall_auth_evs P) in Hev; [|intros; apply Pplain; reflexivity..].
  all: plain_leaf; exact Hev.
Qed.

End Plain.

Lemma handle_cases_plain cfg c cmd arg (P : event -> Prop) (Q : hres -> Prop) :
  (forall e, plain_ev e = true -> P e) -> Forall P (abort_ev (c_bdat c)) ->
  (forall r, Plain P c r -> Q r) ->
  Q (handle_bdat cfg c arg) -> Q (handle_data cfg c arg) -> Q (handle cfg c cmd arg).
Proof.
  intros H1 H2 HQ Hbdat Hdata.
  apply handle_cases; try assumption; intros; apply HQ;
    auto using wire_plain, reset_plain, close_plain, protocol_error_plain, handle_greet_plain,
      handle_mail_plain, handle_rcpt_plain, handle_auth_plain, handle_starttls_plain.
Qed.

Definition command_step (cfg : config) (c : conn) (line : bytes) : hres :=
  match parse_cmd line with
  | Some (cmd, arg) => handle cfg c cmd arg
  | None => protocol_error c 501 (5, 5, 2)%Z (bs "Bad command")
  end.

Definition read_failure_reply (e : terr) : list event :=
  match e with
  | TEof | TClosed => []
  | TTooLong => [reply 500 (5, 4, 0)%Z (bs "Too long line, closing connection")]
  | TTimeout => [reply 421 (4, 4, 2)%Z (bs "Idle timeout, bye bye")]
  | TNetErr => [reply 421 (4, 4, 0)%Z (bs "Connection error, sorry")]
  end.

Lemma read_failure_reply_wires e : forallb is_wire (read_failure_reply e) = true.
Proof. destruct e; reflexivity. Qed.

Lemma serve_loop_S f cfg c :
  serve_loop (S f) cfg c
  = if c_closed c then final_close c
    else match conn_read_line c with
         | (inl line, c1) =>
             ECmd line :: snd (command_step cfg c1 line) ++ serve_loop f cfg (fst (command_step cfg c1 line))
         | (inr e, c1) => read_failure_reply e ++ final_close c1
         end.
Proof.
  cbn [serve_loop]. unfold command_step. destruct (c_closed c); [reflexivity|].
  destruct (conn_read_line c) as [[line|e] c1].
  - destruct (parse_cmd line) as [[cmd arg]|];
      [destruct (handle cfg c1 cmd arg)|destruct (protocol_error c1 _ _ _)]; reflexivity.
  - destruct e; reflexivity.
Qed.

Lemma final_close_eq c : final_close c = close_ev c.
Proof. unfold final_close. rewrite do_close_eq. reflexivity. Qed.

(* Induction along the loop, for a relation T between the fuel, the state and the rest of the
   trace.  The line read only moves the transport on. *)
Lemma serve_loop_ind cfg (T : nat -> conn -> list event -> Prop) :
  (forall c, T 0%nat c [EOutOfFuel]) ->
  (forall f c, c_closed c = true -> T (S f) c (close_ev c)) ->
  (forall f c e t, c_closed c = false -> T (S f) c (read_failure_reply e ++ close_ev (upd_t c t))) ->
  (forall f c line t, c_closed c = false -> conn_read_line c = (inl line, upd_t c t) ->
     forall r, r = command_step cfg (upd_t c t) line ->
     T f (fst r) (serve_loop f cfg (fst r)) ->
     T (S f) c (ECmd line :: snd r ++ serve_loop f cfg (fst r))) ->
  forall f c, T f c (serve_loop f cfg c).
Proof.
  intros H0 Hclosed Hfail Hcmd. induction f as [|f IH]; intros c; [apply H0|].
  rewrite serve_loop_S. destruct (c_closed c) eqn:Hc; [rewrite final_close_eq; apply Hclosed, Hc|].
  pose proof (conn_read_line_c c) as Hc1.
  destruct (conn_read_line c) as [[line|e] c1] eqn:E; cbn [snd] in Hc1; rewrite Hc1 in *.
  - eapply Hcmd; [exact Hc|exact E|reflexivity|apply IH].
  - rewrite final_close_eq. apply Hfail, Hc.
Qed.

Lemma serve_loop_Forall cfg (J : conn -> Prop) (P : event -> Prop) :
  (forall c t, J c -> J (upd_t c t)) ->
  (forall c cmd arg, J c -> c_closed c = false ->
     J (fst (handle cfg c cmd arg)) /\ Forall P (snd (handle cfg c cmd arg))) ->
  (forall c code ec msg, J c -> c_closed c = false ->
     J (fst (protocol_error c code ec msg)) /\ Forall P (snd (protocol_error c code ec msg))) ->
  (forall c, J c -> Forall P (close_ev c)) ->
  (forall line, P (ECmd line)) -> (forall e, Forall P (read_failure_reply e)) -> P EOutOfFuel ->
  forall f c, J c -> Forall P (serve_loop f cfg c).
Proof.
  intros Jt Jh Jpe Jclose Pcmd Pfail Poof.
  apply (serve_loop_ind cfg (fun _ c tr => J c -> Forall P tr)).
  - intros c _. repeat constructor. exact Poof.
  - intros _ c _. apply Jclose.
  - intros _ c e t _ HJ. apply Forall_app. split; [apply Pfail|apply Jclose, Jt, HJ].
  - intros f c line t Hc _ r -> IH HJ.
    assert (Hr : J (fst (command_step cfg (upd_t c t) line))
                 /\ Forall P (snd (command_step cfg (upd_t c t) line))).
    { unfold command_step. destruct (parse_cmd line) as [[cmd arg]|]; [apply Jh|apply Jpe]; auto. }
    destruct Hr as [H1 H2]. constructor; [apply Pcmd|]. apply Forall_app. split; [exact H2|exact (IH H1)].
Qed.

(* The monitor state of a connection state.  The monitor keeps two flags the connection does
   not (a reset is owed; a recovered panic would be justified): they are arguments.  The
   relation R fixes them between two commands: no reset is owed, the panic flag is free; of a
   closed connection it keeps only what the deferred Close needs. *)
Definition running (o : option bdat) : bool :=
  match o with
  | Some b => match bd_done b with None => true | Some _ => false end
  | None => false
  end.

Definition mk_abs (cl se tl fr : bool) (rc : list bytes) (bd : option bdat) (da mr po : bool) : smon :=
  (mkM cl se tl fr (List.length rc) (is_some bd) (running bd) mr po (da && se), false).

Definition absx (c : conn) (must_reset panic_ok : bool) : smon :=
  mk_abs (c_closed c) (c_session c) (c_tls c) (c_from c) (c_rcpts c) (c_bdat c) (c_did_auth c)
         must_reset panic_ok.

Definition Inv (c : conn) : Prop :=
  (c_closed c = false -> c_session c = false ->
     c_helo c = [] /\ c_from c = false /\ c_rcpts c = [] /\ c_did_auth c = false)
  /\ (c_session c = false -> c_bdat c = None)
  /\ (c_closed c = true -> c_session c = false).

Definition R (c : conn) (m : smon) : Prop :=
  if c_closed c then m_closed (fst m) = true /\ m_session (fst m) = false /\ m_running (fst m) = false
  else exists po, m = absx c false po.

Section WithCfg.
Variable cfg : config.

Definition Step (c c' : conn) (ev : list event) : Prop :=
  exists m', smon_run cfg (absx c false false) ev = Some m' /\ R c' m' /\ Inv c'.

Definition Good (c : conn) (r : hres) : Prop := Step c (fst r) (snd r).

Lemma mon_run_wires m l :
  forallb is_wire l = true -> m_closed (fst m) = false -> smon_run cfg m l = Some m.
Proof.
  intros Hw Hc. destruct m as [m ml]. cbn [fst] in Hc. induction l as [|e l IH]; [reflexivity|].
  cbn in Hw. apply andb_true_iff in Hw as [He Hl].
  destruct e; try discriminate. cbn. rewrite Hc. cbn. apply IH, Hl.
Qed.

Lemma run_seq m1 ev1 m2 ev2 r :
  smon_run cfg m1 ev1 = Some m2 -> smon_run cfg m2 ev2 = r -> smon_run cfg m1 (ev1 ++ ev2) = r.
Proof. intros H1 H2. rewrite smon_run_app, H1. exact H2. Qed.

Lemma run_bd_finish cl se tl fr rc da mr po b term :
  bd_done b = None ->
  smon_run cfg (mk_abs cl se tl fr rc (Some b) da mr po) (snd (bd_finish b term))
  = Some (mk_abs cl se tl fr rc (Some (fst (bd_finish b term))) da mr (po || bd_panics b)).
Proof. intros Hd. unfold bd_finish, mk_abs. cbn. rewrite Hd. reflexivity. Qed.

Lemma run_bd_end cl se tl fr rc da mr po b term :
  exists po',
    smon_run cfg (mk_abs cl se tl fr rc (Some b) da mr po) (snd (bd_end b term))
    = Some (mk_abs cl se tl fr rc (Some (fst (bd_end b term))) da mr po').
Proof.
  destruct (bd_end_cases b term) as [->|[Hd ->]]; [exists po; reflexivity|].
  eexists. apply run_bd_finish, Hd.
Qed.

Lemma run_bd_feed cl se tl fr rc da mr po b chunk :
  exists po',
    smon_run cfg (mk_abs cl se tl fr rc (Some b) da mr po) (snd (fst (bd_feed b chunk)))
    = Some (mk_abs cl se tl fr rc (Some (fst (fst (bd_feed b chunk)))) da mr po').
Proof.
  destruct (bd_feed_cases b chunk) as [->|(Hd & a & _ & H)]; [exists po; reflexivity|].
  (* while the delivery runs, the monitor does not see what the backend has read *)
  assert (Hm : mk_abs cl se tl fr rc (Some b) da mr po
               = mk_abs cl se tl fr rc (Some (bd_more b a)) da mr po)
    by (unfold mk_abs; cbn; rewrite Hd; reflexivity).
  rewrite Hm. destruct H as [->| ->]; [exists po; reflexivity|].
  eexists. apply run_bd_finish. reflexivity.
Qed.

Lemma run_bd_new tl rc da po p sp :
  rc <> [] ->
  exists po',
    smon_run cfg (mk_abs false true tl true rc None da false po) (snd (bd_new p rc sp))
    = Some (mk_abs false true tl true rc (Some (fst (bd_new p rc sp))) da false po').
Proof.
  intros Hrc. destruct rc as [|r0 rc]; [congruence|].
  assert (H0 : smon_run cfg (mk_abs false true tl true (r0 :: rc) None da false po) [EBdatStart]
               = Some (mk_abs false true tl true (r0 :: rc)
                         (Some (mkBD p [] None (r0 :: rc) (dp_panic p || sp))) da false po))
    by reflexivity.
  destruct (bd_new_cases p (r0 :: rc) sp) as [->| ->]; cbn [fst snd]; [exists po; exact H0|].
  eexists. apply (run_seq _ [EBdatStart] _ _ _ H0). apply run_bd_finish. reflexivity.
Qed.

Definition abort_bd (bd : option bdat) : option bdat :=
  match bd with Some b => Some (fst (bd_end b RDataReset)) | None => None end.

Lemma running_abort bd : running (abort_bd bd) = false.
Proof.
  destruct bd as [b|]; [|reflexivity]. cbn. unfold bd_end.
  destruct (bd_done b) eqn:Hd; cbn; [rewrite Hd; reflexivity|reflexivity].
Qed.

Lemma run_abort cl se tl fr rc da mr po bd :
  exists po',
    smon_run cfg (mk_abs cl se tl fr rc bd da mr po) (abort_ev bd)
    = Some (mk_abs cl se tl fr rc (abort_bd bd) da mr po').
Proof. destruct bd as [b|]; [apply run_bd_end|exists po; reflexivity]. Qed.

Definition Reach (m : smon) (ev : list event) (P : smon -> Prop) : Prop :=
  exists m', smon_run cfg m ev = Some m' /\ P m'.

Lemma good_reach c c' ev :
  Reach (absx c false false) ev (fun m' => R c' m' /\ Inv c') -> Good c (c', ev).
Proof. intros H. exact H. Qed.

Lemma reach_nil m (P : smon -> Prop) : P m -> Reach m [] P.
Proof. intros H. exists m. split; [reflexivity|exact H]. Qed.

Lemma reach_seq m1 ev1 m2 ev2 P :
  smon_run cfg m1 ev1 = Some m2 -> Reach m2 ev2 P -> Reach m1 (ev1 ++ ev2) P.
Proof. intros H1 [m' [H2 HP]]. exists m'. split; [|exact HP]. rewrite smon_run_app, H1. exact H2. Qed.

Lemma reach_step m e m1 l P : smon_step cfg m e = Some m1 -> Reach m1 l P -> Reach m (e :: l) P.
Proof. intros H. apply (reach_seq m [e]). cbn. rewrite H. reflexivity. Qed.

Lemma reach_wires m ev1 ev2 P :
  forallb is_wire ev1 = true -> m_closed (fst m) = false -> Reach m ev2 P -> Reach m (ev1 ++ ev2) P.
Proof. intros Hw Hc. apply reach_seq. apply mon_run_wires; assumption. Qed.

Lemma reach_wire_cons m w l P :
  m_closed (fst m) = false -> Reach m l P -> Reach m (EWire w :: l) P.
Proof. intros Hc. apply (reach_wires m [EWire w]); [reflexivity|exact Hc]. Qed.

Lemma reach_reset tl fr rc da mr po bd l (P : smon -> Prop) :
  (forall po', Reach (mk_abs false true tl false [] None da false po') l P) ->
  Reach (mk_abs false true tl fr rc bd da mr po) (abort_ev bd ++ EReset :: l) P.
Proof.
  intros HP. destruct (run_abort false true tl fr rc da mr po bd) as [po' H].
  eapply reach_seq; [exact H|].
  apply (reach_step _ _ (mk_abs false true tl false [] None da false po')); [|apply HP].
  unfold mk_abs. rewrite running_abort. cbn. unfold clear_tx. cbn. destruct da; reflexivity.
Qed.

Lemma reach_close tl fr rc da mr po bd se (P : smon -> Prop) :
  (se = false -> bd = None) ->
  (forall m', m_closed (fst m') = true -> m_session (fst m') = false -> m_running (fst m') = false -> P m') ->
  Reach (mk_abs false se tl fr rc bd da mr po)
        (abort_ev bd ++ (if se then [ELogout] else []) ++ [EClose]) P.
Proof.
  intros Hbd HP. destruct (run_abort false se tl fr rc da mr po bd) as [po' H].
  eapply reach_seq; [exact H|].
  destruct se; [unfold mk_abs; rewrite running_abort|rewrite (Hbd eq_refl)];
    (eexists; split; [reflexivity|apply HP; reflexivity]).
Qed.

(* the texts of the replies are replaced by variables: the computed steps stay small *)
Ltac gen_wires :=
  unfold reply, reply_err, syntax_mail, syntax_rcpt;
  repeat match goal with
         | |- context [EWire ?x] =>
             tryif is_var x then fail else (let w := fresh "w" in generalize x; intro w)
         end.

Lemma good_same c c' ev :
  forallb is_wire ev = true -> c_closed c = false -> Inv c' ->
  absx c' false false = absx c false false -> c_closed c' = false -> Good c (c', ev).
Proof.
  intros Hw Hc HI Ha Hc'. unfold Good, Step. cbn [fst snd].
  exists (absx c false false). split.
  - apply mon_run_wires; [exact Hw|exact Hc].
  - split; [|exact HI]. unfold R. rewrite Hc'. exists false. symmetry. exact Ha.
Qed.

(* a leaf whose events are replies only and whose state differs from the
   initial one in fields the abstraction does not look at *)
Ltac wire_leaf HI :=
  apply good_same; [reflexivity|reflexivity|exact HI|reflexivity|reflexivity].

(* the fields of c become variables, c_closed c = false (Hc) is put in, Inv c (HI) unfolded *)
Ltac start c HI Hc :=
  destruct c as [t ph be h se er bm fr rc da cl tl bd rv];
  unfold Inv in HI; cs; subst cl.

(* R and Inv of the explicit state a leaf ends in *)
Ltac r_open :=
  unfold R; cbn; eexists; unfold absx, mk_abs; cbn; rewrite ?app_length; cbn;
  repeat rewrite ?orb_true_r, ?orb_false_r, ?andb_true_r, ?andb_false_r, ?Nat.add_1_r; reflexivity.
Ltac r_closed := unfold R; cbn; repeat split; reflexivity.
Ltac inv_tac := unfold Inv; cbn; repeat split; intros; congruence.

(* something of a session is there (a greeting name, an envelope), so by Inv it is live *)
Ltac get_session HI se :=
  let H := fresh "Hse" in
  assert (H : se = true) by
    (destruct se; [reflexivity|]; destruct HI as [?H1 _];
     destruct (H1 eq_refl eq_refl) as (? & ? & ? & ?); congruence);
  subst se.

(* there is no session, so by Inv the fields are those of a fresh connection *)
Ltac no_session HI :=
  let H := fresh "Hns" in let H' := fresh "Hnb" in
  destruct HI as [H HI]; destruct (H eq_refl eq_refl) as (? & ? & ? & ?);
  destruct HI as [H' HI]; specialize (H' eq_refl); subst.

(* The monitor is run along the explicit events of a leaf: a reply leaves it alone, so do
   the replies of lists known to hold nothing else; a list whose run is known (a hypothesis)
   is skipped; a reset goes by reach_reset; any other event is one computed step, whose
   guard may need what the handler has tested (a hypothesis b = true). *)
Ltac chain := repeat first
  [ apply reach_wire_cons; [reflexivity|]
  | apply reach_wires;
      [first [assumption|apply forallb_map_status_reply|apply forallb_map_status_reply2]|reflexivity|]
  | eapply reach_seq; [eassumption|]
  | apply reach_reset; intros ?po
  | eapply reach_step;
      [cbn; unfold clear_tx, set_closed_m; cbn;
       repeat match goal with H : ?b = true |- context [?b] => rewrite H end; reflexivity|] ].

(* the monitor state reached abstracts the new connection state, or the connection is closed *)
Ltac finish := first
  [ apply reach_nil; split; [first [r_open|r_closed]|inv_tac]
  | match goal with
    | |- Reach (mk_abs _ ?se ?tl ?fr ?rc ?bd ?da ?mr ?po) _ _ =>
        apply (reach_close tl fr rc da mr po bd se); [first [discriminate|reflexivity]|]
    end;
    intros ?m' ? ? ?; split; [unfold R; cbn; repeat split; assumption|inv_tac] ].

(* a leaf in general: its state and events are made explicit, then the monitor is run *)
Ltac run_leaf :=
  unfold reset_c, reset_ev, close_c, close_ev; cs; change (abort_ev None) with (@nil event);
  apply good_reach; unfold absx; cs; gen_wires; rewrite <- ?app_assoc; cbn [app]; chain; finish.

(* the tests the walk has recorded as negb b = _ become equations on b *)
Ltac norm :=
  repeat match goal with
         | H : negb _ = true |- _ => apply negb_true_iff in H
         | H : negb _ = false |- _ => apply negb_false_iff in H
         end; subst.

(* A leaf of a handler, from a state that satisfies Inv (HI): only replies and nothing the
   abstraction sees has changed; or it is the nil-session panic, which Inv excludes; or the
   monitor is run. *)
Ltac leaf HI :=
  norm;
  first [ wire_leaf HI
        | exfalso; apply proj1 in HI; destruct (HI eq_refl eq_refl) as (? & ? & ? & ?); congruence
        | run_leaf ].

Lemma berr_is_nil_false r : r <> BNil -> berr_is_nil r = false.
Proof. destruct r; [congruence|reflexivity|reflexivity]. Qed.

Lemma handle_mail_ok c arg : Inv c -> c_closed c = false -> Good c (handle_mail cfg c arg).
Proof. intros HI Hc. start c HI Hc. unfold handle_mail, pop_mail. walk; leaf HI. Qed.

(* the limit as the handler tests it, and as the guard of the monitor puts it *)
Lemma rcpt_limit_ok (n : nat) :
  (0 <? cf_max_rcpt cfg)%N && (cf_max_rcpt cfg <=? N.of_nat n)%N = false ->
  (cf_max_rcpt cfg =? 0)%N || (N.of_nat n <? cf_max_rcpt cfg)%N = true.
Proof.
  intros H. apply orb_true_iff. apply andb_false_iff in H as [H|H].
  - left. apply N.ltb_ge in H. apply N.eqb_eq. lia.
  - right. apply N.leb_gt in H. apply N.ltb_lt. exact H.
Qed.

Lemma handle_rcpt_ok c arg : Inv c -> c_closed c = false -> Good c (handle_rcpt cfg c arg).
Proof.
  intros HI Hc. start c HI Hc. unfold handle_rcpt, pop_rcpt.
  walk; try match goal with H : _ && _ = false |- _ => apply rcpt_limit_ok in H end; leaf HI.
Qed.

Lemma handle_greet_ok c enh arg : Inv c -> c_closed c = false -> Good c (handle_greet cfg c enh arg).
Proof.
  intros HI Hc. start c HI Hc. unfold handle_greet.
  destruct (parse_hello_argument arg) as [domain|]; [|wire_leaf HI].
  destruct se; [|destruct tl; no_session HI]; walk; leaf HI.
Qed.

Lemma handle_data_ok c arg : Inv c -> c_closed c = false -> Good c (handle_data cfg c arg).
Proof.
  intros HI Hc. start c HI Hc. unfold handle_data, pop_data, close_unless. cs.
  destruct arg as [|a0 arg]; [|wire_leaf HI].
  destruct bd as [b|]; [wire_leaf HI|].
  destruct bm; [wire_leaf HI|].
  destruct fr; cbn [negb orb]; [|wire_leaf HI].
  destruct rc as [|r0 rc]; [wire_leaf HI|].
  get_session HI se. walk; norm; run_leaf.
Qed.

Lemma mon_run_auth_evs m l :
  forallb is_auth_ev l = true ->
  m_closed (fst m) = false -> m_session (fst m) = true -> m_authed (fst m) = false ->
  m_tls (fst m) || cf_insecure_auth cfg = true -> m_must_reset (fst m) = false -> snd m = false ->
  smon_run cfg m l = Some m.
Proof.
  intros Hl Hc Hs Ha Ht Hmr Hml. destruct m as [m ml]. cbn [fst snd] in *. subst ml.
  induction l as [|e l IH]; [reflexivity|].
  cbn in Hl. apply andb_true_iff in Hl as [He Hl].
  destruct e; try discriminate; cbn [smon_run]; unfold smon_step; cbn;
    rewrite ?Hmr; cbn; rewrite ?Hc, ?Hs, ?Ha, ?Ht; cbn; apply IH, Hl.
Qed.

(* the session is live since the client has introduced itself; the exchange itself is seen by
   the monitor as a run of events that leave it where it is *)
Lemma handle_auth_ok c arg : Inv c -> c_closed c = false -> Good c (handle_auth cfg c arg).
Proof.
  intros HI Hc. start c HI Hc. unfold handle_auth, pop_auth, auth_allowed. cs.
  destruct h as [|h0 h]; [wire_leaf HI|]. get_session HI se.
  walk; try (leaf HI); norm.
  all: try match goal with H : auth_loop ?s ?c1 ?r = (_, ?ev, _) |- _ =>
         destruct (auth_loop_spec s c1 r) as [Hc2 Hev]; rewrite H in Hc2, Hev; cbn [fst snd] in Hc2, Hev;
         rewrite Hc2, <- (app_nil_r ev); clear H Hc2 end; cs.
  all: apply good_reach; unfold absx; cs; gen_wires; rewrite <- ?app_assoc; cbn [app].
  all: chain; try (eapply reach_seq; [apply (mon_run_auth_evs _ _ Hev); first [reflexivity|assumption]|]).
  all: chain; finish.
Qed.

(* after a handshake that succeeded the monitor sees the Logout of the session, then the end
   of a delivery that was still running, if any *)
Lemma handle_starttls_ok c : Inv c -> c_closed c = false -> Good c (handle_starttls cfg c).
Proof.
  intros HI Hc. start c HI Hc. unfold handle_starttls. cs.
  destruct tl; [wire_leaf HI|].
  destruct (cf_tls_config cfg) eqn:Htc; cbn [negb]; [|wire_leaf HI].
  destruct se; [|no_session HI]; walk; try run_leaf.
  destruct bd as [[bp bg [v|] br bpn]|]; unfold reset_ev, abort_ev, bd_end; cs; cbn [bd_done]; run_leaf.
Qed.

Lemma protocol_error_ok c code ec msg :
  Inv c -> c_closed c = false -> Good c (protocol_error c code ec msg).
Proof.
  intros HI Hc. start c HI Hc. unfold protocol_error. destruct se; [|no_session HI]; walk; leaf HI.
Qed.

(* the reply, then discardChunk, which closes the connection if the chunk is not all there *)
Lemma good_refused c size w :
  Inv c -> c_closed c = false ->
  Good c (let '(c1, ev1) := discard_chunk cfg c size in (c1, EWire w :: ev1)).
Proof.
  intros HI Hc. rewrite discard_chunk_eq. generalize (discard_t cfg c size). intros t'.
  start c HI Hc. destruct se; [|no_session HI]; walk; leaf HI.
Qed.

(* the steps of BDAT that the walk through a handler does not know: the end of the delivery,
   by run_bd_end from the run so far; the final replies of LMTP *)
Ltac bdat_step :=
  first
  [ match goal with
    | H : smon_run _ _ _ = Some (mk_abs _ _ ?tl _ ?rcs (Some ?b1) ?da _ ?po1) |- context [bd_end ?b1 ?pe] =>
        let H2 := fresh "H" in
        destruct (run_bd_end false true tl true rcs da false po1 b1 pe) as [?po H2];
        destruct (bd_end b1 pe) as [?b ?ev]; cbn [fst snd] in H2
    end
  | match goal with
    | |- context [bdat_lmtp_replies _ ?b2 ?e] =>
        let Hw := fresh "Hw" in
        pose proof (bdat_lmtp_replies_wires cfg b2 e) as Hw;
        destruct (bdat_lmtp_replies cfg b2 e) as [?rs ?pk]; cbn [fst] in Hw
    end
  | match goal with |- Good _ (match ?x with _ => _ end) => inner x end ];
  cbv beta iota zeta; cs_goal.

Lemma handle_bdat_ok c arg : Inv c -> c_closed c = false -> Good c (handle_bdat cfg c arg).
Proof.
  intros HI Hc. start c HI Hc. unfold handle_bdat. cs.
  destruct (fields arg) as [|a0 more]; [wire_leaf HI|].
  match goal with
  | |- Good ?c (match more with [] => ?B | _ :: _ => _ end) => assert (Hbody : Good c B)
  end.
  2:{ destruct more as [|a1 [|a2 more]]; [exact Hbody|exact Hbody|wire_leaf HI]. }
  destruct (parse_uint 32 a0) as [size| |]; [|wire_leaf HI|wire_leaf HI].
  destruct fr; cbn [negb orb]; [|apply good_refused; [exact HI|reflexivity]].
  destruct rc as [|r0 rc]; [apply good_refused; [exact HI|reflexivity]|].
  match goal with
  | |- Good _ (match ?lo with None => _ | Some _ => _ end) => destruct lo as [last|]
  end.
  2:{ apply good_refused; [exact HI|reflexivity]. }
  get_session HI se.
  destruct (negb (cf_max_bytes cfg =? 0)%Z && (cf_max_bytes cfg <? rv + Z.of_N size)%Z).
  { (* over the limit: the chunk is skipped, or that fails and the connection is closed *)
    rewrite discard_chunk_eq.
    match goal with |- context [discard_t _ ?c ?s] => generalize (discard_t cfg c s); intros t' end.
    match goal with |- context [discard_short ?c ?s] => destruct (discard_short c s) end;
      cbv beta iota; rewrite do_reset_eq; run_leaf. }
  cbn [negb andb].
  (* start the delivery if there is none *)
  match goal with |- Good _ (match ?S with _ => _ end) =>
    assert (H0 : exists b0 ev0 be0 po0,
      S = (b0, ev0, mkC t ph be0 h true er bm true (r0 :: rc) da false tl bd rv)
      /\ smon_run cfg (mk_abs false true tl true (r0 :: rc) bd da false false) ev0
         = Some (mk_abs false true tl true (r0 :: rc) (Some b0) da false po0)) end.
  { destruct bd as [b|].
    - exists b, [], be, false. split; reflexivity.
    - unfold pop_data. cs. destruct (pop dp_default (be_data be)) as [p rest]. cs.
      match goal with |- context [bd_new p (r0 :: rc) ?sp] =>
        destruct (run_bd_new tl (r0 :: rc) da false p sp) as [po0 Hn]; [discriminate|];
        destruct (bd_new p (r0 :: rc) sp) as [b0 ev0] end.
      cbn [fst snd] in Hn. eexists b0, ev0, _, po0. split; [reflexivity|exact Hn]. }
  destruct H0 as (b0 & ev0 & be0 & po0 & Heq & H0). rewrite Heq. clear Heq. cs.
  (* the chunk is copied into the pipe; then the cases of the handler, each ending in a
     reset or in Close *)
  destruct (t_copy_n size (set_limit t 0)) as [[chunk cerr] t1].
  destruct (run_bd_feed false true tl true (r0 :: rc) da false po0 b0 chunk) as [po1 H1].
  destruct (bd_feed b0 chunk) as [[b1 ev1] werr]. cbn [fst snd] in H1.
  cbv zeta. repeat bdat_step; cs; run_leaf.
Qed.

Lemma handle_ok c cmd arg : Inv c -> c_closed c = false -> Good c (handle cfg c cmd arg).
Proof.
  intros HI Hc.
  apply handle_cases;
    auto using protocol_error_ok, handle_greet_ok, handle_mail_ok, handle_rcpt_ok, handle_bdat_ok,
      handle_data_ok, handle_auth_ok, handle_starttls_ok.
  - intros w. apply good_same; [reflexivity|exact Hc|exact HI|reflexivity|exact Hc].
  - intros w. start c HI Hc. destruct se; [|no_session HI]; run_leaf.
  - intros w. start c HI Hc. destruct se; [|no_session HI]; run_leaf.
Qed.

Lemma close_ev_ok c mr po :
  Inv c -> c_closed c = false -> smon_run cfg (absx c mr po) (close_ev c) <> None.
Proof.
  intros HI Hc. unfold close_ev. start c HI Hc. unfold absx. cs.
  destruct (reach_close tl fr rc da mr po bd se (fun _ => True)) as [m' [Hm _]]; [apply HI|auto|].
  rewrite Hm. discriminate.
Qed.

Lemma Inv_upd_t c t : Inv c -> Inv (upd_t c t).
Proof. intros H. exact H. Qed.

Lemma serve_loop_ok : forall fuel c m,
  R c m -> Inv c -> smon_run cfg m (serve_loop fuel cfg c) <> None.
Proof.
  apply (serve_loop_ind cfg (fun _ c tr => forall m, R c m -> Inv c -> smon_run cfg m tr <> None)).
  - discriminate.
  - (* the connection has been closed: only the deferred Close is left *)
    intros _ c Hc m HR HI. unfold R in HR. rewrite Hc in HR. destruct HR as (Hm1 & Hm2 & Hm3).
    unfold close_ev. destruct HI as (_ & Hb & Hcl). specialize (Hcl Hc). rewrite (Hb Hcl), Hcl.
    cbn. rewrite Hm2, Hm3. cbn. discriminate.
  - intros _ c e t Hc m HR HI. unfold R in HR. rewrite Hc in HR. destruct HR as [po ->].
    change (absx c false po) with (absx (upd_t c t) false po).
    rewrite smon_run_app, mon_run_wires; [|apply read_failure_reply_wires|exact Hc].
    apply close_ev_ok; assumption.
  - intros f c line t Hc _ r -> IH m HR HI. unfold R in HR. rewrite Hc in HR. destruct HR as [po ->].
    set (c1 := upd_t c t) in *.
    assert (Hcmd : smon_step cfg (absx c false po) (ECmd line) = Some (absx c1 false false)).
    { unfold absx, mk_abs. cs. cbn. rewrite Hc. reflexivity. }
    cbn [smon_run]. rewrite Hcmd.
    assert (Hg : Good c1 (command_step cfg c1 line)).
    { unfold command_step. destruct (parse_cmd line) as [[cmd arg]|];
        [apply handle_ok|apply protocol_error_ok]; assumption. }
    destruct Hg as (m' & Hrun & HR' & HI'). rewrite smon_run_app, Hrun. apply IH; assumption.
Qed.

End WithCfg.

(* the strict monitor accepts every trace of the model; the trace properties of C03, C08,
   C09, C10 and C19 are read off this (TraceProps.v) *)
Theorem serve_accepted_strict : forall fuel cfg be phases,
  smon_run cfg (smon_init (cf_implicit_tls cfg)) (serve fuel cfg be phases) <> None.
Proof.
  intros fuel cfg be phases. unfold serve, greeting.
  cbn [smon_run]. unfold smon_step, smon_init.
  cbn [fst snd strict_bad mon_step mon_init m_closed negb guard next_ml].
  apply serve_loop_ok.
  - unfold R, init_conn. destruct phases as [|p r]; cbn; exists false; reflexivity.
  - unfold Inv, init_conn. destruct phases as [|p r]; cbn; repeat split; intros; congruence.
Qed.
Print Assumptions serve_accepted_strict.

(* C03: so does the monitor of Order.v *)
Theorem serve_accepted : forall fuel cfg be phases,
  mon_run cfg (mon_init (cf_implicit_tls cfg)) (serve fuel cfg be phases) <> None.
Proof.
  intros fuel cfg be phases H.
  destruct (smon_run cfg (smon_init (cf_implicit_tls cfg)) (serve fuel cfg be phases)) as [s'|] eqn:E.
  - apply smon_run_mon_run in E. cbn [fst smon_init] in E. congruence.
  - exact (serve_accepted_strict fuel cfg be phases E).
Qed.
Print Assumptions serve_accepted.

Lemma serve_loop_ends cfg : forall fuel c,
  In EOutOfFuel (serve_loop fuel cfg c) \/ exists tr', serve_loop fuel cfg c = tr' ++ [EClose].
Proof.
  assert (Hclose : forall l c, exists tr', l ++ close_ev c = tr' ++ [EClose]).
  { intros l c. unfold close_ev. eexists. rewrite !app_assoc. reflexivity. }
  apply (serve_loop_ind cfg (fun _ _ tr => In EOutOfFuel tr \/ exists tr', tr = tr' ++ [EClose])).
  - intros _. left. left. reflexivity.
  - intros _ c _. right. apply (Hclose []).
  - intros _ c e t _. right. apply Hclose.
  - intros f c line t _ _ r _ [H|[tr' H]].
    + left. right. apply in_or_app. right. exact H.
    + right. exists (ECmd line :: snd r ++ tr'). rewrite H, app_assoc. reflexivity.
Qed.

Theorem serve_ends_with_close fuel cfg be phases :
  ~ In EOutOfFuel (serve fuel cfg be phases) ->
  exists tr', serve fuel cfg be phases = tr' ++ [EClose].
Proof.
  intros Hn. unfold serve in *.
  destruct (serve_loop_ends cfg fuel (init_conn cfg be phases)) as [H|[tr' H]].
  - exfalso. apply Hn. right. exact H.
  - exists (greeting cfg :: tr'). rewrite H. reflexivity.
Qed.

(* C10.  The handshake succeeds exactly when the peer starts it right after the
   STARTTLS line; the resulting state is the initial one with TLS on: the
   buffered plaintext is dropped with the old transport, the greeting name, the
   session, the authentication and the envelope are forgotten, an open chunked
   transfer is gone. *)
Theorem starttls_state_erased cfg c :
  In (ETlsStart true) (snd (handle_starttls cfg c)) ->
  exists ph phs,
    c_phases c = ph :: phs /\ t_raw (c_t c) = [] /\ c_tls c = false /\ cf_tls_config cfg = true
    /\ fst (handle_starttls cfg c)
       = mkC (mkT [] ph 0 (cf_max_line cfg) false) phs (c_be c) [] false (c_errs c) (c_binarymime c)
             false [] false (c_closed c) true None 0%Z.
Proof.
  unfold handle_starttls.
  destruct (c_tls c) eqn:Htls; [cbn; intros [H|[]]; discriminate|].
  destruct (cf_tls_config cfg) eqn:Hcfg; cbn [negb]; [|cbn; intros [H|[]]; discriminate].
  destruct (t_raw (c_t c)) as [|r0 rs] eqn:Hraw.
  2:{ cbn. intros [H|[H|[H|[]]]]; discriminate. }
  destruct (c_phases c) as [|ph phs] eqn:Hph.
  { cbn. intros [H|[H|[H|[]]]]; discriminate. }
  intros _. exists ph, phs. rewrite do_reset_eq. cbn [fst]. unfold reset_c. cbn.
  repeat split; reflexivity.
Qed.
