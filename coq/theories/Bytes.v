(* Octets, octet strings and the small part of Go's string library that
   go-smtp relies on.  Octets are Coq [ascii] (8 booleans). *)
From Coq Require Export List Ascii String NArith ZArith Bool Arith Lia.
Export ListNotations.
Local Open Scope char_scope.

Definition byte := ascii.
Definition bytes := list ascii.

Definition bs (s : string) : bytes := list_ascii_of_string s.

Definition CR : ascii := "013".
Definition LF : ascii := "010".
Definition HT : ascii := "009".
Definition SP : ascii := " ".
Definition DOT : ascii := ".".
Definition NUL : ascii := "000".

Definition crlf : bytes := [CR; LF].

Definition beqb (a b : ascii) : bool := Ascii.eqb a b.

Fixpoint bytes_eqb (a b : bytes) : bool :=
  match a, b with
  | [], [] => true
  | x :: a', y :: b' => Ascii.eqb x y && bytes_eqb a' b'
  | _, _ => false
  end.

Lemma bytes_eqb_eq a b : bytes_eqb a b = true <-> a = b.
Proof.
  revert b; induction a as [|x a IH]; intros [|y b]; cbn; split; intros H;
    try reflexivity; try discriminate.
  - apply andb_true_iff in H as [H1 H2]. apply Ascii.eqb_eq in H1.
    apply IH in H2. congruence.
  - inversion H; subst. rewrite Ascii.eqb_refl. cbn. apply IH. reflexivity.
Qed.

Lemma bytes_eqb_refl a : bytes_eqb a a = true.
Proof. apply bytes_eqb_eq. reflexivity. Qed.

Definition byte_n (c : ascii) : N := N_of_ascii c.
Definition n_byte (n : N) : ascii := ascii_of_N n.

(* half-open / closed range tests on octet values *)
Definition in_range (lo hi : N) (c : ascii) : bool :=
  (lo <=? byte_n c)%N && (byte_n c <=? hi)%N.

Definition is_digit (c : ascii) : bool := in_range 48 57 c.
Definition is_upper (c : ascii) : bool := in_range 65 90 c.
Definition is_lower (c : ascii) : bool := in_range 97 122 c.
Definition is_ascii7 (c : ascii) : bool := (byte_n c <? 128)%N.
Definition is_printable (c : ascii) : bool := in_range 32 126 c.

(* ASCII upper-casing of one octet *)
Definition up1 (c : ascii) : ascii :=
  if is_lower c then n_byte (byte_n c - 32) else c.

(* ---- prefix / search helpers ---- *)

Fixpoint is_prefix (p s : bytes) : bool :=
  match p, s with
  | [], _ => true
  | x :: p', y :: s' => Ascii.eqb x y && is_prefix p' s'
  | _ :: _, [] => false
  end.

Definition is_suffix (p s : bytes) : bool := is_prefix (rev p) (rev s).

Fixpoint mem_byte (c : ascii) (s : bytes) : bool :=
  match s with
  | [] => false
  | x :: t => Ascii.eqb c x || mem_byte c t
  end.

Lemma mem_byte_In (c : ascii) (s : bytes) : mem_byte c s = true <-> In c s.
Proof.
  induction s as [|x t IH]; cbn [mem_byte In].
  - split; [discriminate|tauto].
  - rewrite orb_true_iff, Ascii.eqb_eq, IH. split; intros [H|H]; auto.
Qed.

(* index of the first occurrence of c *)
Fixpoint index_byte (c : ascii) (s : bytes) : option nat :=
  match s with
  | [] => None
  | x :: t => if Ascii.eqb c x then Some 0 else option_map S (index_byte c t)
  end.

(* split at the first occurrence of c: (before, after) *)
Fixpoint cut_byte (c : ascii) (s : bytes) : option (bytes * bytes) :=
  match s with
  | [] => None
  | x :: t =>
      if Ascii.eqb c x then Some ([], t)
      else match cut_byte c t with
           | Some (a, b) => Some (x :: a, b)
           | None => None
           end
  end.

(* strings.Split(s, sep) for a one-octet separator *)
Fixpoint split_byte (c : ascii) (s : bytes) : list bytes :=
  match s with
  | [] => [[]]
  | x :: t =>
      match split_byte c t with
      | [] => [[]] (* impossible *)
      | h :: r => if Ascii.eqb c x then [] :: h :: r else (x :: h) :: r
      end
  end.

(* strings.Join with a separator *)
Fixpoint join (sep : bytes) (l : list bytes) : bytes :=
  match l with
  | [] => []
  | [x] => x
  | x :: r => x ++ sep ++ join sep r
  end.

(* ---- decimal printing / parsing of N ---- *)

Fixpoint uint_to_bytes (u : Decimal.uint) : bytes :=
  match u with
  | Decimal.Nil => []
  | Decimal.D0 u => "0" :: uint_to_bytes u
  | Decimal.D1 u => "1" :: uint_to_bytes u
  | Decimal.D2 u => "2" :: uint_to_bytes u
  | Decimal.D3 u => "3" :: uint_to_bytes u
  | Decimal.D4 u => "4" :: uint_to_bytes u
  | Decimal.D5 u => "5" :: uint_to_bytes u
  | Decimal.D6 u => "6" :: uint_to_bytes u
  | Decimal.D7 u => "7" :: uint_to_bytes u
  | Decimal.D8 u => "8" :: uint_to_bytes u
  | Decimal.D9 u => "9" :: uint_to_bytes u
  end.

(* fmt %d / %v of a non-negative integer *)
Definition dec_of_N (n : N) : bytes := uint_to_bytes (N.to_uint n).

Definition digit_val (c : ascii) : N := byte_n c - 48.

(* value of a string of decimal digits (no check) *)
Definition dec_value (s : bytes) : N :=
  fold_left (fun acc c => acc * 10 + digit_val c)%N s 0%N.

(* strconv.ParseUint(s, 10, bits): digits only, non-empty, value < 2^bits.
   Go also accepts nothing else in base 10 (no sign, no underscore). *)
Inductive parse_res := POk (n : N) | PSyntax | PRange.

Definition parse_uint (bits : N) (s : bytes) : parse_res :=
  match s with
  | [] => PSyntax
  | _ => if forallb is_digit s
         then (if (dec_value s <? 2 ^ bits)%N then POk (dec_value s) else PRange)
         else PSyntax
  end.

(* take at most n octets: (taken, rest, n still missing) *)
Fixpoint take_N (n : N) (s : bytes) : bytes * bytes * N :=
  match s with
  | [] => ([], [], n)
  | c :: t =>
      if (n =? 0)%N then ([], s, 0%N)
      else let '(a, b, m) := take_N (N.pred n) t in (c :: a, b, m)
  end.

Definition blen (s : bytes) : N := N.of_nat (List.length s).
