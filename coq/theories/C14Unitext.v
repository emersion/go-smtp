(* C14: the utf-8-addr-unitext form of a text contains no Unicode white space
   (in the sense of Go's unicode.IsSpace, used by strings.Fields and
   strings.TrimSpace on the server): ASCII white space and the nineteen
   non-ASCII White_Space code points (Xtext.uspace_cps) are written as
   \x{HEX}, and the UTF-8 form of any other non-ASCII scalar value starts no
   white space.  So an ORCPT=UTF-8 value is one token for EVERY text of the
   domain. *)
From Smtp Require Import Bytes GoStrings Utf8 Xtext Utf8Proofs XtextProofs ReplyProofs C14Line.
From Coq Require Import Lia ZifyBool ZifyN.
Local Open Scope char_scope.

(* Xtext.uspace_cps are the code points of GoStrings.uni_spaces *)
Lemma uni_spaces_encode : map utf8_encode uspace_cps = uni_spaces.
Proof. vm_compute. reflexivity. Qed.

Lemma uspace_cps_valid : forallb utf8_valid_cp uspace_cps = true.
Proof. vm_compute. reflexivity. Qed.

Lemma utf8_encode_shape cp :
  (128 <= cp)%N -> utf8_valid_cp cp = true ->
  exists b0 t, utf8_encode cp = b0 :: t /\ forallb is_cont t = true /\ is_ascii_space b0 = false.
Proof.
  intros Hlo Hv. unfold utf8_encode. rewrite Hv. unfold utf8_valid_cp in Hv.
  assert (Cont : forall x, (x < 64)%N -> is_cont (n_byte (128 + x)) = true).
  { intros x Hx. unfold is_cont, in_range. rewrite byte_n_n_byte by lia. lia. }
  assert (Lead : forall x, (192 <= x < 256)%N -> is_ascii_space (n_byte x) = false).
  { intros x Hx. unfold is_ascii_space, in_range. rewrite byte_n_n_byte by lia.
    destruct (Ascii.eqb (n_byte x) " ") eqn:E.
    - apply Ascii.eqb_eq in E. apply (f_equal byte_n) in E. rewrite byte_n_n_byte in E by lia.
      vm_compute in E. lia.
    - lia. }
  unfold utf8_encode_raw.
  destruct (N.ltb_spec cp 128); [lia|].
  (* two, three or four octets: a lead octet from 0xC0 up, then continuation octets *)
  destruct (N.ltb_spec cp 2048); [|destruct (N.ltb_spec cp 65536)];
    (eexists; eexists; split; [reflexivity|]; split;
     [cbn [forallb]; rewrite !Cont by (apply N.mod_lt; lia); reflexivity|apply Lead; lia]).
Qed.

(* the UTF-8 form of a non-ASCII scalar value that is not white space starts
   no white space, whatever follows *)
Lemma ws_free_utf8 cp rest :
  (128 <= cp)%N -> utf8_valid_cp cp = true -> uspace_cp cp = false ->
  ws_free rest = true -> ws_free (utf8_encode cp ++ rest) = true.
Proof.
  intros Hlo Hv Hu Hr.
  destruct (utf8_encode_shape cp Hlo Hv) as (b0 & t & E & Hc & Hs).
  assert (Z : space_len (utf8_encode cp ++ rest) = 0%nat).
  { rewrite E. cbn [app]. unfold space_len. rewrite Hs.
    rewrite find_none; [reflexivity|].
    intros u Hin. destruct (is_prefix u (b0 :: t ++ rest)) eqn:P; [|reflexivity]. exfalso.
    change (b0 :: t ++ rest) with ((b0 :: t) ++ rest) in P. rewrite <- E in P.
    rewrite <- uni_spaces_encode in Hin. apply in_map_iff in Hin as (cu & <- & Hcu).
    assert (Vu : utf8_valid_cp cu = true).
    { pose proof uspace_cps_valid as V. rewrite forallb_forall in V. now apply V. }
    apply is_prefix_split in P.
    pose proof (utf8_decode_encode cp rest Hv) as D1. rewrite P in D1.
    rewrite (utf8_decode_encode cu _ Vu) in D1. injection D1 as D1 _. subst cu.
    assert (X : uspace_cp cp = true).
    { unfold uspace_cp. apply existsb_exists. exists cp. split; [exact Hcu|apply N.eqb_refl]. }
    congruence. }
  rewrite E in *. cbn [app ws_free] in *. rewrite Z. cbn [Nat.eqb andb].
  now apply (ws_free_app_nolead is_cont space_len_cont).
Qed.

Lemma qchar_hexU_tokch c : qchar c || is_hexU c = true -> tokch c = true.
Proof.
  intros Hc.
  pose proof (byte_enum (fun c => implb (qchar c || is_hexU c) (tokch c))) as B.
  specialize (B ltac:(vm_compute; reflexivity) c). cbv beta in B. now rewrite Hc in B.
Qed.

Lemma embedded_tokch cp : forallb tokch (embedded cp) = true.
Proof.
  assert (H : forallb tokch (hex02 cp) = true).
  { eapply forallb_impl; [|apply hex02_hex]. intros c Hc. apply qchar_hexU_tokch. now rewrite Hc, orb_true_r. }
  unfold embedded. rewrite !forallb_app, H. reflexivity.
Qed.

Theorem unitext_ws_free cs :
  forallb addr_cp cs = true ->
  ws_free (encode_utf8_addr_unitext (utf8_of_runes cs)) = true.
Proof.
  intros Ha. unfold encode_utf8_addr_unitext.
  rewrite runes_utf8_of_runes by now apply addr_cp_valid.
  induction cs as [|cp cs IH]; [reflexivity|].
  cbn [forallb] in Ha. apply andb_true_iff in Ha as [Ha1 Ha2].
  specialize (IH Ha2). cbn [flat_map]. unfold encode_utf8_addr_unitext_rune at 1.
  destruct (N.ltb_spec cp 128) as [Hlt|Hge].
  - destruct (qchar (n_byte cp)) eqn:Q.
    + apply (ws_free_app_ascii [n_byte cp]); [|exact IH]. cbn [forallb]. now rewrite qchar_hexU_tokch by now rewrite Q.
    + apply ws_free_app_ascii; [apply embedded_tokch|exact IH].
  - destruct (uspace_cp cp) eqn:Hu.
    + apply ws_free_app_ascii; [apply embedded_tokch|exact IH].
    + apply ws_free_utf8; try assumption. unfold addr_cp in Ha1. lia.
Qed.

Print Assumptions unitext_ws_free.

(* every one of the nineteen code points, at the start, inside and at the end *)
Example unitext_ws_free_ex :
  let cs := [160; 233; 32; 92; 8195; 128512; 64; 8364; 12288]%N in
  forallb addr_cp cs = true
  /\ ws_free (encode_utf8_addr_unitext (utf8_of_runes cs)) = true
  /\ encode_utf8_addr_unitext (utf8_of_runes cs)
     = bs "\x{A0}" ++ [b 195; b 169] ++ bs "\x{20}\x{5C}\x{2003}" ++ [b 240; b 159; b 152; b 128]
       ++ bs "@" ++ [b 226; b 130; b 172] ++ bs "\x{3000}"
  /\ forallb (fun cp => let cs := [cp; 120; cp; 64; 121; cp]%N in
                        forallb addr_cp cs
                        && ws_free (encode_utf8_addr_unitext (utf8_of_runes cs))
                        && negb (ws_free (utf8_of_runes cs))) uspace_cps = true.
Proof. vm_compute. repeat split. Qed.
