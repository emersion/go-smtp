(* The client's dot-writer (net/textproto) composed with the server's
   dot-unstuffing specification: whatever is written through the dot-writer,
   in whatever pieces, comes out of `unstuff` as one complete message, the
   normalised body, and the server resumes exactly behind the end marker. *)
From Smtp Require Import Bytes DotSpec DataProofs DotWriter.

Lemma eqb_LF_CR : Ascii.eqb LF CR = false. Proof. reflexivity. Qed.
Lemma eqb_LF_DOT : Ascii.eqb LF DOT = false. Proof. reflexivity. Qed.
Lemma eqb_CR_DOT : Ascii.eqb CR DOT = false. Proof. reflexivity. Qed.
Lemma eqb_DOT_CR : Ascii.eqb DOT CR = false. Proof. reflexivity. Qed.
Lemma eqb_DOT_LF : Ascii.eqb DOT LF = false. Proof. reflexivity. Qed.

Lemma dw_write_app w a b :
  dw_write w (a ++ b) =
  let '(w1, o1) := dw_write w a in
  let '(w2, o2) := dw_write w1 b in (w2, o1 ++ o2).
Proof.
  revert w; induction a as [|c a IH]; intros w.
  - cbn [app dw_write]. destruct (dw_write w b) as [w2 o2]. reflexivity.
  - cbn [app dw_write]. destruct (dw_step w c) as [w1 o1].
    rewrite IH. destruct (dw_write w1 a) as [w2 o2].
    destruct (dw_write w2 b) as [w3 o3]. rewrite app_assoc. reflexivity.
Qed.

Lemma dw_writes_concat parts : forall w, dw_writes w parts = dw_write w (List.concat parts).
Proof.
  induction parts as [|p r IH]; intros w.
  - reflexivity.
  - cbn [dw_writes List.concat]. rewrite dw_write_app.
    destruct (dw_write w p) as [w1 o1]. rewrite IH. reflexivity.
Qed.

(* the wire octets for a body written from state w and then closed *)
Definition wire (w : wstate) (s : bytes) : bytes :=
  snd (dw_write w s) ++ dw_close (fst (dw_write w s)).

Lemma dot_write_all_wire parts : dot_write_all parts = wire WBegin (List.concat parts).
Proof.
  unfold dot_write_all, wire. rewrite dw_writes_concat.
  destruct (dw_write WBegin (List.concat parts)) as [w o]. reflexivity.
Qed.

Theorem dot_write_partition_independent :
  forall parts, dot_write_all parts = dot_write_all [List.concat parts].
Proof.
  intros parts. rewrite !dot_write_all_wire. cbn [List.concat]. rewrite app_nil_r. reflexivity.
Qed.
Print Assumptions dot_write_partition_independent.

Lemma wire_nil w : wire w [] = dw_close w.
Proof. reflexivity. Qed.

Lemma wire_cons w c t :
  wire w (c :: t) = snd (dw_step w c) ++ wire (fst (dw_step w c)) t.
Proof.
  unfold wire. cbn [dw_write]. destruct (dw_step w c) as [w1 o1]. cbn [fst snd].
  destruct (dw_write w1 t) as [w2 o2]. cbn [fst snd]. rewrite app_assoc. reflexivity.
Qed.

(* a stuffed dot at a line start *)
Lemma unstuff_dotdot r : unstuff (DOT :: DOT :: r) = prepend [DOT] (mid r).
Proof.
  rewrite unstuff_unfold.
  assert (Hm : is_marker (DOT :: DOT :: r) = None) by (destruct r; reflexivity).
  rewrite Hm. cbn [strip_dot]. rewrite Ascii.eqb_refl, mid_cons, eqb_DOT_CR. reflexivity.
Qed.

(* WBegin / WBeginLine ~ at a line start, WCR ~ after a CR, WData ~ mid line *)
Definition spec_side (w : wstate) : bytes -> dres :=
  match w with
  | WBegin | WBeginLine => unstuff
  | WCR => midCR
  | WData => mid
  end.

(* what the reader delivers for the remaining body s written from state w
   (for ALL bodies; it coincides with `normalise` when every CR of the body
   is followed by LF, see norm_w_normalise) *)
Fixpoint norm_w (w : wstate) (s : bytes) : bytes :=
  match s with
  | [] =>
      match w with
      | WBegin | WData => crlf
      | WCR => [LF]
      | WBeginLine => []
      end
  | c :: t =>
      match w with
      | WCR =>
          if Ascii.eqb c LF then LF :: norm_w WBeginLine t else c :: norm_w WData t
      | _ =>
          if Ascii.eqb c LF then CR :: LF :: norm_w WBeginLine t
          else if Ascii.eqb c CR then CR :: norm_w WCR t
          else c :: norm_w WData t
      end
  end.

(* mid-line, the writer never starts its output with LF *)
Lemma wire_data_head t : exists x r, wire WData t = x :: r /\ Ascii.eqb x LF = false.
Proof.
  destruct t as [|c t].
  - exists CR, (LF :: dotcrnl). split; reflexivity.
  - rewrite wire_cons. unfold dw_step, dw_case_data.
    destruct (Ascii.eqb c LF) eqn:El.
    + cbn [fst snd app]. eexists _, _. split; reflexivity.
    + cbn [fst snd app]. eexists _, _. split; [reflexivity|exact El].
Qed.

Lemma midCR_wire_data t tail : midCR (wire WData t ++ tail) = mid (wire WData t ++ tail).
Proof.
  destruct (wire_data_head t) as (x & r & -> & Hx).
  cbn [app]. apply midCR_nonLF. exact Hx.
Qed.

(* the step from a line start and the step in mid line produce the same
   octets except for the stuffed dot *)
Lemma step_linestart c :
  dw_step WBegin c = dw_step WBeginLine c /\
  dw_step WBegin c =
    (fst (dw_step WData c), (if Ascii.eqb c DOT then [DOT] else []) ++ snd (dw_step WData c)).
Proof.
  cbn [dw_step]. destruct (dw_case_data WData c) as [w o]. split; reflexivity.
Qed.

Lemma roundtrip_w : forall s w tail,
  spec_side w (wire w s ++ tail) = prepend (norm_w w s) (Complete [] tail).
Proof.
  induction s as [|c t IH]; intros w tail.
  - rewrite wire_nil. destruct w; cbn [dw_close spec_side norm_w dotcrnl app].
    + rewrite unstuff_nondot by reflexivity. rewrite mid_crlf, unstuff_marker. reflexivity.
    + rewrite unstuff_marker. reflexivity.
    + rewrite midCR_LF, unstuff_marker. reflexivity.
    + rewrite mid_crlf, unstuff_marker. reflexivity.
  - pose proof (IH WBeginLine tail) as IHb. pose proof (IH WCR tail) as IHc.
    pose proof (IH WData tail) as IHd. cbn [spec_side] in IHb, IHc, IHd.
    assert (Hdata : mid (wire WData (c :: t) ++ tail)
                    = prepend (norm_w WData (c :: t)) (Complete [] tail)).
    { rewrite wire_cons. unfold dw_step, dw_case_data. cbn [norm_w].
      destruct (Ascii.eqb c LF) eqn:El.
      - beq. cbn [fst snd app]. rewrite mid_crlf, IHb, prepend_app. reflexivity.
      - destruct (Ascii.eqb c CR) eqn:Ec.
        + beq. cbn [fst snd app]. rewrite mid_CR, IHc, prepend_app. reflexivity.
        + cbn [fst snd app]. rewrite mid_other by exact Ec.
          rewrite IHd, prepend_app. reflexivity. }
    assert (Hline : unstuff (wire WBegin (c :: t) ++ tail)
                    = prepend (norm_w WData (c :: t)) (Complete [] tail)).
    { rewrite <- Hdata. rewrite !wire_cons.
      destruct (step_linestart c) as [_ ->]. cbn [fst snd].
      destruct (Ascii.eqb c DOT) eqn:Ed.
      - beq. unfold dw_step, dw_case_data. rewrite eqb_DOT_LF, eqb_DOT_CR.
        cbn [fst snd app]. rewrite unstuff_dotdot, mid_other by reflexivity. reflexivity.
      - cbn [app]. unfold dw_step, dw_case_data.
        destruct (Ascii.eqb c LF) eqn:El.
        + cbn [fst snd app]. apply unstuff_nondot. reflexivity.
        + cbn [fst snd app]. apply unstuff_nondot. exact Ed. }
    destruct w; cbn [spec_side].
    + exact Hline.
    + replace (wire WBeginLine (c :: t)) with (wire WBegin (c :: t)).
      * exact Hline.
      * rewrite !wire_cons. destruct (step_linestart c) as [-> _]. reflexivity.
    + rewrite wire_cons. unfold dw_step. cbn [norm_w].
      destruct (Ascii.eqb c LF) eqn:El.
      * beq. cbn [fst snd app]. rewrite midCR_LF, IHb, prepend_app. reflexivity.
      * cbn [fst snd app]. rewrite midCR_nonLF by exact El. rewrite mid_cons.
        rewrite midCR_wire_data, IHd, prepend_app.
        destruct (Ascii.eqb c CR); reflexivity.
    + exact Hdata.
Qed.

(* what the backend receives for a body: defined for all bodies *)
Definition dw_received (body : bytes) : bytes := norm_w WBegin body.

(* no hypothesis on the body: the reader always finds exactly the writer's
   end marker, never an earlier look-alike, and resumes exactly at tail *)
Theorem dot_roundtrip_any : forall body tail,
  unstuff (dot_write_all [body] ++ tail) = Complete (dw_received body) tail.
Proof.
  intros body tail. rewrite dot_write_all_wire. cbn [List.concat]. rewrite app_nil_r.
  pose proof (roundtrip_w body WBegin tail) as H. cbn [spec_side] in H.
  rewrite H. cbn [prepend]. rewrite app_nil_r. reflexivity.
Qed.
Print Assumptions dot_roundtrip_any.

(* [norm_w] against the declarative [normalise].  The hypothesis, relative to
   the writer state: *)
Definition ok (w : wstate) (s : bytes) : bool :=
  match w with
  | WCR => match s with
           | d :: _ => Ascii.eqb d LF && cr_only_in_crlf s
           | [] => false
           end
  | _ => cr_only_in_crlf s
  end.

Lemma cr_only_cons_CR t : cr_only_in_crlf (CR :: t) = ok WCR t.
Proof. cbn [cr_only_in_crlf ok]. rewrite Ascii.eqb_refl. reflexivity. Qed.

Lemma cr_only_cons_other c t :
  Ascii.eqb c CR = false -> cr_only_in_crlf (c :: t) = cr_only_in_crlf t.
Proof. intros H. cbn [cr_only_in_crlf]. rewrite H. reflexivity. Qed.

(* how a string extended by one octet ends *)
Lemma ends_with_snoc1 a p c : ends_with [a] (p ++ [c]) = Ascii.eqb a c.
Proof.
  induction p as [|x p IH]; cbn [app ends_with bytes_eqb].
  - rewrite andb_true_r, orb_false_r. reflexivity.
  - rewrite IH. destruct (p ++ [c]) eqn:E; [destruct p; discriminate|].
    rewrite andb_false_r. reflexivity.
Qed.

Lemma ends_with_snoc2 a b p c :
  ends_with [a; b] (p ++ [c]) = ends_with [a] p && Ascii.eqb b c.
Proof.
  induction p as [|x p IH]; cbn [app ends_with bytes_eqb].
  - rewrite !andb_false_r. reflexivity.
  - rewrite IH. destruct p as [|y p]; cbn [app bytes_eqb ends_with].
    + rewrite !andb_true_r, !orb_false_r. reflexivity.
    + destruct (p ++ [c]) eqn:E; [destruct p; discriminate|].
      rewrite !andb_false_r. reflexivity.
Qed.

(* the octets before the rest of the body end the way the writer state says *)
Definition ends_in (w : wstate) (p : bytes) : Prop :=
  match w with
  | WBeginLine => ends_with crlf p = true
  | WCR => ends_with crlf p = false /\ ends_with [CR] p = true
  | WBegin | WData => ends_with crlf p = false /\ ends_with [CR] p = false
  end.

Definition after_cr (w : wstate) : bool := match w with WCR => true | _ => false end.

Lemma ends_in_lf w p :
  ends_in w p -> ends_in WBeginLine (p ++ (if after_cr w then [LF] else [CR; LF])).
Proof.
  unfold ends_in, crlf. destruct w; cbn [after_cr]; intros Hp.
  1, 2, 4: replace (p ++ [CR; LF]) with ((p ++ [CR]) ++ [LF]) by (rewrite <- app_assoc; reflexivity);
    rewrite ends_with_snoc2, ends_with_snoc1; reflexivity.
  destruct Hp as [_ Hp]. rewrite ends_with_snoc2, Hp. reflexivity.
Qed.

Lemma ends_in_cr p : ends_in WCR (p ++ [CR]).
Proof.
  unfold ends_in, crlf. rewrite ends_with_snoc2, ends_with_snoc1. split; [apply andb_false_r|reflexivity].
Qed.

Lemma ends_in_other p c :
  Ascii.eqb c CR = false -> Ascii.eqb c LF = false -> ends_in WData (p ++ [c]).
Proof.
  intros nCR nLF. unfold ends_in, crlf.
  rewrite ends_with_snoc2, ends_with_snoc1, !(Ascii.eqb_sym _ c), nLF, nCR.
  split; [apply andb_false_r|reflexivity].
Qed.

(* The context p of octets already delivered only grows; at the end of the
   body ensure_crlf looks at how p ends, which is what the writer's state
   has recorded. *)
Lemma norm_ctx : forall s w p, ok w s = true -> ends_in w p ->
  ensure_crlf (p ++ fix_lf (after_cr w) s) = p ++ norm_w w s.
Proof.
  induction s as [|c t IH]; intros w p Hok Hp.
  - cbn [fix_lf norm_w]. rewrite app_nil_r. unfold ensure_crlf.
    destruct w; cbn [ends_in] in Hp.
    1, 3, 4: destruct Hp as [-> ->]; reflexivity.
    rewrite Hp, app_nil_r. reflexivity.
  - destruct (Ascii.eqb_spec c LF) as [->|nLF].
    + (* LF: after a CR it is delivered as it is, otherwise as CRLF *)
      assert (Ht : ok WBeginLine t = true).
      { destruct w; cbn [ok] in Hok; try apply andb_true_iff in Hok as [_ Hok];
          rewrite cr_only_cons_other in Hok by reflexivity; exact Hok. }
      replace (norm_w w (LF :: t))
        with ((if after_cr w then [LF] else [CR; LF]) ++ norm_w WBeginLine t)
        by (destruct w; reflexivity).
      cbn [fix_lf]. rewrite Ascii.eqb_refl, !app_assoc.
      apply (IH WBeginLine); [exact Ht|apply ends_in_lf, Hp].
    + (* any other octet: the writer is not behind a CR *)
      apply Ascii.eqb_neq in nLF.
      assert (Hw : after_cr w = false /\ cr_only_in_crlf (c :: t) = true /\
                   norm_w w (c :: t) = norm_w WData (c :: t)).
      { destruct w; cbn [ok] in Hok; auto. rewrite nLF in Hok. discriminate. }
      destruct Hw as (-> & Hcr & ->). cbn [fix_lf norm_w]. rewrite nLF.
      destruct (Ascii.eqb c CR) eqn:Ec.
      * beq. rewrite cr_only_cons_CR in Hcr.
        change (p ++ CR :: fix_lf true t) with (p ++ [CR] ++ fix_lf (after_cr WCR) t).
        change (p ++ CR :: norm_w WCR t) with (p ++ [CR] ++ norm_w WCR t).
        rewrite !app_assoc. apply (IH WCR); [exact Hcr|apply ends_in_cr].
      * rewrite cr_only_cons_other in Hcr by exact Ec.
        change (p ++ c :: fix_lf false t) with (p ++ [c] ++ fix_lf (after_cr WData) t).
        change (p ++ c :: norm_w WData t) with (p ++ [c] ++ norm_w WData t).
        rewrite !app_assoc. apply (IH WData); [exact Hcr|apply ends_in_other; assumption].
Qed.

Lemma norm_w_normalise body :
  cr_only_in_crlf body = true -> dw_received body = normalise body.
Proof.
  intros H. symmetry. apply (norm_ctx body WBegin [] H). split; reflexivity.
Qed.

Theorem dot_roundtrip : forall body tail, cr_only_in_crlf body = true ->
  unstuff (dot_write_all [body] ++ tail) = Complete (normalise body) tail.
Proof.
  intros body tail H. rewrite dot_roundtrip_any, norm_w_normalise by exact H. reflexivity.
Qed.
Print Assumptions dot_roundtrip.

Corollary dot_roundtrip_parts : forall parts tail, cr_only_in_crlf (List.concat parts) = true ->
  unstuff (dot_write_all parts ++ tail) = Complete (normalise (List.concat parts)) tail.
Proof.
  intros parts tail H. rewrite dot_write_partition_independent.
  apply dot_roundtrip. exact H.
Qed.
Print Assumptions dot_roundtrip_parts.

(* without the hypothesis the reader still stops exactly at the writer's end
   marker, whatever the body and however it is split into Write calls *)
Corollary dot_roundtrip_parts_any : forall parts tail,
  unstuff (dot_write_all parts ++ tail) = Complete (dw_received (List.concat parts)) tail.
Proof.
  intros parts tail. rewrite dot_write_partition_independent. apply dot_roundtrip_any.
Qed.
Print Assumptions dot_roundtrip_parts_any.

(* A body that is already in wire form arrives unchanged. *)

(* every LF is preceded by CR (prevCR: the previous octet was a CR) *)
Fixpoint lf_only_in_crlf (prevCR : bool) (s : bytes) : bool :=
  match s with
  | [] => true
  | c :: t => (if Ascii.eqb c LF then prevCR else true) && lf_only_in_crlf (Ascii.eqb c CR) t
  end.

Lemma fix_lf_id : forall s p, lf_only_in_crlf p s = true -> fix_lf p s = s.
Proof.
  induction s as [|c t IH]; intros p H; [reflexivity|].
  cbn [lf_only_in_crlf] in H. apply andb_true_iff in H as [H1 H2]. cbn [fix_lf].
  destruct (Ascii.eqb c LF) eqn:El.
  - subst p. beq. rewrite eqb_LF_CR in H2. rewrite (IH false H2). reflexivity.
  - rewrite (IH _ H2). reflexivity.
Qed.

Lemma normalise_canonical body :
  lf_only_in_crlf false body = true -> ends_with crlf body = true -> normalise body = body.
Proof.
  intros H1 H2. unfold normalise. rewrite fix_lf_id by exact H1.
  unfold ensure_crlf. rewrite H2. reflexivity.
Qed.

Corollary dot_roundtrip_exact : forall body tail,
  cr_only_in_crlf body = true -> lf_only_in_crlf false body = true ->
  ends_with crlf body = true ->
  unstuff (dot_write_all [body] ++ tail) = Complete body tail.
Proof.
  intros body tail H1 H2 H3. rewrite dot_roundtrip by exact H1.
  rewrite normalise_canonical by assumption. reflexivity.
Qed.
Print Assumptions dot_roundtrip_exact.

Definition dres_eqb (a b : dres) : bool :=
  match a, b with
  | Complete x y, Complete x' y' => bytes_eqb x x' && bytes_eqb y y'
  | Incomplete x, Incomplete x' => bytes_eqb x x'
  | _, _ => false
  end.

(* all ways of cutting s into two Write calls *)
Fixpoint splits (s : bytes) : list (bytes * bytes) :=
  ([], s) :: match s with
             | [] => []
             | c :: t => map (fun p => (c :: fst p, snd p)) (splits t)
             end.

Definition t_bodies : list bytes :=
  [ []; [DOT]; [DOT; DOT]; bs "a"; bs "a" ++ [LF]; bs "a" ++ crlf; DOT :: crlf;
    crlf ++ DOT :: crlf; bs "a" ++ LF :: DOT :: LF :: bs "b";
    bs "a" ++ crlf ++ DOT :: crlf ++ bs "b" ++ crlf; [LF]; bs "x" ++ crlf ++ crlf;
    LF :: DOT :: [LF]; DOT :: LF :: DOT :: DOT :: LF :: [DOT] ].

Definition t_tails : list bytes :=
  [ []; bs "QUIT" ++ crlf; DOT :: crlf; [LF]; crlf ++ DOT :: crlf ].

Definition t_check (b tail : bytes) : bool :=
  cr_only_in_crlf b &&
  dres_eqb (unstuff (dot_write_all [b] ++ tail)) (Complete (normalise b) tail) &&
  forallb (fun p => bytes_eqb (dot_write_all [fst p; snd p]) (dot_write_all [b])) (splits b).

Example tests_ok :
  forallb (fun b => forallb (t_check b) t_tails) t_bodies = true.
Proof. vm_compute. reflexivity. Qed.

Example wire_examples :
  dot_write_all [[]] = crlf ++ dotcrnl /\
  dot_write_all [] = crlf ++ dotcrnl /\
  dot_write_all [[DOT]] = DOT :: DOT :: crlf ++ dotcrnl /\
  dot_write_all [bs "a" ++ [CR]] = bs "a" ++ crlf ++ dotcrnl /\
  dot_write_all [bs "a" ++ [LF]] = bs "a" ++ crlf ++ dotcrnl /\
  normalise [] = crlf /\
  normalise (bs "a" ++ [CR]) = bs "a" ++ crlf /\
  normalise (LF :: DOT :: [LF]) = crlf ++ DOT :: crlf.
Proof. vm_compute. repeat split. Qed.

(* non-vacuity: a body with the end-of-data look-alike CRLF.CRLF inside.
   Sent raw it would be cut there; through the dot-writer it arrives whole
   and the server resumes at the next command. *)
Definition nv_body : bytes := bs "a" ++ crlf ++ DOT :: crlf ++ bs "b" ++ crlf.
Definition nv_tail : bytes := bs "QUIT" ++ crlf.

Example dot_roundtrip_nonvacuous :
  cr_only_in_crlf nv_body = true /\
  unstuff (nv_body ++ dotcrnl ++ nv_tail)
    = Complete (bs "a" ++ crlf) (bs "b" ++ crlf ++ dotcrnl ++ nv_tail) /\
  dot_write_all [nv_body] = bs "a" ++ crlf ++ DOT :: DOT :: crlf ++ bs "b" ++ crlf ++ dotcrnl /\
  normalise nv_body = nv_body /\
  unstuff (dot_write_all [nv_body] ++ nv_tail) = Complete nv_body nv_tail /\
  unstuff (dot_write_all [bs "a" ++ crlf ++ [DOT]; crlf ++ bs "b" ++ crlf] ++ nv_tail)
    = Complete nv_body nv_tail.
Proof. vm_compute. repeat split. Qed.

(* the same instance obtained from the theorem rather than by computation *)
Example dot_roundtrip_nonvacuous' :
  unstuff (dot_write_all [nv_body] ++ nv_tail) = Complete (normalise nv_body) nv_tail.
Proof. apply dot_roundtrip. vm_compute. reflexivity. Qed.

(* outside the hypothesis: a CR followed by CR LF.  The writer leaves state
   wstateCR on the second CR for wstateData, so the LF gets one more CR; the
   backend receives CR CR CR LF where `normalise` says CR CR LF.  The message
   is still delimited correctly (dot_roundtrip_any). *)
Example hypothesis_needed :
  let body := [CR; CR; LF] in
  cr_only_in_crlf body = false /\
  normalise body = [CR; CR; LF] /\
  unstuff (dot_write_all [body]) = Complete [CR; CR; CR; LF] [].
Proof. vm_compute. repeat split. Qed.
