(* Proofs about the life-cycle model ServerLife.v (property C20, part 3).

   Three ideas carry the file.  [Inv] says that a Shutdown call blocks only on
   a stopped server (done closed) with a handler still running.  On a stopped
   server nothing happens any more except that handlers return
   ([handler_returns]: ORegister and OFinish run the same code there), so each
   connection moves on its own ([stopped_conn]) and the blocked Shutdown is
   released by the last return or by its context ([stopped_step_pending]).
   The listener's fault only relabels what Close / Shutdown return
   ([step_set_err]). *)
From Coq Require Import List Arith NArith Bool Lia.
From Smtp Require Import ServerLife.
Import ListNotations.
Local Open Scope N_scope.

Definition delay_ok (d : N) : Prop := 5 <= d <= 1000.

Record Inv (s : st) : Prop := mkInv {
  inv_serving : serving s = true -> done s = false;
  inv_lis : lis_closed s = done s;
  inv_delay : delay s = 0 \/ delay_ok (delay s);
  inv_sleeps : Forall delay_ok (sleeps s);
  inv_pending : sd_pending s = true -> done s = true /\ (open_count s > 0)%nat
}.

Lemma inv_init_e e : Inv (init_e e).
Proof.
  constructor; simpl; auto; try discriminate.
Qed.

Lemma inv_init : Inv init.
Proof. exact (inv_init_e false). Qed.

Lemma next_delay_ok d : d = 0 \/ delay_ok d -> delay_ok (next_delay d).
Proof.
  unfold next_delay, delay_ok. intros H.
  destruct (N.eqb_spec d 0); lia.
Qed.

Lemma nth_error_set_nth k v l j :
  nth_error (set_nth k v l) j =
  option_map (fun c => if (j =? k)%nat then v else c) (nth_error l j).
Proof.
  revert k j. induction l as [|c l IH]; intros k j; [destruct k, j; reflexivity|].
  destruct k, j; simpl; try reflexivity; [destruct (nth_error l j); reflexivity | apply IH].
Qed.

Lemma set_nth_length k v l : List.length (set_nth k v l) = List.length l.
Proof.
  revert k. induction l as [|c l IH]; intros [|k]; simpl; auto.
Qed.

Lemma open_count_0 s :
  open_count s = 0%nat <-> Forall (fun c => is_open c = false) (conns s).
Proof.
  unfold open_count. induction (conns s) as [|c l IH]; simpl; [split; constructor|].
  rewrite Forall_cons_iff, <- IH. destruct (is_open c); simpl; intuition discriminate.
Qed.

Lemma close_all_none_open l : Forall (fun c => c <> COpen) (close_all l).
Proof. induction l as [|[| | |] l IH]; simpl; constructor; auto; discriminate. Qed.

(* The handler goroutine of connection k returns, leaving the connection in
   state v: its wg.Done() releases a blocked Shutdown if it was the last one.
   This is what OFinish does, and ORegister on a stopped server. *)
Definition handler_returns (s : st) (k : nat) (v : cstate) : st * obs :=
  let cs := set_nth k v (conns s) in
  let s' := mkSt (serving s) (serve_ret s) (done s) (lis_closed s) (delay s)
                 (sleeps s) cs (sd_pending s) (lis_err s) in
  if sd_pending s && (open_count s' =? 0)%nat then
    (mkSt (serving s) (serve_ret s) (done s) (lis_closed s) (delay s)
          (sleeps s) cs false (lis_err s), BShutdownRet (ok_ret s))
  else (s', BNone).

Lemma step_finish s k :
  step s (OFinish k) =
  match nth_error (conns s) k with
  | Some COpen => handler_returns s k CFinished
  | _ => (s, BSkip)
  end.
Proof. reflexivity. Qed.

Lemma step_register_stopped s k :
  done s = true ->
  step s (ORegister k) =
  match nth_error (conns s) k with
  | Some CSpawned => handler_returns s k CClosedByServer
  | _ => (s, BSkip)
  end.
Proof.
  intro Hd. unfold step. destruct (nth_error (conns s) k) as [[| | |]|]; try reflexivity.
  rewrite Hd at 1. reflexivity.
Qed.

Lemma step_close s :
  done s = false ->
  step s OClose =
  (mkSt false (if serving s then Some RNil else serve_ret s) true true (delay s) (sleeps s)
        (close_all (conns s)) (sd_pending s) (lis_err s), BRet (ok_ret s)).
Proof. intro Hd. simpl. rewrite Hd. unfold stop_serve. destruct (serving s); reflexivity. Qed.

Lemma step_shutdown s :
  done s = false ->
  step s OShutdown =
  (mkSt false (if serving s then Some RNil else serve_ret s) true true (delay s) (sleeps s)
        (conns s) (negb (open_count s =? 0)%nat) (lis_err s),
   if (open_count s =? 0)%nat then BRet (ok_ret s) else BPending).
Proof.
  intro Hd. simpl. rewrite Hd. unfold stop_serve.
  destruct (serving s), (open_count s =? 0)%nat; reflexivity.
Qed.

Lemma step_shutdown_blocks s :
  done s = false -> (open_count s > 0)%nat ->
  snd (step s OShutdown) = BPending /\ sd_pending (fst (step s OShutdown)) = true.
Proof.
  intros Hd Ho. rewrite (step_shutdown s Hd).
  destruct (Nat.eqb_spec (open_count s) 0); [lia | split; reflexivity].
Qed.

(* done is closed once and for all; a second Close or Shutdown says so *)
Lemma stopped_second_call s o :
  done s = true -> o = OClose \/ o = OShutdown -> step s o = (s, BRet RServerClosed).
Proof. intros Hd [-> | ->]; simpl; rewrite Hd; reflexivity. Qed.

(* ... and nothing is accepted any more *)
Lemma stopped_accept s r : Inv s -> done s = true -> step s (OAccept r) = (s, BSkip).
Proof.
  intros HI Hd. simpl. rewrite (inv_lis s HI), Hd, andb_false_r. reflexivity.
Qed.

Lemma handler_returns_inv s k v : Inv s -> Inv (fst (handler_returns s k v)).
Proof.
  intros [I1 I2 I3 I4 I5]. unfold handler_returns.
  destruct (sd_pending s); [|constructor; simpl; auto; discriminate].
  destruct (_ =? 0)%nat eqn:E0; constructor; simpl; auto; try discriminate.
  (* still blocked: the test has just found a handler running *)
  intros _. split; [apply I5; reflexivity | apply Nat.eqb_neq in E0; lia].
Qed.

Lemma step_inv s o : Inv s -> Inv (fst (step s o)).
Proof.
  intros HI. pose proof HI as [I1 I2 I3 I4 I5].
  (* no Shutdown call is blocked on a server that has not been stopped *)
  assert (Hnp : done s = false -> sd_pending s = false).
  { intro Hd. destruct (sd_pending s); [destruct (I5 eq_refl); congruence | reflexivity]. }
  destruct o as [r | k | | | k |].
  - simpl. destruct (serving s && negb (lis_closed s)) eqn:E; [|exact HI].
    apply andb_prop in E as [Es _]. specialize (I1 Es). rewrite I1, (Hnp I1).
    destruct r; constructor; simpl; auto; try congruence; try discriminate.
    + right. apply next_delay_ok. exact I3.
    + apply Forall_app. split; [exact I4|]. constructor; [|constructor].
      apply next_delay_ok. exact I3.
  - destruct (done s) eqn:Hd.
    + rewrite (step_register_stopped s k Hd).
      destruct (nth_error (conns s) k) as [[| | |]|]; try exact HI.
      apply handler_returns_inv. exact HI.
    + simpl. rewrite Hd, (Hnp eq_refl).
      destruct (nth_error (conns s) k) as [[| | |]|]; try exact HI.
      constructor; simpl; auto; discriminate.
  - destruct (done s) eqn:Hd; [simpl; rewrite Hd; exact HI|].
    rewrite (step_close s Hd), (Hnp eq_refl). constructor; simpl; auto; discriminate.
  - destruct (done s) eqn:Hd; [simpl; rewrite Hd; exact HI|].
    rewrite (step_shutdown s Hd). constructor; simpl; auto; try discriminate.
    (* it blocks because the test has found a handler running *)
    destruct (open_count s =? 0)%nat eqn:E0; [discriminate|].
    intros _. split; [reflexivity | apply Nat.eqb_neq in E0; unfold open_count in *; simpl; lia].
  - rewrite step_finish. destruct (nth_error (conns s) k) as [[| | |]|]; try exact HI.
    apply handler_returns_inv. exact HI.
  - simpl. destruct (sd_pending s); [|exact HI].
    constructor; simpl; auto; discriminate.
Qed.

(* the listener's fault is a parameter: no operation changes it *)
Lemma step_lis_err s o : lis_err (fst (step s o)) = lis_err s.
Proof.
  destruct o as [[| |] | k | | | k |]; simpl; unfold stop_serve.
  1-3: destruct (serving s && negb (lis_closed s)); try destruct (done s); reflexivity.
  - destruct (nth_error (conns s) k) as [[| | |]|]; try reflexivity.
    destruct (done s); [destruct (sd_pending s && _)|]; reflexivity.
  - destruct (done s), (serving s); reflexivity.
  - destruct (done s), (serving s), (open_count s =? 0)%nat; reflexivity.
  - destruct (nth_error (conns s) k) as [[| | |]|]; try reflexivity.
    destruct (sd_pending s && _); reflexivity.
  - destruct (sd_pending s); reflexivity.
Qed.

Lemma step_ok_ret s o : ok_ret (fst (step s o)) = ok_ret s.
Proof. unfold ok_ret. rewrite step_lis_err. reflexivity. Qed.

Lemma step_done s o : done s = true -> done (fst (step s o)) = true.
Proof.
  intro H. destruct o as [r | k | | | k |]; simpl; rewrite ?H.
  - destruct (serving s && negb (lis_closed s)), r; auto.
  - destruct (nth_error (conns s) k) as [[| | |]|]; auto. destruct (sd_pending s && _); auto.
  - exact H.
  - exact H.
  - destruct (nth_error (conns s) k) as [[| | |]|]; auto. destruct (sd_pending s && _); auto.
  - destruct (sd_pending s); auto.
Qed.

Lemma run_cons s o l :
  run s (o :: l) = (fst (run (fst (step s o)) l), snd (step s o) :: snd (run (fst (step s o)) l)).
Proof.
  simpl. destruct (step s o) as [s1 b]. simpl. destruct (run s1 l) as [s2 bs]. reflexivity.
Qed.

Lemma run_st_cons s o l : run_st s (o :: l) = run_st (fst (step s o)) l.
Proof. unfold run_st. rewrite run_cons. reflexivity. Qed.

(* what every step keeps (P) and what it then lets be observed (Q) holds along
   every run *)
Lemma run_ind (P : st -> Prop) (Q : obs -> Prop) :
  (forall s o, P s -> P (fst (step s o)) /\ Q (snd (step s o))) ->
  forall l s, P s -> P (run_st s l) /\ Forall Q (snd (run s l)).
Proof.
  intro Hstep. induction l as [|o l IH]; intros s HP; [split; [exact HP | constructor]|].
  destruct (Hstep s o HP) as [HP' HQ]. destruct (IH _ HP') as [HP'' HQ'].
  rewrite run_st_cons, run_cons. split; [exact HP'' | constructor; assumption].
Qed.

Lemma run_inv s l : Inv s -> Inv (run_st s l).
Proof.
  intro H. apply (run_ind Inv (fun _ => True)); [|exact H].
  intros s0 o H0. split; [apply step_inv; exact H0 | exact I].
Qed.

Lemma run_lis_err s l : lis_err (run_st s l) = lis_err s.
Proof.
  apply (run_ind (fun s' => lis_err s' = lis_err s) (fun _ => True)); [|reflexivity].
  intros s0 o H0. split; [rewrite step_lis_err; exact H0 | exact I].
Qed.

Lemma run_ok_ret s l : ok_ret (run_st s l) = ok_ret s.
Proof. unfold ok_ret. rewrite run_lis_err. reflexivity. Qed.

Lemma run_done s l : done s = true -> done (run_st s l) = true.
Proof.
  intro H. apply (run_ind (fun s' => done s' = true) (fun _ => True)); [|exact H].
  intros s0 o H0. split; [apply step_done; exact H0 | exact I].
Qed.

(* reachable from a fresh server, whether or not its listener's Close fails *)
Definition reachable (s : st) : Prop := exists e l, s = run_st (init_e e) l.

Lemma reachable_inv s : reachable s -> Inv s.
Proof. intros [e [l ->]]. apply run_inv. apply inv_init_e. Qed.

(* a step of a stopped server leaves the Shutdown call as it is and reports
   nothing about it, or it releases the blocked call: because the context
   expired, or with what Shutdown was going to return when the last handler
   has returned *)
Definition pending_kept_or_released (s : st) (o : op) (r : st * obs) : Prop :=
  (sd_pending (fst r) = sd_pending s /\
   (forall e, snd r <> BShutdownRet e) /\ snd r <> BPending) \/
  (sd_pending s = true /\ sd_pending (fst r) = false /\
   (o = OExpire /\ snd r = BShutdownRet RCtxErr \/
    open_count (fst r) = 0%nat /\ snd r = BShutdownRet (ok_ret s))).

Lemma handler_returns_pending s o k v :
  pending_kept_or_released s o (handler_returns s k v).
Proof.
  unfold handler_returns, pending_kept_or_released.
  destruct (sd_pending s); [destruct (_ =? 0)%nat eqn:E0|]; simpl.
  - right. apply Nat.eqb_eq in E0. auto.
  - left. repeat split; discriminate.
  - left. repeat split; discriminate.
Qed.

Lemma stopped_step_pending s o :
  Inv s -> done s = true -> pending_kept_or_released s o (step s o).
Proof.
  intros HI Hd.
  assert (Hidle : forall b, (forall e, b <> BShutdownRet e) -> b <> BPending ->
                            pending_kept_or_released s o (s, b)).
  { intros b H1 H2. left. auto. }
  destruct o as [r | k | | | k |].
  - rewrite (stopped_accept s r HI Hd). apply Hidle; discriminate.
  - rewrite (step_register_stopped s k Hd).
    destruct (nth_error (conns s) k) as [[| | |]|];
      solve [apply handler_returns_pending | apply Hidle; discriminate].
  - rewrite (stopped_second_call s OClose Hd) by auto. apply Hidle; discriminate.
  - rewrite (stopped_second_call s OShutdown Hd) by auto. apply Hidle; discriminate.
  - rewrite step_finish.
    destruct (nth_error (conns s) k) as [[| | |]|];
      solve [apply handler_returns_pending | apply Hidle; discriminate].
  - simpl. destruct (sd_pending s) eqn:Hp; [|apply Hidle; discriminate].
    right. simpl. auto.
Qed.

Fixpoint has_expire (l : list op) : bool :=
  match l with [] => false | OExpire :: _ => true | _ :: r => has_expire r end.

Lemma has_expire_cons o l : has_expire (o :: l) = false -> o <> OExpire /\ has_expire l = false.
Proof. destruct o; simpl; intro H; split; congruence. Qed.

(* On a stopped server no connection is accepted or taken into service: each
   one moves on its own, and only when its handler returns.  What operation o
   does to connection j when that is in state c: *)
Definition stopped_conn (j : nat) (c : cstate) (o : op) : cstate :=
  match o, c with
  | ORegister k, CSpawned => if (j =? k)%nat then CClosedByServer else c
  | OFinish k, COpen => if (j =? k)%nat then CFinished else c
  | _, _ => c
  end.

Lemma handler_returns_conns s k v : conns (fst (handler_returns s k v)) = set_nth k v (conns s).
Proof. unfold handler_returns. destruct (sd_pending s && _); reflexivity. Qed.

Lemma stopped_step_conns s o j :
  Inv s -> done s = true ->
  nth_error (conns (fst (step s o))) j =
  option_map (fun c => stopped_conn j c o) (nth_error (conns s) j).
Proof.
  intros HI Hd. unfold stopped_conn.
  destruct o as [r | k | | | k |];
    [rewrite (stopped_accept s r HI Hd) | rewrite (step_register_stopped s k Hd)
    | simpl; rewrite Hd | simpl; rewrite Hd | rewrite step_finish | simpl; destruct (sd_pending s)].
  (* ORegister k, OFinish k: the handler of connection k may return *)
  2,5: destruct (nth_error (conns s) k) as [[| | |]|] eqn:En; cbn [fst];
       rewrite ?handler_returns_conns, ?nth_error_set_nth;
       destruct (Nat.eqb_spec j k) as [-> | Hne]; rewrite ?En; try reflexivity.
  all: cbn [fst conns]; destruct (nth_error (conns s) j) as [[| | |]|]; reflexivity.
Qed.

Lemma stopped_run_conns l : forall s j,
  Inv s -> done s = true ->
  nth_error (conns (run_st s l)) j =
  option_map (fun c => fold_left (stopped_conn j) l c) (nth_error (conns s) j).
Proof.
  induction l as [|o l IH]; intros s j HI Hd; [destruct (nth_error _ j); reflexivity|].
  rewrite run_st_cons, IH, stopped_step_conns by auto using step_inv, step_done.
  destruct (nth_error (conns s) j); reflexivity.
Qed.

(* a connection that has ended stays as it is *)
Lemma stopped_conn_ended j c o : is_open c = false -> stopped_conn j c o = c.
Proof. destruct o, c; simpl; try reflexivity; discriminate. Qed.

Lemma stopped_run_ended j l c : is_open c = false -> fold_left (stopped_conn j) l c = c.
Proof.
  intro H. induction l as [|o l IH]; simpl; [reflexivity|].
  rewrite stopped_conn_ended by exact H. exact IH.
Qed.

(* none is taken into service *)
Lemma stopped_conn_not_served j c o : stopped_conn j c o = COpen -> c = COpen.
Proof.
  destruct o as [r | k | | | k |], c; simpl; try destruct (j =? k)%nat; congruence.
Qed.

Lemma stopped_run_not_served j l : forall c, fold_left (stopped_conn j) l c = COpen -> c = COpen.
Proof.
  induction l as [|o l IH]; simpl; intros c H; [exact H|].
  exact (stopped_conn_not_served j c o (IH _ H)).
Qed.

(* one that is not being served has ended once its handler has run *)
Lemma stopped_run_registered j l : forall c,
  c <> COpen -> In (ORegister j) l -> is_open (fold_left (stopped_conn j) l c) = false.
Proof.
  induction l as [|o l IH]; simpl; intros c Hc Hin; [contradiction|].
  destruct Hin as [-> | Hin].
  - assert (E : is_open (stopped_conn j c (ORegister j)) = false)
      by (destruct c; simpl; rewrite ?Nat.eqb_refl; simpl; congruence).
    rewrite (stopped_run_ended j l _ E). exact E.
  - apply IH; [|exact Hin]. intro H. exact (Hc (stopped_conn_not_served j c o H)).
Qed.

(* once the server is stopped (Close OR Shutdown), no connection is taken
   into service any more: a connection that is served afterwards was served
   before *)
Theorem no_service_after_stop s o j :
  Inv s -> done s = true ->
  nth_error (conns (fst (step s o))) j = Some COpen -> nth_error (conns s) j = Some COpen.
Proof.
  intros HI Hd. rewrite (stopped_step_conns s o j HI Hd).
  destruct (nth_error (conns s) j) as [c|]; [|discriminate].
  simpl. intro H. injection H as H. rewrite (stopped_conn_not_served j c o H). reflexivity.
Qed.

Lemma stopped_run_none_open s l :
  Inv s -> done s = true -> open_count s = 0%nat -> open_count (run_st s l) = 0%nat.
Proof.
  intros HI Hd. rewrite !open_count_0, !Forall_forall. intros H c Hc.
  destruct (In_nth_error _ _ Hc) as [j Hj]. rewrite (stopped_run_conns l s j HI Hd) in Hj.
  destruct (nth_error (conns s) j) as [c0|] eqn:E0; [|discriminate Hj]. injection Hj as <-.
  apply nth_error_In in E0. rewrite stopped_run_ended; auto.
Qed.

(* once the Shutdown call has returned, nothing is reported about it any more *)
Lemma shutdown_returned s l :
  Inv s -> done s = true -> sd_pending s = false ->
  sd_pending (run_st s l) = false /\
  Forall (fun b => forall e, b <> BShutdownRet e) (snd (run s l)).
Proof.
  intros HI Hd Hp.
  destruct (run_ind (fun s => Inv s /\ done s = true /\ sd_pending s = false)
                    (fun b => forall e, b <> BShutdownRet e)) with (l := l) (s := s)
    as [(_ & _ & H) HQ]; auto.
  intros s0 o (HI0 & Hd0 & Hp0).
  destruct (stopped_step_pending s0 o HI0 Hd0) as [(E & N & _) | (E & _)]; [|congruence].
  split; [|exact N]. split; [apply step_inv; exact HI0|].
  split; [apply step_done; exact Hd0 | congruence].
Qed.

(* as long as the context does not expire, a blocked Shutdown waits while a
   connection is active and returns (nil, or the listener's error) as soon as
   none is *)
Theorem shutdown_waits s l :
  Inv s -> sd_pending s = true -> has_expire l = false ->
  let s' := run_st s l in
  let bs := snd (run s l) in
  ~ In (BShutdownRet RCtxErr) bs /\
  ((sd_pending s' = true /\ (open_count s' > 0)%nat /\ ~ In (BShutdownRet (ok_ret s)) bs) \/
   (sd_pending s' = false /\ open_count s' = 0%nat /\ In (BShutdownRet (ok_ret s)) bs)).
Proof.
  revert s. induction l as [|o l IH]; intros s HI Hp He; cbv zeta.
  - simpl. split; [tauto|]. left. destruct (inv_pending s HI Hp). tauto.
  - apply has_expire_cons in He as [Ho He]. destruct (inv_pending s HI Hp) as [Hd _].
    assert (HI' := step_inv s o HI). assert (Hd' := step_done s o Hd).
    rewrite run_st_cons, run_cons. cbn [snd In].
    destruct (stopped_step_pending s o HI Hd) as [(Ep & Nr & _) | (_ & Ep & [[-> _] | [Ho' Eb]])].
    + (* the call stays blocked *)
      rewrite Hp in Ep. destruct (IH _ HI' Ep He) as [N1 N2]. rewrite step_ok_ret in N2.
      pose proof (Nr RCtxErr). pose proof (Nr (ok_ret s)). tauto.
    + contradiction.
    + (* the last handler has returned *)
      destruct (shutdown_returned _ l HI' Hd' Ep) as [Hp' Hq]. rewrite Forall_forall in Hq.
      assert (Hc : ok_ret s <> RCtxErr) by (unfold ok_ret; destruct (lis_err s); discriminate).
      split; [intros [F | F]; [congruence | exact (Hq _ F _ eq_refl)]|].
      right. auto using stopped_run_none_open.
Qed.

(* Shutdown on a server that is still open: Serve returns nil, the
   connections are left alone and nothing is accepted any more; the call
   returns at once if no handler is running, else it blocks until the last one
   has returned or its context expires; every later Close or Shutdown is told
   that the server is closed *)
Theorem shutdown_stops s :
  Inv s -> done s = false ->
  let s' := fst (step s OShutdown) in
  serving s' = false /\ (serving s = true -> serve_ret s' = Some RNil) /\
  conns s' = conns s /\
  (forall l r, snd (step (run_st s' l) (OAccept r)) = BSkip) /\
  (open_count s = 0%nat -> snd (step s OShutdown) = BRet (ok_ret s)) /\
  ((open_count s > 0)%nat ->
   snd (step s OShutdown) = BPending /\
   (forall l, has_expire l = false ->
      let s'' := run_st s' l in
      (sd_pending s'' = true /\ (open_count s'' > 0)%nat /\
       snd (step s'' OExpire) = BShutdownRet RCtxErr) \/
      (sd_pending s'' = false /\ open_count s'' = 0%nat /\
       In (BShutdownRet (ok_ret s)) (snd (run s' l)) /\
       ~ In (BShutdownRet RCtxErr) (snd (run s' l))))) /\
  (forall l o, (o = OClose \/ o = OShutdown) ->
               snd (step (run_st s' l) o) = BRet RServerClosed).
Proof.
  intros HI Hd. assert (HI' := step_inv s OShutdown HI).
  revert HI'. rewrite (step_shutdown s Hd). intros HI' s'. cbn [fst snd] in *.
  assert (Hd' : forall l, done (run_st s' l) = true) by (intro l; apply run_done; reflexivity).
  split; [reflexivity|]. split; [intro Hs; simpl; rewrite Hs; reflexivity|]. split; [reflexivity|].
  split; [|split; [|split]].
  - intros l r. rewrite stopped_accept; auto using run_inv.
  - intros ->. reflexivity.
  - intro H0. destruct (Nat.eqb_spec (open_count s) 0) as [E0 | _]; [lia|].
    split; [reflexivity|]. intros l He.
    destruct (shutdown_waits s' l HI' eq_refl He) as [N1 [(P & Q & R) | (P & Q & R)]].
    + left. repeat split; auto. simpl. rewrite P. reflexivity.
    + right. auto.
  - intros l o Ho. rewrite (stopped_second_call _ o (Hd' l) Ho). reflexivity.
Qed.

Definition is_temp_or_conn (o : op) : bool :=
  match o with OAccept ATemp | OAccept AConn | ORegister _ => true | _ => false end.

Fixpoint count_temp (l : list op) : nat :=
  match l with
  | [] => O
  | OAccept ATemp :: r => S (count_temp r)
  | _ :: r => count_temp r
  end.

Lemma delays_from_ok d n : d = 0 \/ delay_ok d -> Forall delay_ok (delays_from d n).
Proof.
  revert d. induction n as [|n IH]; intros d H; simpl; constructor.
  - apply next_delay_ok. exact H.
  - apply IH. right. apply next_delay_ok. exact H.
Qed.

(* Serve returns exactly at the first permanent Accept error (with that
   error) or when done is closed by Close / Shutdown (with nil) *)
Theorem serve_returns_exactly s o :
  Inv s -> serving s = true ->
  let s' := fst (step s o) in
  match o with
  | OAccept APerm => serving s' = false /\ serve_ret s' = Some RAcceptErr /\
                     snd (step s o) = BServeRet RAcceptErr
  | OClose | OShutdown => serving s' = false /\ serve_ret s' = Some RNil
  | _ => serving s' = true /\ serve_ret s' = serve_ret s
  end.
Proof.
  intros HI Hs. assert (Hd := inv_serving s HI Hs).
  assert (Hlc := inv_lis s HI). rewrite Hd in Hlc.
  destruct o as [[| |] | k | | | k |].
  1-3: simpl; rewrite Hs, Hlc, ?Hd; simpl; auto.
  - simpl. rewrite Hd. destruct (nth_error (conns s) k) as [[| | |]|]; simpl; auto.
  - rewrite (step_close s Hd), Hs. simpl. auto.
  - rewrite (step_shutdown s Hd), Hs. simpl. auto.
  - rewrite step_finish. unfold handler_returns.
    destruct (nth_error (conns s) k) as [[| | |]|]; simpl; auto.
    destruct (sd_pending s && _); simpl; auto.
  - simpl. destruct (sd_pending s); simpl; auto.
Qed.

(* Serve survives every run of temporary errors (interleaved with any
   number of successful accepts, which do NOT reset the delay): it does not
   return, and it sleeps exactly the doubling sequence *)
Theorem temp_errors_survived s l :
  Inv s -> serving s = true -> forallb is_temp_or_conn l = true ->
  let s' := run_st s l in
  serving s' = true /\ serve_ret s' = serve_ret s /\ done s' = false /\
  sleeps s' = sleeps s ++ delays_from (delay s) (count_temp l) /\
  ~ (exists r, In (BServeRet r) (snd (run s l))).
Proof.
  revert s. induction l as [|o l IH]; intros s HI Hs Hl; cbv zeta.
  - simpl. rewrite app_nil_r. repeat split; auto.
    + exact (inv_serving s HI Hs).
    + intros [r []].
  - simpl in Hl. apply andb_prop in Hl as [Ho Hl].
    assert (Hd := inv_serving s HI Hs). assert (Hlc := inv_lis s HI). rewrite Hd in Hlc.
    (* one step: Serve goes on, and has slept if that was a temporary error *)
    assert (E : serving (fst (step s o)) = true /\ serve_ret (fst (step s o)) = serve_ret s /\
                (forall r, snd (step s o) <> BServeRet r) /\
                sleeps (fst (step s o)) ++ delays_from (delay (fst (step s o))) (count_temp l) =
                sleeps s ++ delays_from (delay s) (count_temp (o :: l))).
    { destruct o as [[| |] | k | | | |]; try discriminate Ho; simpl; rewrite ?Hs, ?Hlc, Hd; simpl.
      - repeat split; auto; discriminate.
      - repeat split; auto; try discriminate. rewrite <- app_assoc. reflexivity.
      - destruct (nth_error (conns s) k) as [[| | |]|]; repeat split; auto; discriminate. }
    destruct E as (E1 & E2 & E3 & E4).
    destruct (IH _ (step_inv s o HI) E1 Hl) as (A & B & C & D & F).
    rewrite run_st_cons, run_cons. cbn [snd].
    repeat split; try assumption; try congruence.
    intros [r [G | G]]; [exact (E3 r G) | apply F; exists r; exact G].
Qed.

(* the k-th delay after tempDelay d: next_delay applied k+1 times *)
Lemma delays_from_nth n : forall d k x,
  nth_error (delays_from d n) k = Some x -> x = Nat.iter k next_delay (next_delay d).
Proof.
  induction n as [|n IH]; intros d [|k] x H; try discriminate H.
  - injection H as <-. reflexivity.
  - rewrite (IH _ _ _ H). clear. induction k as [|k IHk]; simpl in *; congruence.
Qed.

(* the first back-off delay is 5 ms; each next one is the double of the
   previous one, capped at 1 s *)
Lemma backoff_closed_form k :
  Nat.iter k next_delay (next_delay 0) = N.min (5 * 2 ^ N.of_nat k) 1000.
Proof.
  induction k as [|k IH]; [reflexivity|].
  simpl Nat.iter. rewrite IH, Nat2N.inj_succ, N.pow_succ_r'.
  assert (2 ^ N.of_nat k <> 0) by (apply N.pow_nonzero; discriminate).
  unfold next_delay. destruct (N.eqb_spec (N.min (5 * 2 ^ N.of_nat k) 1000) 0); lia.
Qed.

(* non-vacuity *)
Example life_example :
  snd (run init [OAccept ATemp; OAccept AConn; ORegister 0; OAccept ATemp; OAccept ATemp;
                 OAccept AConn; ORegister 1;
                 OShutdown; OClose; OFinish 0; OFinish 1; OAccept AConn])
  = [BDelay 5; BAccepted; BNone; BDelay 10; BDelay 20; BAccepted; BNone;
     BPending; BRet RServerClosed; BNone; BShutdownRet RNil; BSkip].
Proof. reflexivity. Qed.

Example life_example_cap :
  sleeps (run_st init (repeat (OAccept ATemp) 10)) = [5; 10; 20; 40; 80; 160; 320; 640; 1000; 1000].
Proof. reflexivity. Qed.

Example life_example_close :
  snd (run init [OAccept AConn; ORegister 0; OAccept AConn; ORegister 1; OFinish 0; OClose;
                 OShutdown; OExpire]) =
  [BAccepted; BNone; BAccepted; BNone; BNone; BRet RNil; BRet RServerClosed; BSkip] /\
  conns (run_st init [OAccept AConn; ORegister 0; OAccept AConn; ORegister 1; OFinish 0; OClose])
  = [CFinished; CClosedByServer].
Proof. split; reflexivity. Qed.

Lemma pointwise_length {A B} (g : nat -> A -> B) (l : list A) (l' : list B) :
  (forall k, nth_error l' k = option_map (g k) (nth_error l k)) -> List.length l' = List.length l.
Proof.
  intro H. apply Nat.le_antisymm; apply nth_error_None.
  - rewrite H, (proj2 (nth_error_None l _) (Nat.le_refl _)). reflexivity.
  - specialize (H (List.length l')). rewrite (proj2 (nth_error_None l' _) (Nat.le_refl _)) in H.
    destruct (nth_error l (List.length l')); [discriminate H | reflexivity].
Qed.

(* Close ends every connection, including one in the window between Accept's
   return and its handler's registration (DESIGN F28, repaired), whatever the
   order of Close and the registrations.  On a server that is still open,
   after Close and every continuation l2:
   (1) nothing is accepted any more;
   (2) NO connection is ever (again) registered and served - in particular
       not one whose handler was spawned before Close and registers after it;
   (3) a connection that was registered when Close ran is ended by Close, a
       connection in the window is ended as soon as its handler runs, and
       both stay ended;
   (4) once every handler spawned before Close has run, nothing is open
       (no handler goroutine is left: s.wg is at zero). *)
Theorem close_ends_every_connection s l2 :
  Inv s -> done s = false ->
  let s' := run_st (fst (step s OClose)) l2 in
  List.length (conns s') = List.length (conns s) /\
  Forall (fun c => c <> COpen) (conns s') /\
  (forall k c, nth_error (conns s') k = Some c ->
     nth_error (conns s) k <> Some CSpawned \/ In (ORegister k) l2 ->
     is_open c = false) /\
  ((forall k, nth_error (conns s) k = Some CSpawned -> In (ORegister k) l2) ->
   open_count s' = 0%nat).
Proof.
  intros HI0 Hd. assert (HI := step_inv s OClose HI0).
  revert HI. rewrite (step_close s Hd). intros HI s'. cbn [fst] in *.
  (* connection k, found in state c by Close, is left in state c' by Close
     and then moves on its own *)
  assert (Hk : forall k, nth_error (conns s') k =
                 option_map (fun c => let c' := match c with COpen => CClosedByServer | _ => c end in
                                      fold_left (stopped_conn k) l2 c') (nth_error (conns s) k)).
  { intro k. unfold s'. rewrite (stopped_run_conns l2 _ k HI eq_refl). cbn [conns].
    unfold close_all. rewrite nth_error_map. destruct (nth_error (conns s) k); reflexivity. }
  assert (P3 : forall k c, nth_error (conns s') k = Some c ->
     nth_error (conns s) k <> Some CSpawned \/ In (ORegister k) l2 -> is_open c = false).
  { intros k c Hc Hor. rewrite Hk in Hc.
    destruct (nth_error (conns s) k) as [c0|]; [|discriminate Hc]. injection Hc as <-.
    destruct Hor as [Hns | Hin].
    - (* ended by Close itself, or earlier *)
      rewrite stopped_run_ended; destruct c0; try reflexivity; congruence.
    - apply stopped_run_registered; [destruct c0; discriminate | exact Hin]. }
  split; [exact (pointwise_length _ _ _ Hk)|]. split; [|split; [exact P3|]].
  - apply Forall_forall. intros c Hc E. subst c. destruct (In_nth_error _ _ Hc) as [k Hc'].
    rewrite Hk in Hc'. destruct (nth_error (conns s) k) as [c0|]; [|discriminate Hc'].
    injection Hc' as Hc'. apply stopped_run_not_served in Hc'. destruct c0; discriminate Hc'.
  - intro Hall. apply open_count_0, Forall_forall. intros c Hc.
    destruct (In_nth_error _ _ Hc) as [k Hc']. apply (P3 k c Hc').
    destruct (nth_error (conns s) k) as [[| | |]|] eqn:E; try (left; discriminate).
    right. apply Hall. exact E.
Qed.

(* the window itself: whatever was accepted before, a connection accepted
   immediately before Close is closed by the server when its handler runs -
   it is never registered, greeted or served (before the repair:
   conns = [COpen] on a closed server) *)
Example close_ends_unregistered :
  let s := run_st init [OAccept AConn; OClose; ORegister 0] in
  done s = true /\ serve_ret s = Some RNil /\ conns s = [CClosedByServer] /\ open_count s = 0%nat.
Proof. repeat split. Qed.

(* likewise for Shutdown, which "stops accepting": the connection in the
   window is ended by its handler, and that releases the blocked Shutdown *)
Example shutdown_ends_unregistered :
  snd (run init [OAccept AConn; ORegister 0; OAccept AConn; OShutdown; ORegister 1; OFinish 0]) =
  [BAccepted; BNone; BAccepted; BPending; BNone; BShutdownRet RNil] /\
  snd (run init [OAccept AConn; OShutdown; ORegister 0]) = [BAccepted; BPending; BShutdownRet RNil] /\
  conns (run_st init [OAccept AConn; OShutdown; ORegister 0]) = [CClosedByServer].
Proof. repeat split. Qed.

(* non-vacuity of [close_ends_every_connection]: two registered
   connections and two in the window, one of whose handlers has run *)
Example close_ends_every_connection_example :
  let l1 := [OAccept AConn; ORegister 0; OAccept AConn; OAccept AConn; ORegister 2; OAccept AConn] in
  done (run_st init l1) = false /\
  conns (run_st init l1) = [COpen; CSpawned; COpen; CSpawned] /\
  conns (run_st (fst (step (run_st init l1) OClose)) [ORegister 3; OFinish 0; OAccept AConn])
  = [CClosedByServer; CSpawned; CClosedByServer; CClosedByServer].
Proof. repeat split. Qed.

(* A listener whose Close fails changes nothing but the returned error.
   Server.Close / Shutdown remember the first error a listener's Close
   returns, carry on, and return it at the end.  So the run of a server whose
   listener fails to close is, operation for operation, the run of the same
   server with a listener that closes cleanly: the same states (Serve
   returns, the same connections are closed by the server at the same
   moments, the same Shutdown blocks and is released at the same operation)
   and the same observations, except that the nil of the first Close /
   Shutdown - returned at once or when the blocked call is released - is the
   listener's error. *)

Definition set_err (e : bool) (s : st) : st :=
  mkSt (serving s) (serve_ret s) (done s) (lis_closed s) (delay s) (sleeps s) (conns s)
       (sd_pending s) e.

Definition mark_obs (b : obs) : obs :=
  match b with
  | BRet RNil => BRet RListenerErr
  | BShutdownRet RNil => BShutdownRet RListenerErr
  | b => b
  end.

Lemma set_err_same s : set_err (lis_err s) s = s.
Proof. destruct s; reflexivity. Qed.

Lemma step_set_err s o :
  lis_err s = false ->
  step (set_err true s) o = (set_err true (fst (step s o)), mark_obs (snd (step s o))).
Proof.
  intro He. destruct s as [sv sr dn lc dl sl cs sp le]. cbn in He. subst le.
  unfold step, set_err, ok_ret, stop_serve, open_count.
  cbn [serving serve_ret done lis_closed delay sleeps conns sd_pending lis_err].
  destruct o as [[| |] | k | | | k |].
  1-3: destruct (sv && negb lc); try destruct dn; reflexivity.
  - destruct (nth_error cs k) as [[| | |]|]; try reflexivity.
    destruct dn; [|reflexivity].
    destruct sp; cbn [andb]; [|reflexivity].
    destruct (_ =? _)%nat; reflexivity.
  - destruct dn; [reflexivity|]. destruct sv; reflexivity.
  - destruct dn; [reflexivity|].
    destruct sv; destruct (_ =? _)%nat; reflexivity.
  - destruct (nth_error cs k) as [[| | |]|]; try reflexivity.
    destruct sp; cbn [andb]; [|reflexivity].
    destruct (_ =? _)%nat; reflexivity.
  - destruct sp; reflexivity.
Qed.

Theorem listener_error_changes_only_ret l : forall s,
  lis_err s = false ->
  run (set_err true s) l = (set_err true (run_st s l), map mark_obs (snd (run s l))).
Proof.
  induction l as [|o l IH]; intros s He; [reflexivity|].
  rewrite run_st_cons. rewrite (run_cons s). cbn [snd map].
  rewrite run_cons, (step_set_err s o He). cbn [fst snd].
  rewrite (IH (fst (step s o))) by (rewrite step_lis_err; exact He).
  reflexivity.
Qed.

(* a server that runs cleanly never reports a listener error *)
Lemma no_listener_error_step s o :
  lis_err s = false ->
  snd (step s o) <> BRet RListenerErr /\ snd (step s o) <> BShutdownRet RListenerErr.
Proof.
  intro He. unfold step, ok_ret, stop_serve. rewrite He.
  destruct o as [[| |] | k | | | k |].
  1-3: destruct (serving s && negb (lis_closed s)); try destruct (done s); split; discriminate.
  - destruct (nth_error (conns s) k) as [[| | |]|]; try (split; discriminate).
    destruct (done s); [destruct (sd_pending s && _)|]; split; discriminate.
  - destruct (done s), (serving s); split; discriminate.
  - destruct (done s), (serving s), (open_count s =? 0)%nat; split; discriminate.
  - destruct (nth_error (conns s) k) as [[| | |]|]; try (split; discriminate).
    destruct (sd_pending s && _); split; discriminate.
  - destruct (sd_pending s); split; discriminate.
Qed.

Lemma clean_run_no_listener_error s l :
  lis_err s = false ->
  ~ In (BRet RListenerErr) (snd (run s l)) /\ ~ In (BShutdownRet RListenerErr) (snd (run s l)).
Proof.
  intro He.
  destruct (run_ind (fun s0 => lis_err s0 = false)
                    (fun b => b <> BRet RListenerErr /\ b <> BShutdownRet RListenerErr)) with (l := l) (s := s)
    as [_ H]; [|exact He|].
  - intros s0 o H0. split; [rewrite step_lis_err; exact H0 | apply no_listener_error_step; exact H0].
  - rewrite Forall_forall in H. split; intro F; destruct (H _ F) as [N1 N2]; [apply N1 | apply N2]; reflexivity.
Qed.

(* non-vacuity: registered, spawned and finished connections; Close and
   Shutdown; the clean run beside the faulty one *)
Example listener_error_example_close :
  let l := [OAccept AConn; ORegister 0; OAccept AConn; ORegister 1; OAccept AConn; OFinish 0;
            OClose; ORegister 2; OClose; OShutdown] in
  snd (run (init_e true) l) =
    [BAccepted; BNone; BAccepted; BNone; BAccepted; BNone;
     BRet RListenerErr; BNone; BRet RServerClosed; BRet RServerClosed] /\
  snd (run init l) =
    [BAccepted; BNone; BAccepted; BNone; BAccepted; BNone;
     BRet RNil; BNone; BRet RServerClosed; BRet RServerClosed] /\
  conns (run_st (init_e true) l) = [CFinished; CClosedByServer; CClosedByServer] /\
  serve_ret (run_st (init_e true) l) = Some RNil.
Proof. repeat split. Qed.

Example listener_error_example_shutdown :
  let l := [OAccept AConn; ORegister 0; OAccept AConn; OShutdown; ORegister 1; OClose; OFinish 0] in
  snd (run (init_e true) l) =
    [BAccepted; BNone; BAccepted; BPending; BNone; BRet RServerClosed; BShutdownRet RListenerErr] /\
  snd (run init l) =
    [BAccepted; BNone; BAccepted; BPending; BNone; BRet RServerClosed; BShutdownRet RNil] /\
  snd (run (init_e true) [OShutdown]) = [BRet RListenerErr] /\
  snd (run (init_e true) [OAccept AConn; ORegister 0; OShutdown; OExpire; OFinish 0]) =
    [BAccepted; BNone; BPending; BShutdownRet RCtxErr; BNone].
Proof. repeat split. Qed.

Example listener_error_reachable :
  let s := run_st (init_e true) [OAccept AConn; ORegister 0] in
  reachable s /\ done s = false /\ lis_err s = true /\ (open_count s > 0)%nat.
Proof.
  cbv zeta. split; [exists true, [OAccept AConn; ORegister 0]; reflexivity|].
  repeat split. unfold open_count. simpl. lia.
Qed.
