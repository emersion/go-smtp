(* C04, well-formedness of every reply on the wire.

   Every EWire of a trace of the server model is the output of writeResponse
   (by inspection of the model, handler by handler).  [serve_wf_partial]:
   under the hypotheses
   - [backend_replies_ok be]: every *SMTPError of the backend script has a
     code in 200..599, an enhanced code that is unset or of the class of the
     code, and a printable text (HT, 0x20-0x7E, LF); other errors have a
     printable text;
   - [cfg_texts_ok cfg]: the server's own name and mechanism names are
     printable;
   - [echo_ok line] for every command line the loop consumes: the client
     octets the reply echoes (HELO domain, unknown verb, MAIL / RCPT
     mailboxes) are printable
   every reply satisfies the strict RFC 5321 recogniser [reply_wf], and every
   reply other than the greeting, the EHLO reply and the 3xx intermediate
   replies carries, on every line, an enhanced status code of the class of the
   reply code ([reply_ec_class_ok]).

   The third hypothesis cannot be dropped: the implementation echoes client
   octets unfiltered (known finding F22), see [serve_wf_refuted]. *)
From Smtp Require Import Bytes GoStrings Parse Base64 Reply Conn.
From Smtp Require Import ReplySpec ReplyProofs Base64Proofs ConnProofs BdatProofs.
From Smtp Require Import HandlerOutcomes ReplyGroups ReplyVerdict.
Local Open Scope char_scope.

Definition pr (t : bytes) : bool := forallb printable_or_lf t.

Definition ec_class_okb (code : Z) (ec : ecode) : bool :=
  let '(a, b, c) := default_ec code ec in (a =? code / 100)%Z && (0 <=? b)%Z && (0 <=? c)%Z.

Lemma ec_class_okb_is code ec : ec_class_okb code ec = true -> ec_class_is code (default_ec code ec).
Proof.
  unfold ec_class_okb, ec_class_is. destruct (default_ec code ec) as [[a b] c]. intros H.
  apply andb_true_iff in H as [H H3]. apply andb_true_iff in H as [H1 H2].
  apply Z.eqb_eq in H1. apply Z.leb_le in H2, H3. repeat split; assumption.
Qed.

Definition code_ec_ok (code : Z) (ec : ecode) : bool :=
  (200 <=? code)%Z && (code <=? 599)%Z && ec_class_okb code ec.

Definition triple_ok (code : Z) (ec : ecode) (msg : bytes) : bool := code_ec_ok code ec && pr msg.

Definition berr_ok (e : berr) : bool :=
  match e with
  | BNil => true
  | BSmtp c ec m => triple_ok c ec m
  | BPlain m => pr m
  end.

Lemma pr_app a b : pr (a ++ b) = pr a && pr b.
Proof. apply forallb_app. Qed.

(* replies that carry no enhanced code: the greeting, the EHLO reply, 3xx *)
Definition exempt (cfg : config) (b : bytes) : Prop :=
  EWire b = greeting cfg
  \/ (exists domain caps, b = write_response 250 no_ec ((bs "Hello " ++ domain) :: caps))
  \/ (exists code texts, (300 <= code <= 399)%Z /\ b = write_response code no_ec texts).

Definition good (cfg : config) (b : bytes) : Prop :=
  reply_wf b = true /\ (reply_ec_class_ok b = true \/ exempt cfg b).

Lemma pr_no_cr t : pr t = true -> mem_byte CR t = false.
Proof. intros H. eapply forallb_not_mem; [exact H|reflexivity]. Qed.

Lemma good_triple cfg code ec msg : triple_ok code ec msg = true -> good cfg (write_response code ec [msg]).
Proof.
  unfold triple_ok, code_ec_ok. intros H.
  apply andb_true_iff in H as [H Hm]. apply andb_true_iff in H as [H Hec].
  apply andb_true_iff in H as [H1 H2]. apply Z.leb_le in H1, H2.
  split.
  - apply render_wf; [lia|]. constructor; [exact Hm|constructor].
  - left. apply render_ec_class; [lia|apply ec_class_okb_is, Hec|]. constructor; [apply pr_no_cr, Hm|constructor].
Qed.

Lemma good_exempt_3xx cfg code texts :
  (300 <= code <= 399)%Z -> Forall (fun t => pr t = true) texts -> good cfg (write_response code no_ec texts).
Proof.
  intros Hc Ht. split; [apply render_wf; [lia|exact Ht]|].
  right; right; right. exists code, texts. split; [exact Hc|reflexivity].
Qed.

Lemma good_err cfg code ec e :
  e <> BNil -> berr_ok e = true -> code_ec_ok code ec = true -> good cfg (write_error code ec e).
Proof.
  intros Hn He Hc. destruct e as [|c e' m|m]; [congruence| |]; cbn [write_error berr_ok] in *.
  - apply good_triple, He.
  - apply good_triple. unfold triple_ok. rewrite Hc, He. reflexivity.
Qed.

Lemma status_triple_ok a e :
  pr a = true -> berr_ok e = true ->
  let '(code, ec, msg) := data_error_to_status e in triple_ok code ec (bs "<" ++ a ++ bs "> " ++ msg) = true.
Proof.
  intros Ha He. destruct e as [|c ec m|m]; cbn [data_error_to_status berr_ok] in *.
  - unfold triple_ok. rewrite !pr_app, Ha. reflexivity.
  - unfold triple_ok in *. apply andb_true_iff in He as [H1 H2]. rewrite H1, !pr_app, Ha, H2. reflexivity.
  - unfold triple_ok. rewrite !pr_app, Ha, He. reflexivity.
Qed.

Definition aw (cfg : config) (ev : list event) : Prop :=
  Forall (fun e => match e with EWire b => good cfg b | _ => True end) ev.

Lemma aw_nil cfg : aw cfg [].
Proof. constructor. Qed.

Lemma aw_app cfg a b : aw cfg a -> aw cfg b -> aw cfg (a ++ b).
Proof. intros Ha Hb. apply Forall_app. split; assumption. Qed.

Lemma aw_skip cfg e ev : is_wire e = false -> aw cfg ev -> aw cfg (e :: ev).
Proof. intros He H. constructor; [destruct e; try exact I; discriminate|exact H]. Qed.

Lemma aw_no_wire cfg ev : no_wire ev -> aw cfg ev.
Proof.
  unfold no_wire. induction ev as [|e ev IH]; cbn [forallb]; intros H; [constructor|].
  apply andb_true_iff in H as [He H]. apply aw_skip; [|apply IH, H]. destruct (is_wire e); [discriminate|reflexivity].
Qed.

Lemma aw_nw cfg ev : nw ev -> aw cfg ev.
Proof. intros H. apply aw_no_wire, nw_no_wire, H. Qed.

Lemma aw_reply cfg code ec msg ev :
  triple_ok code ec msg = true -> aw cfg ev -> aw cfg (reply code ec msg :: ev).
Proof. intros H Hev. constructor; [apply good_triple, H|exact Hev]. Qed.

Lemma aw_reply_err cfg code ec e ev :
  e <> BNil -> berr_ok e = true -> code_ec_ok code ec = true -> aw cfg ev -> aw cfg (reply_err code ec e :: ev).
Proof. intros Hn He Hc Hev. constructor; [apply good_err; assumption|exact Hev]. Qed.

Lemma aw_status cfg a e ev :
  pr a = true -> berr_ok e = true -> aw cfg ev -> aw cfg (status_reply a e :: ev).
Proof.
  intros Ha He Hev. constructor; [|exact Hev]. pose proof (status_triple_ok a e Ha He) as H.
  unfold status_reply. destruct (data_error_to_status e) as [[code ec] msg]. apply good_triple, H.
Qed.

Lemma aw_statuses cfg (sts : list (bytes * berr)) :
  Forall (fun x => pr (fst x) = true /\ berr_ok (snd x) = true) sts ->
  aw cfg (map (fun '(a, e) => status_reply a e) sts).
Proof.
  induction 1 as [|[a e] sts [Ha He] _ IH]; cbn [map]; [constructor|]. apply aw_status; assumption.
Qed.

Lemma aw_statuses_same cfg (rc : list bytes) e :
  Forall (fun a => pr a = true) rc -> berr_ok e = true -> aw cfg (map (fun a => status_reply a e) rc).
Proof.
  intros Hrc He. induction Hrc as [|a rc Ha _ IH]; cbn [map]; [constructor|]. apply aw_status; assumption.
Qed.

Definition plan_wf (p : data_plan) : bool :=
  berr_ok (dp_ret p) && forallb (fun x => berr_ok (snd x)) (dp_status p).
Definition step_wf (s : sasl_step) : bool := match s with SaslStep _ _ e => berr_ok e end.
Definition aplan_wf (p : auth_plan) : bool := berr_ok (ap_start p) && forallb step_wf (ap_steps p).

Definition backend_replies_ok (be : backend) : bool :=
  forallb berr_ok (be_ns be) && forallb berr_ok (be_mail be) && forallb berr_ok (be_rcpt be)
  && forallb plan_wf (be_data be) && forallb aplan_wf (be_auth be).

Lemma status_triple_wf e code ec msg :
  data_error_to_status e = (code, ec, msg) -> berr_ok e = true -> triple_ok code ec msg = true.
Proof.
  destruct e as [|c ec' m|m]; cbn [data_error_to_status berr_ok]; intros H Hok.
  - injection H as <- <- <-. reflexivity.
  - injection H as <- <- <-. exact Hok.
  - injection H as <- <- <-.
    change (code_ec_ok 554 (5, 0, 0)%Z && pr (bs "Error: transaction failed: " ++ m) = true).
    rewrite pr_app, Hok. reflexivity.
Qed.

Lemma wf_own : berr_ok BNil = true /\ berr_ok err_panic = true /\ forall e, berr_ok (berr_of_rerr e) = true.
Proof. repeat split. destruct e as [| | |te| |]; try reflexivity. destruct te; reflexivity. Qed.

Definition bd_wf (b : bdat) : Prop := bd_all berr_ok b /\ Forall (fun a => pr a = true) (bd_rcpts b).

Lemma aw_statuses_of cfg (sts : list (bytes * berr)) rcpts :
  statuses_all berr_ok rcpts sts -> Forall (fun a => pr a = true) rcpts ->
  aw cfg (map (fun '(a, e) => status_reply a e) sts).
Proof.
  intros [<- Hs] Hr. apply aw_statuses. rewrite Forall_map in Hr. rewrite Forall_forall in *. auto.
Qed.

Lemma fed_replies_aw cfg ll b e : bd_wf b -> berr_ok e = true -> aw cfg (fed_replies cfg ll b e).
Proof.
  intros [Hb Hr] He. unfold fed_replies. destruct ll.
  - destruct (bdat_lmtp_replies_all berr_ok wf_own cfg b e Hb He) as (sts & -> & Hs).
    exact (aw_statuses_of cfg sts _ Hs Hr).
  - destruct (data_error_to_status e) as [[code ec] msg] eqn:Es.
    apply aw_reply; [exact (status_triple_wf _ _ _ _ Es He)|constructor].
Qed.

Definition cfg_texts_ok (cfg : config) : bool :=
  pr (cf_domain cfg) && match cf_auth cfg with Some mechs => forallb pr mechs | None => true end.

Lemma digit_printable c : is_digit c = true -> printable_or_lf c = true.
Proof. destruct c as [[] [] [] [] [] [] [] []]; vm_compute; congruence. Qed.

Lemma zch_printable c : zch c = true -> printable_or_lf c = true.
Proof. destruct c as [[] [] [] [] [] [] [] []]; vm_compute; congruence. Qed.

Lemma pr_dec_of_N n : pr (dec_of_N n) = true.
Proof. unfold pr. eapply forallb_impl; [exact digit_printable|apply dec_of_N_digits]. Qed.

Lemma pr_dec_of_Z z : pr (dec_of_Z z) = true.
Proof. unfold pr. eapply forallb_impl; [exact zch_printable|apply dec_of_Z_zch]. Qed.

Lemma b64_printable c : b64_val c <> None \/ c = "="%char -> printable_or_lf c = true.
Proof.
  intros [H| ->]; [|reflexivity]. revert H.
  destruct c as [[] [] [] [] [] [] [] []]; vm_compute; congruence.
Qed.

Lemma pr_b64_encode x : pr (b64_encode x) = true.
Proof.
  unfold pr. apply forallb_forall. intros c Hc. apply b64_printable. eapply b64_encode_alphabet, Hc.
Qed.

Lemma pr_mechs (ms : list bytes) :
  forallb pr ms = true -> pr (flat_map (fun n => " " :: n) ms) = true.
Proof.
  induction ms as [|m ms IH]; cbn [forallb flat_map]; [reflexivity|]. intros H.
  apply andb_true_iff in H as [Hm H]. cbn [app]. unfold pr in *. cbn [forallb].
  rewrite forallb_app, Hm, (IH H). reflexivity.
Qed.

Lemma caps_pr cfg c : cfg_texts_ok cfg = true -> Forall (fun t => pr t = true) (caps cfg c).
Proof.
  unfold cfg_texts_ok. intros H. apply andb_true_iff in H as [_ Hm]. unfold caps.
  repeat (apply Forall_app; split).
  - repeat constructor.
  - destruct (cf_tls_config cfg && negb (c_tls c)); repeat constructor.
  - destruct (auth_allowed cfg c); [|constructor].
    destruct (cf_auth cfg) as [[|m ms]|]; try constructor; [|constructor].
    rewrite pr_app. rewrite (pr_mechs (m :: ms) Hm). reflexivity.
  - destruct (cf_utf8 cfg); repeat constructor.
  - destruct (c_tls c && cf_requiretls cfg); repeat constructor.
  - destruct (cf_binarymime cfg); repeat constructor.
  - destruct (cf_dsn cfg); repeat constructor.
  - destruct (0 <? cf_max_bytes cfg)%Z; repeat constructor. rewrite pr_app, pr_dec_of_Z. reflexivity.
  - destruct (0 <? cf_max_rcpt cfg)%N; repeat constructor. rewrite pr_app, pr_dec_of_N. reflexivity.
  - destruct (cf_rrvs cfg); repeat constructor.
Qed.

Lemma good_greeting cfg : cfg_texts_ok cfg = true -> match greeting cfg with EWire b => good cfg b | _ => True end.
Proof.
  unfold cfg_texts_ok. intros H. apply andb_true_iff in H as [Hd _]. unfold greeting. split.
  - apply render_wf; [lia|]. constructor; [|constructor].
    change (pr (cf_domain cfg ++ (if cf_lmtp cfg then bs " LMTP" else bs " ESMTP") ++ bs " Service Ready") = true).
    rewrite !pr_app, Hd. destruct (cf_lmtp cfg); reflexivity.
  - right; left. reflexivity.
Qed.

Lemma good_ehlo cfg c domain :
  cfg_texts_ok cfg = true -> pr domain = true ->
  good cfg (write_response 250 no_ec ((bs "Hello " ++ domain) :: caps cfg c)).
Proof.
  intros Hc Hd. split.
  - apply render_wf; [lia|]. constructor; [|apply caps_pr, Hc].
    change (pr (bs "Hello " ++ domain) = true). rewrite pr_app, Hd. reflexivity.
  - right; right; left. eexists _, _. reflexivity.
Qed.

Definition bdat_wi (c : conn) : Prop := match c_bdat c with Some b => bd_wf b | None => True end.

Definition WI (c : conn) : Prop :=
  backend_replies_ok (c_be c) = true /\ Forall (fun a => pr a = true) (c_rcpts c) /\ bdat_wi c.

Lemma WI_next c c' :
  WI c -> backend_replies_ok (c_be c') = true -> Forall (fun a => pr a = true) (c_rcpts c') ->
  c_bdat c' = None \/ c_bdat c' = c_bdat c -> WI c'.
Proof.
  intros (_ & _ & Hbd) Hbe Hrc H. split; [exact Hbe|]. split; [exact Hrc|]. unfold bdat_wi in *.
  destruct H as [->| ->]; [exact I|exact Hbd].
Qed.

Definition WS (cfg : config) (r : hres) : Prop := aw cfg (snd r) /\ WI (fst r).

Definition echo_cmd_ok (cmd arg : bytes) : bool :=
  let C := to_upper cmd in
  pr C
  && (if cmd_is C "HELO" || cmd_is C "EHLO" || cmd_is C "LHLO"
      then match parse_hello_argument arg with Some d => pr d | None => true end else true)
  && (if cmd_is C "MAIL"
      then match cut_prefix_fold arg (bs "FROM:") with
           | Some a => match parse_reverse_path (trim_space a) with Some (from, _) => pr from | None => true end
           | None => true
           end else true)
  && (if cmd_is C "RCPT"
      then match cut_prefix_fold arg (bs "TO:") with
           | Some a => match parse_path (trim_space a) with Some (rcpt, _) => pr rcpt | None => true end
           | None => true
           end else true).

Definition echo_ok (line : bytes) : bool :=
  match parse_cmd line with Some (cmd, arg) => echo_cmd_ok cmd arg | None => true end.

(* [aw cfg ev] for the events of a leaf, read from the front: a literal reply (its triple is
   checked by computation), a reply rendered from a value known to be good, an event that is no
   reply, a run of events without replies, a list known to be good *)
Ltac awt := repeat first
  [ apply aw_nil
  | apply aw_reply; [first [reflexivity|assumption]|]
  | apply aw_skip; [reflexivity|]
  | apply aw_reply_err; [discriminate|assumption|reflexivity|]
  | apply aw_nw; nw_tac
  | apply aw_app; [apply aw_nw; nw_tac|]
  | apply aw_app; [eassumption|]
  | assumption ].

(* [WI c'] at a leaf, by [WI_next]: script and recipients are those of [c], or what the
   hypotheses say; the transfer is gone or untouched.  [ws_leaf]: [WS] at a leaf by [awt] and that. *)
Ltac wi_next c HW :=
  apply (WI_next c);
  [exact HW|first [apply (proj1 HW)|assumption]|first [apply (proj1 (proj2 HW))|assumption|constructor]
  |first [left; reflexivity|right; reflexivity|auto]].
Ltac ws_leaf c HW := unfold WS; cbn [fst snd]; split; [cbn [app]; awt|wi_next c HW].

Lemma protocol_error_ws cfg c code ec msg :
  triple_ok code ec msg = true -> WI c -> WS cfg (protocol_error c code ec msg).
Proof. intros Ht HW. unfold protocol_error. walk; ws_leaf c HW. Qed.

Definition rfail_ok (f : rfail) : bool := let '(code, ec, msg) := f in triple_ok code ec msg.

Lemma mail_params_triple cfg args : forall o bm f bm',
  mail_params cfg args o bm = inr (f, bm') -> rfail_ok f = true.
Proof.
  induction args as [|[k v] r IH]; intros o bm f bm'; cbn [mail_params]; [discriminate|].
  destruct (mail_param cfg k v o bm) as [[o' bm1]|f1] eqn:E; [apply IH|].
  intros [= <- _]. revert E. unfold mail_param. break_match; intros [= <-]; reflexivity.
Qed.

Lemma handle_mail_ws cfg c arg :
  WI c ->
  (forall a from rest, cut_prefix_fold arg (bs "FROM:") = Some a ->
     parse_reverse_path (trim_space a) = Some (from, rest) -> pr from = true) ->
  WS cfg (handle_mail cfg c arg).
Proof.
  intros HW Hecho. unfold handle_mail, syntax_mail, pop_mail. walk.
  all: try (edestruct (pop_mail_all berr_ok wf_own) as [Hr Hbe]; [apply HW|eassumption|]).
  all: try match goal with H : mail_params _ _ _ _ = inr _ |- _ => apply mail_params_triple in H; cbn [rfail_ok] in H end.
  all: try solve [ws_leaf c HW].
  (* accepted: the reply echoes the mailbox *)
  split; [|wi_next c HW]. cbn [snd]. apply aw_skip; [reflexivity|]. apply aw_reply; [|constructor].
  unfold triple_ok. rewrite !pr_app, (Hecho _ _ _ eq_refl ltac:(eassumption)). reflexivity.
Qed.

Lemma rcpt_params_triple cfg args : forall o f, rcpt_params cfg args o = inr f -> rfail_ok f = true.
Proof.
  induction args as [|[k v] r IH]; intros o f; cbn [rcpt_params]; [discriminate|].
  destruct (rcpt_param cfg k v o) as [o'|f1] eqn:E; [apply IH|].
  intros [= <-]. revert E. unfold rcpt_param. break_match; intros [= <-]; reflexivity.
Qed.

Lemma handle_rcpt_ws cfg c arg :
  WI c ->
  (forall a rcpt rest, cut_prefix_fold arg (bs "TO:") = Some a ->
     parse_path (trim_space a) = Some (rcpt, rest) -> pr rcpt = true) ->
  WS cfg (handle_rcpt cfg c arg).
Proof.
  intros HW Hecho. unfold handle_rcpt, syntax_rcpt, pop_rcpt. walk.
  all: try (edestruct (pop_rcpt_all berr_ok wf_own) as [Hr Hbe]; [apply HW|eassumption|]).
  all: try match goal with H : rcpt_params _ _ _ = inr _ |- _ => apply rcpt_params_triple in H; cbn [rfail_ok] in H end.
  all: try solve [ws_leaf c HW].
  - (* too many recipients: the reply prints the limit *)
    split; [|exact HW]. apply aw_reply; [|constructor]. unfold triple_ok. rewrite !pr_app, pr_dec_of_N. reflexivity.
  - (* accepted: the reply echoes the mailbox, which joins the recipients *)
    pose proof (Hecho _ _ _ eq_refl ltac:(eassumption)) as Hrcpt. split.
    + cbn [snd]. apply aw_skip; [reflexivity|]. apply aw_reply; [|constructor].
      unfold triple_ok. rewrite !pr_app, Hrcpt. reflexivity.
    + apply (WI_next c); cs; [exact HW|exact Hbe| |auto].
      apply Forall_app. split; [apply HW|]. constructor; [exact Hrcpt|constructor].
Qed.

Lemma handle_greet_ws cfg c enh arg :
  cfg_texts_ok cfg = true -> WI c ->
  (forall d, parse_hello_argument arg = Some d -> pr d = true) ->
  WS cfg (handle_greet cfg c enh arg).
Proof.
  intros Hcfg HW Hecho. unfold handle_greet.
  destruct (parse_hello_argument arg) as [domain|]; [|ws_leaf c HW]. pose proof (Hecho domain eq_refl) as Hd.
  assert (Hhello : triple_ok 250 (2, 0, 0)%Z (bs "Hello " ++ domain) = true)
    by (unfold triple_ok; rewrite pr_app, Hd; reflexivity).
  walk; try discriminate; try solve [ws_leaf c HW].
  all: try (edestruct (pop_ns_all berr_ok wf_own) as [Hr Hbe]; [apply HW|eassumption|]).
  all: try solve [ws_leaf c HW].
  all: split; [|wi_next c HW]; cbn [snd]; apply aw_app; [awt|]; (constructor; [apply good_ehlo; assumption|constructor]).
Qed.

Lemma handle_starttls_ws cfg c : WI c -> WS cfg (handle_starttls cfg c).
Proof. intros HW. unfold handle_starttls. walk; ws_leaf c HW. Qed.

Lemma good_334 cfg ch :
  good cfg (write_response 334 no_ec [match ch with [] => [] | _ => b64_encode ch end]).
Proof.
  apply good_exempt_3xx; [lia|]. constructor; [|constructor].
  destruct ch; [reflexivity|apply pr_b64_encode].
Qed.

Lemma auth_loop_aw cfg steps : forall c resp,
  forallb (step_all berr_ok) steps = true -> aw cfg (snd (fst (auth_loop steps c resp))).
Proof.
  induction steps as [|[ch done err] rest IH]; intros c resp Hok; cbn [auth_loop].
  - cbn [fst snd]. awt.
  - cbn [forallb step_all] in Hok. apply andb_true_iff in Hok as [He Hrest].
    destruct err as [|ecode eec emsg|emsg]; [|cbn [fst snd]; awt..].
    destruct done; [cbn [fst snd]; awt|].
    assert (Hw : forall ev, aw cfg ev ->
              aw cfg (EAuthNext resp ch false BNil
                        :: EWire (write_response 334 no_ec [match ch with [] => [] | _ => b64_encode ch end]) :: ev)).
    { intros ev Hev. apply aw_skip; [reflexivity|]. constructor; [apply good_334|exact Hev]. }
    destruct (conn_read_line c) as [[line|e] c1]; [|cbn [fst snd]; apply Hw; constructor].
    destruct (bytes_eqb line (bs "*")); [cbn [fst snd]; apply Hw; awt|].
    destruct (decode_sasl_response line) as [r|]; [|cbn [fst snd]; apply Hw; awt].
    specialize (IH c1 (Some r) Hrest). destruct (auth_loop rest c1 (Some r)) as [[c2 ev] ok].
    cbn [fst snd] in *. apply Hw, IH.
Qed.

Lemma handle_auth_ws cfg c arg : WI c -> WS cfg (handle_auth cfg c arg).
Proof.
  intros HW. unfold handle_auth, pop_auth. walk; try solve [ws_leaf c HW].
  all: edestruct (pop_auth_all berr_ok wf_own) as [Hp Hbe]; [apply HW|eassumption|];
       apply andb_true_iff in Hp as [Hstart Hsteps].
  all: try (match goal with H : ap_start _ = _ |- _ => rewrite H in Hstart end; solve [ws_leaf c HW]).
  all: match goal with H : auth_loop ?s ?c1 ?r = _ |- _ =>
         pose proof (auth_loop_spec s c1 r) as [Hc2 _]; pose proof (auth_loop_aw cfg s c1 r Hsteps) as Haw;
         rewrite H in * end; cbn [fst snd] in *; rewrite Hc2.
  all: split; [cbn [snd]; apply aw_skip; [reflexivity|]; first [exact Haw|apply aw_app; [exact Haw|awt]]
              |wi_next c HW].
Qed.

Lemma aw_go cfg ev :
  aw cfg ev -> aw cfg (EWire (write_response 354 no_ec [bs "Go ahead. End your data with <CR><LF>.<CR><LF>"]) :: ev).
Proof. intros H. constructor; [apply good_exempt_3xx; [lia|repeat constructor]|exact H]. Qed.

Lemma handle_data_ws cfg c arg : WI c -> WS cfg (handle_data cfg c arg).
Proof.
  intros HW.
  destruct (handle_data_outcome cfg c arg)
    as [code ec msg Hin|Hs Hf|p rest got term code ec msg cm c' tail Ep Hbe Hrc _ Hl Es Hend
       |p rest got term cm c' tail Ep Hbe Hrc _ Hl Hls Hne Hend
       |p rest got term sts pk cm c' tail Ep Hbe Hrc _ Hl Hls Est Hend
       |p rest got term cm Ep Hbe Hrc _ _ Hm].
  1: { split; [|exact HW]. apply aw_reply; [|constructor].
       repeat destruct Hin as [[= <- <- <-]|Hin]; try reflexivity. destruct Hin. }
  1: { split; [apply aw_go; awt|exact HW]. }
  all: destruct (pop_data_all berr_ok wf_own _ _ _ (proj1 HW) Ep) as [Hp Hbe'];
       pose proof (plan_ret_all berr_ok wf_own _ term Hp) as Hret;
       change (backend_replies_ok (be_data_rest (c_be c) rest) = true) in Hbe'; rewrite <- Hbe in Hbe'.
  1-3: assert (HW' : WI c' /\ aw cfg tail)
         by (split; [|exact (aw_nw _ _ (ended_nw _ _ _ Hend))]; destruct Hend as (_ & F1 & F2 & F3);
             apply (WI_next c); [exact HW|rewrite F1; exact Hbe'| |left; exact F2];
             destruct F3 as [-> | ->]; [rewrite Hrc; apply HW|constructor]);
       destruct HW' as [HW' Ht]; (split; [|exact HW']); apply aw_go, aw_skip; [reflexivity|].
  - apply aw_reply; [exact (status_triple_wf _ _ _ _ Es Hret)|exact Ht].
  - apply aw_app; [apply aw_statuses_same; [apply HW|exact Hret]|exact Ht].
  - pose proof (lmtp_statuses_all berr_ok wf_own (c_rcpts c) _ _ (dp_panic p)
                  (proj2 (proj1 (andb_true_iff _ _) Hp)) Hret) as Hs. rewrite Est in Hs.
    apply aw_app; [exact (aw_statuses_of cfg _ _ Hs (proj1 (proj2 HW)))|exact Ht].
  - split; [apply aw_go, aw_skip; [reflexivity|]; awt|].
    apply (WI_next c); [exact HW|exact Hbe'|constructor|left; reflexivity].
Qed.

Lemma settles_WI c c' ev : WI c -> settles c c' ev -> WI c'.
Proof.
  intros HW [(_ & Hbe & Hbd & Hrc)|(_ & Hbe & Hbd & Hrc)]; apply (WI_next c); auto; try (rewrite Hbe; apply HW).
  - rewrite Hrc. apply HW.
  - destruct Hrc as [-> | ->]; [apply HW|constructor].
Qed.

Lemma bdat_fed_wf cfg c chunk b0 ev0 c0 b1 ev1 werr :
  WI c -> bdat_start cfg c = (b0, ev0, c0) -> bd_feed b0 chunk = (b1, ev1, werr) ->
  backend_replies_ok (c_be c0) = true /\ bd_wf b1 /\ (forall e, werr = Some e -> berr_ok e = true)
  /\ nw ev0 /\ nw ev1 /\ c_rcpts c0 = c_rcpts c.
Proof.
  intros (Hbe & Hrc & Hbd) E0 E1. unfold bdat_wi in Hbd.
  destruct (bdat_fed_frame _ _ _ _ _ _ _ _ _ E0 E1) as (Hn0 & Hn1 & Hrc0 & Hr1).
  destruct (bdat_fed_all berr_ok wf_own cfg c chunk b0 ev0 c0 b1 ev1 werr Hbe) as (H1 & H2 & H3);
    [intros b Eb; rewrite Eb in Hbd; apply Hbd|exact E0|exact E1|].
  repeat split; try assumption; try apply H2. rewrite Hr1. unfold transfer_rcpts.
  destruct (c_bdat c); [apply Hbd|exact Hrc].
Qed.

Lemma handle_bdat_ws cfg c arg : WI c -> WS cfg (handle_bdat cfg c arg).
Proof.
  intros HW.
  destruct (handle_bdat_outcome cfg c arg)
    as [code ec msg c' tail Hin Hset|_ _|chunk b0 ev0 c0 b1 ev1 c' E0 E1 _ Hbe Hrc Hbd
       |chunk cerr b0 ev0 c0 b1 ev1 werr e b2 ev2 cm c' tail E0 E1 Hend _ Hset Hbe Hrc _].
  - split; [|exact (settles_WI _ _ _ HW Hset)]. apply aw_reply; [|apply aw_nw, (settles_nw _ _ _ Hset)].
    repeat destruct Hin as [[= <- <- <-]|Hin]; try reflexivity. destruct Hin.
  - split; [awt|exact HW].
  - destruct (bdat_fed_wf _ _ _ _ _ _ _ _ _ HW E0 E1) as (Hbe0 & Hb1 & _ & Hn0 & Hn1 & Hrc0).
    split; [cbn [snd]; awt|]. cbn [fst]. split; [rewrite Hbe; exact Hbe0|].
    split; [rewrite Hrc, Hrc0; apply HW|]. unfold bdat_wi. rewrite Hbd. exact Hb1.
  - destruct (bdat_fed_wf _ _ _ _ _ _ _ _ _ HW E0 E1) as (Hbe0 & [Hb1 Hr1] & Hw1 & Hn0 & Hn1 & Hrc0).
    destruct (fed_end_frame _ _ _ _ _ _ _ _ Hend) as [Hn2 Hr2].
    destruct (fed_end_all berr_ok wf_own _ _ _ _ _ _ _ _ Hb1 Hw1 Hend) as [Hb2 He].
    pose proof (ended_nw _ _ _ Hset) as Hnt. destruct Hset as (_ & F1 & F2 & F3). split.
    + cbn [snd]. do 3 (apply aw_app; [apply aw_nw; assumption|]).
      apply aw_app; [apply fed_replies_aw; [split; [exact Hb2|congruence]|exact He]|apply aw_nw, Hnt].
    + cbn [fst]. split; [congruence|]. split; [|unfold bdat_wi; rewrite F2; exact I].
      destruct F3 as [-> | ->]; [rewrite Hrc, Hrc0; apply HW|constructor].
Qed.

Lemma handle_ws cfg c cmd arg :
  cfg_texts_ok cfg = true -> WI c -> echo_cmd_ok cmd arg = true -> WS cfg (handle cfg c cmd arg).
Proof.
  intros Hcfg HW Hecho. unfold handle.
  destruct cmd as [|c0 cmd]; [apply protocol_error_ws; [reflexivity|exact HW]|].
  unfold echo_cmd_ok in Hecho. cbv zeta in Hecho.
  set (CMD := to_upper (c0 :: cmd)) in *. clearbody CMD.
  apply andb_true_iff in Hecho as [Hecho E_rcpt]. apply andb_true_iff in Hecho as [Hecho E_mail].
  apply andb_true_iff in Hecho as [E_pr E_hello].
  assert (Hone : forall code ec msg, triple_ok code ec msg = true -> WS cfg (c, [reply code ec msg])).
  { intros code ec msg Ht. split; [cbn [snd]; apply aw_reply; [exact Ht|constructor]|exact HW]. }
  destruct (cmd_is CMD "SEND" || cmd_is CMD "SOML" || cmd_is CMD "SAML" || cmd_is CMD "EXPN"
            || cmd_is CMD "HELP" || cmd_is CMD "TURN").
  { apply Hone. unfold triple_ok. rewrite pr_app, E_pr. reflexivity. }
  destruct (cmd_is CMD "HELO" || cmd_is CMD "EHLO" || cmd_is CMD "LHLO").
  { destruct (cf_lmtp cfg && negb (cmd_is CMD "LHLO")); [apply Hone; reflexivity|].
    destruct (negb (cf_lmtp cfg) && cmd_is CMD "LHLO"); [apply Hone; reflexivity|].
    apply handle_greet_ws; [exact Hcfg|exact HW|]. intros d Hd. rewrite Hd in E_hello. exact E_hello. }
  destruct (cmd_is CMD "MAIL").
  { apply handle_mail_ws; [exact HW|]. intros a from rest Ha Hp. rewrite Ha, Hp in E_mail. exact E_mail. }
  destruct (cmd_is CMD "RCPT").
  { apply handle_rcpt_ws; [exact HW|]. intros a rcpt rest Ha Hp. rewrite Ha, Hp in E_rcpt. exact E_rcpt. }
  destruct (cmd_is CMD "VRFY"); [apply Hone; reflexivity|].
  destruct (cmd_is CMD "NOOP"); [apply Hone; reflexivity|].
  destruct (cmd_is CMD "RSET").
  { rewrite do_reset_eq. destruct HW as (H1 & H2 & H3).
    split; [cbn [snd]; apply aw_app; [apply aw_nw, reset_ev_nw|awt]|].
    unfold reset_c. split; [exact H1|]. split; [constructor|exact I]. }
  destruct (cmd_is CMD "BDAT"); [apply handle_bdat_ws; exact HW|].
  destruct (cmd_is CMD "DATA"); [apply handle_data_ws; exact HW|].
  destruct (cmd_is CMD "QUIT").
  { rewrite do_close_eq. destruct HW as (H1 & H2 & H3).
    split; [cbn [snd]; awt|]. unfold close_c. split; [exact H1|]. split; [exact H2|exact I]. }
  destruct (cmd_is CMD "AUTH"); [apply handle_auth_ws; exact HW|].
  destruct (cmd_is CMD "STARTTLS"); [apply handle_starttls_ws; exact HW|].
  apply protocol_error_ws; [|exact HW]. unfold triple_ok. rewrite !pr_app, E_pr. reflexivity.
Qed.

Lemma serve_loop_aw cfg fuel c :
  cfg_texts_ok cfg = true -> WI c ->
  (forall line, In (ECmd line) (serve_loop fuel cfg c) -> echo_ok line = true) ->
  aw cfg (serve_loop fuel cfg c).
Proof.
  intros Hcfg. revert fuel c.
  apply (serve_loop_ind cfg (fun _ c tr =>
           WI c -> (forall line, In (ECmd line) tr -> echo_ok line = true) -> aw cfg tr)).
  - intros c _ _. repeat constructor.
  - intros _ c _ _ _. apply aw_nw, close_ev_nw.
  - intros _ c e t _ _ _. apply aw_app; [destruct e; awt|apply aw_nw, close_ev_nw].
  - intros f c line t Hc _ r -> IH HW Hecho.
    assert (Hr : WS cfg (command_step cfg (upd_t c t) line)).
    { pose proof (Hecho line (or_introl eq_refl)) as Hl. unfold echo_ok in Hl. unfold command_step.
      destruct (parse_cmd line) as [[cmd arg]|];
        [apply handle_ws; assumption|apply protocol_error_ws; [reflexivity|exact HW]]. }
    destruct Hr as [Hev HW2]. apply aw_skip; [reflexivity|]. apply aw_app; [exact Hev|].
    apply IH; [exact HW2|]. intros l Hl. apply Hecho. right. apply in_or_app. right. exact Hl.
Qed.

Lemma init_conn_WI cfg be phases : backend_replies_ok be = true -> WI (init_conn cfg be phases).
Proof.
  intros H. unfold init_conn. destruct phases as [|p r]; (split; [exact H|split; [constructor|exact I]]).
Qed.

(* C04 (3), under the hypotheses on the backend's replies, the server's own
   texts and the echoed client octets: every reply on the wire is one
   syntactically valid RFC 5321 reply, and - unless it is the greeting, an
   EHLO reply or a 3xx reply - every line of it starts with an enhanced status
   code of the class of the reply code. *)
Theorem serve_wf_partial fuel cfg be phases :
  backend_replies_ok be = true -> cfg_texts_ok cfg = true ->
  (forall line, In (ECmd line) (serve fuel cfg be phases) -> echo_ok line = true) ->
  forall b, In (EWire b) (serve fuel cfg be phases) ->
    reply_wf b = true /\ (reply_ec_class_ok b = true \/ exempt cfg b).
Proof.
  intros Hbe Hcfg Hecho b Hin.
  assert (H : aw cfg (serve fuel cfg be phases)).
  { unfold serve. constructor; [exact (good_greeting cfg Hcfg)|].
    apply serve_loop_aw; [exact Hcfg|apply init_conn_WI, Hbe|].
    intros line Hl. apply Hecho. right. exact Hl. }
  unfold aw in H. rewrite Forall_forall in H. exact (H _ Hin).
Qed.

Lemma exempt_no_class cfg b :
  exempt cfg b -> exists code texts, b = write_response code no_ec texts
                                     /\ (code = 220 \/ code = 250 \/ 300 <= code <= 399)%Z.
Proof.
  intros [H|[(d & caps & ->)|(code & texts & Hc & ->)]].
  - unfold greeting in H. inversion H. eexists 220%Z, _. split; [reflexivity|lia].
  - eexists 250%Z, _. split; [reflexivity|lia].
  - exists code, texts. split; [reflexivity|lia].
Qed.

Module C04Refuted.
Import C04Example.
Local Open Scope string_scope.
Local Open Scope list_scope.

Definition rstream : bytes := bs "EHLO a" ++ [CR] ++ bs "b" ++ crlf.

(* "EHLO a<CR>b": the domain is echoed with its bare CR, the reply is not a
   sequence of CRLF-terminated lines of printable text *)
Theorem serve_wf_refuted :
  exists fuel cfg be phases b,
    backend_replies_ok be = true /\ cfg_texts_ok cfg = true
    /\ In (EWire b) (serve fuel cfg be phases) /\ reply_wf b = false.
Proof.
  exists 5%nat, cfg, (mkBE [] [] [] [] []), [[raw_of rstream]].
  exists (write_response 250 no_ec ((bs "Hello a" ++ [CR] ++ bs "b") :: caps cfg (init_conn cfg (mkBE [] [] [] [] []) []))).
  split; [reflexivity|]. split; [reflexivity|]. split; [|vm_compute; reflexivity].
  assert (H : nth 3 (serve 5 cfg (mkBE [] [] [] [] []) [[raw_of rstream]]) EClose
              = EWire (write_response 250 no_ec ((bs "Hello a" ++ [CR] ++ bs "b")
                         :: caps cfg (init_conn cfg (mkBE [] [] [] [] []) [])))) by (vm_compute; reflexivity).
  rewrite <- H. apply nth_In. vm_compute. lia.
Qed.

(* the echo hypothesis is what fails on that input, and it holds on the
   conversation of ReplyGroups.C04Example *)
Example echo_fails : echo_ok (bs "EHLO a" ++ [CR] ++ bs "b") = false.
Proof. vm_compute. reflexivity. Qed.

Example wf_hypotheses :
  backend_replies_ok be = true /\ cfg_texts_ok cfg = true
  /\ forallb (fun e => match e with ECmd l => echo_ok l | _ => true end) (serve 40 cfg be [[raw_of stream]]) = true
  /\ forallb (fun e => match e with EWire b => reply_wf b | _ => true end) (serve 40 cfg be [[raw_of stream]]) = true.
Proof. vm_compute. repeat split; reflexivity. Qed.

End C04Refuted.
