(* C14, parameter level: every value the client writes for a MAIL / RCPT
   parameter is decoded by the server's handler to the value the caller gave -
   for ALL strings / numbers / instants of the stated domains.

   The statements are of the form
       mail_param cfg KEY (what the client writes) o bm = inl (o with FIELD := given, bm)
       rcpt_param cfg KEY (what the client writes) o    = inl (o with FIELD := given)
   for every previous option record o (so they compose in any order). *)
From Smtp Require Import Bytes GoStrings Utf8 Xtext Parse Rfc3339 Conn
                         Utf8Proofs XtextProofs ReplyProofs C14Time C14Rfc3339.
From Smtp Require Client ClientProofs.
From Coq Require Import Lia ZifyBool ZifyN.
Local Open Scope char_scope.

(* decide the key comparisons of a handler applied to a literal key *)
Ltac keys :=
  repeat match goal with
         | |- context [bytes_eqb (bs ?a) (bs ?b)] =>
             let v := eval vm_compute in (bytes_eqb (bs a) (bs b)) in
             change (bytes_eqb (bs a) (bs b)) with v
         end;
  cbv iota.

Lemma printable_ascii7 s : is_printable_ascii s = true -> forallb is_ascii7 s = true.
Proof. apply forallb_impl. intros c. unfold is_printable, in_range, is_ascii7. lia. Qed.

Lemma encode_xtext_nonempty s :
  forallb is_ascii7 s = true -> s <> [] -> encode_xtext s <> [].
Proof.
  intros Ha Hs E. pose proof (xtext_roundtrip s Ha) as R. rewrite E in R.
  cbn in R. congruence.
Qed.

Lemma utf8_of_runes_nonempty cs : cs <> [] -> utf8_of_runes cs <> [].
Proof.
  destruct cs as [|c cs]; [congruence|]. intros _ E. unfold utf8_of_runes in E. cbn [flat_map] in E.
  pose proof (utf8_encode_length c) as L. destruct (utf8_encode c); cbn in *; [lia|discriminate].
Qed.

Definition set_envid (o : mail_opts) (v : bytes) : mail_opts :=
  mkMO (mo_body o) (mo_size o) (mo_requiretls o) (mo_utf8 o) (mo_ret o) v (mo_auth o).
Definition set_auth (o : mail_opts) (v : option bytes) : mail_opts :=
  mkMO (mo_body o) (mo_size o) (mo_requiretls o) (mo_utf8 o) (mo_ret o) (mo_envid o) v.
Definition set_ret (o : mail_opts) (v : bytes) : mail_opts :=
  mkMO (mo_body o) (mo_size o) (mo_requiretls o) (mo_utf8 o) v (mo_envid o) (mo_auth o).
Definition set_size (o : mail_opts) (v : Z) : mail_opts :=
  mkMO (mo_body o) v (mo_requiretls o) (mo_utf8 o) (mo_ret o) (mo_envid o) (mo_auth o).
Definition set_utf8 (o : mail_opts) (v : bool) : mail_opts :=
  mkMO (mo_body o) (mo_size o) (mo_requiretls o) v (mo_ret o) (mo_envid o) (mo_auth o).
Definition set_requiretls (o : mail_opts) (v : bool) : mail_opts :=
  mkMO (mo_body o) (mo_size o) v (mo_utf8 o) (mo_ret o) (mo_envid o) (mo_auth o).
Definition set_body (o : mail_opts) (v : bytes) : mail_opts :=
  mkMO v (mo_size o) (mo_requiretls o) (mo_utf8 o) (mo_ret o) (mo_envid o) (mo_auth o).

(* ENVID: every non-empty printable-ASCII string *)
Theorem C14_envid cfg s o bm :
  cf_dsn cfg = true -> s <> [] -> is_printable_ascii s = true ->
  mail_param cfg (bs "ENVID") (encode_xtext s) o bm = inl (set_envid o s, bm).
Proof.
  intros Hd Hs Hp. unfold mail_param. cbv beta zeta. keys. rewrite Hd. cbn [negb].
  rewrite xtext_roundtrip by (apply printable_ascii7; exact Hp).
  destruct s as [|c s]; [congruence|]. rewrite Hp. reflexivity.
Qed.

(* AUTH=<mailbox>: every 7-bit mailbox the server's own parser accepts whole *)
Theorem C14_auth_mailbox cfg mb o bm :
  forallb is_ascii7 mb = true -> parse_mailbox mb = Some (mb, []) ->
  mail_param cfg (bs "AUTH") (encode_xtext mb) o bm = inl (set_auth o (Some mb), bm).
Proof.
  intros Ha Hp. unfold mail_param. cbv beta zeta. keys.
  rewrite xtext_roundtrip by exact Ha.
  destruct mb as [|c t] eqn:E; [vm_compute in Hp; discriminate|]. rewrite <- E in *.
  destruct (bytes_eqb mb (bs "<>")) eqn:B.
  - apply bytes_eqb_eq in B. rewrite B in Hp. vm_compute in Hp. discriminate.
  - rewrite Hp. reflexivity.
Qed.

(* AUTH=<>: what the client writes for a non-nil empty Auth *)
Theorem C14_auth_empty cfg o bm :
  mail_param cfg (bs "AUTH") (Client.auth_value []) o bm = inl (set_auth o (Some []), bm).
Proof. unfold mail_param. cbv beta zeta. keys. reflexivity. Qed.

Theorem C14_ret cfg v o bm :
  cf_dsn cfg = true -> v = bs "FULL" \/ v = bs "HDRS" ->
  mail_param cfg (bs "RET") v o bm = inl (set_ret o v, bm).
Proof.
  intros Hd [-> | ->]; unfold mail_param; cbv beta zeta; keys; rewrite Hd; reflexivity.
Qed.

Theorem C14_smtputf8 cfg o bm :
  cf_utf8 cfg = true -> mail_param cfg (bs "SMTPUTF8") [] o bm = inl (set_utf8 o true, bm).
Proof. intros H. unfold mail_param. cbv beta zeta. keys. rewrite H. reflexivity. Qed.

Theorem C14_requiretls cfg o bm :
  cf_requiretls cfg = true ->
  mail_param cfg (bs "REQUIRETLS") [] o bm = inl (set_requiretls o true, bm).
Proof. intros H. unfold mail_param. cbv beta zeta. keys. rewrite H. reflexivity. Qed.

(* BODY: each of the three values arrives as given; BINARYMIME needs
   EnableBINARYMIME and raises the connection's binarymime flag (DATA is
   refused from then on: RFC 3030 wants BDAT) *)
Definition is_binarymime (v : bytes) : bool := bytes_eqb v (bs "BINARYMIME").

Definition body_value (v : bytes) : Prop :=
  v = bs "7BIT" \/ v = bs "8BITMIME" \/ v = bs "BINARYMIME".

Theorem C14_body_param cfg v o bm :
  body_value v -> (v = bs "BINARYMIME" -> cf_binarymime cfg = true) ->
  mail_param cfg (bs "BODY") v o bm = inl (set_body o v, bm || is_binarymime v).
Proof.
  intros [-> | [-> | ->]] Hb; unfold mail_param, is_binarymime; cbv beta zeta; keys.
  - change (to_upper (bs "7BIT")) with (bs "7BIT"). keys. cbn [orb]. rewrite orb_false_r. reflexivity.
  - change (to_upper (bs "8BITMIME")) with (bs "8BITMIME"). keys. cbn [orb]. rewrite orb_false_r. reflexivity.
  - change (to_upper (bs "BINARYMIME")) with (bs "BINARYMIME"). keys.
    rewrite (Hb eq_refl), orb_true_r. reflexivity.
Qed.

(* the only BODY value a server without EnableBINARYMIME refuses; such a server
   does not advertise BINARYMIME, so the client never sends it (C14_body) *)
Theorem C14_body_binarymime_disabled cfg o bm :
  cf_binarymime cfg = false ->
  mail_param cfg (bs "BODY") (bs "BINARYMIME") o bm
  = inr (504, (5, 5, 4), bs "BINARYMIME is not implemented")%Z.
Proof.
  intros H. unfold mail_param. cbv beta zeta. keys.
  change (to_upper (bs "BINARYMIME")) with (bs "BINARYMIME"). keys. rewrite H. reflexivity.
Qed.

(* SIZE: every n < 2^63 (int64), within the server's limit if there is one *)
Theorem C14_size cfg n o bm :
  (n < 2 ^ 63)%N ->
  (cf_max_bytes cfg <= 0 \/ Z.of_N n <= cf_max_bytes cfg)%Z ->
  mail_param cfg (bs "SIZE") (dec_of_N n) o bm = inl (set_size o (Z.of_N n), bm).
Proof.
  intros Hn Hl. unfold mail_param. cbv beta zeta. keys.
  rewrite parse_uint_dec_of_N by exact Hn.
  assert (E : ((0 <? cf_max_bytes cfg)%Z && (cf_max_bytes cfg <? Z.of_N n)%Z) = false) by lia.
  rewrite E. reflexivity.
Qed.

(* the client prints Size with %v of an int64 *)
Corollary C14_size_Z cfg z o bm :
  (0 <= z < 2 ^ 63)%Z ->
  (cf_max_bytes cfg <= 0 \/ z <= cf_max_bytes cfg)%Z ->
  mail_param cfg (bs "SIZE") (Reply.dec_of_Z z) o bm = inl (set_size o z, bm).
Proof.
  intros Hz Hl. rewrite dec_of_Z_nonneg by lia.
  rewrite C14_size; [rewrite Z2N.id by lia; reflexivity| |rewrite Z2N.id by lia; exact Hl].
  change (2 ^ 63)%N with (Z.to_N (2 ^ 63)). lia.
Qed.

Definition set_notify (o : rcpt_opts) (v : list bytes) : rcpt_opts :=
  mkRO v (ro_orcpt_type o) (ro_orcpt o) (ro_rrvs o).
Definition set_orcpt (o : rcpt_opts) (ty v : bytes) : rcpt_opts :=
  mkRO (ro_notify o) ty v (ro_rrvs o).
Definition set_rrvs (o : rcpt_opts) (t : rtime) : rcpt_opts :=
  mkRO (ro_notify o) (ro_orcpt_type o) (ro_orcpt o) (Some t).

Lemma dta_prefix ty e :
  mem_byte ";" ty = false ->
  splitn2 ";" (ty ++ ";" :: e) = [ty; e].
Proof. intros H. unfold splitn2. rewrite cut_byte_app by exact H. reflexivity. Qed.

(* ORCPT=RFC822;xtext : every non-empty printable-ASCII string *)
Theorem C14_orcpt_rfc822 cfg s o :
  cf_dsn cfg = true -> s <> [] -> is_printable_ascii s = true ->
  rcpt_param cfg (bs "ORCPT") (bs "RFC822;" ++ encode_xtext s) o
  = inl (set_orcpt o (bs "RFC822") s).
Proof.
  intros Hd Hs Hp. pose proof (printable_ascii7 s Hp) as Ha.
  unfold rcpt_param. cbv beta zeta. keys. rewrite Hd. cbn [negb].
  unfold decode_typed_address.
  change (bs "RFC822;" ++ encode_xtext s) with (bs "RFC822" ++ ";" :: encode_xtext s).
  rewrite dta_prefix by reflexivity.
  pose proof (encode_xtext_nonempty s Ha Hs) as Ne.
  pose proof (xtext_roundtrip s Ha) as R.
  destruct (encode_xtext s) as [|e0 e] eqn:E; [congruence|].
  change (bs "RFC822") with ("R" :: bs "FC822"). cbv iota.
  change (to_upper ("R" :: bs "FC822")) with (bs "RFC822"). keys.
  rewrite R, Hp. destruct s as [|c s]; [congruence|]. reflexivity.
Qed.

(* ORCPT=UTF-8;... in both forms: every non-empty text over U+0020..U+007F
   and all non-ASCII Unicode scalar values *)
Lemma orcpt_utf8 cfg enc v o :
  cf_dsn cfg = true -> v <> [] -> decode_utf8_addr_xtext enc = Some v ->
  rcpt_param cfg (bs "ORCPT") (bs "UTF-8;" ++ enc) o = inl (set_orcpt o (bs "UTF-8") v).
Proof.
  intros Hd Hv R.
  unfold rcpt_param. cbv beta zeta. keys. rewrite Hd. cbn [negb].
  unfold decode_typed_address.
  change (bs "UTF-8;" ++ enc) with (bs "UTF-8" ++ ";" :: enc).
  rewrite dta_prefix by reflexivity.
  destruct enc as [|e0 e] eqn:E.
  { cbn in R. congruence. }
  change (bs "UTF-8") with ("U" :: bs "TF-8"). cbv iota.
  change (to_upper ("U" :: bs "TF-8")) with (bs "UTF-8"). keys.
  rewrite R. cbn [option_map]. destruct v as [|c v]; [congruence|]. reflexivity.
Qed.

Theorem C14_orcpt_utf8_unitext cfg cs o :
  cf_dsn cfg = true -> cs <> [] -> forallb addr_cp cs = true ->
  rcpt_param cfg (bs "ORCPT") (bs "UTF-8;" ++ encode_utf8_addr_unitext (utf8_of_runes cs)) o
  = inl (set_orcpt o (bs "UTF-8") (utf8_of_runes cs)).
Proof.
  intros Hd Hc Ha. apply orcpt_utf8; [exact Hd|now apply utf8_of_runes_nonempty|].
  now apply utf8_addr_unitext_roundtrip.
Qed.

Theorem C14_orcpt_utf8_xtext cfg cs o :
  cf_dsn cfg = true -> cs <> [] -> forallb addr_cp cs = true ->
  rcpt_param cfg (bs "ORCPT") (bs "UTF-8;" ++ encode_utf8_addr_xtext (utf8_of_runes cs)) o
  = inl (set_orcpt o (bs "UTF-8") (utf8_of_runes cs)).
Proof.
  intros Hd Hc Ha. apply orcpt_utf8; [exact Hd|now apply utf8_of_runes_nonempty|].
  now apply utf8_addr_xtext_roundtrip.
Qed.

(* NOTIFY: the sixteen valid sets - NEVER alone, or a duplicate-free non-empty
   sequence over SUCCESS / FAILURE / DELAY *)
Definition notify_sets : list (list bytes) :=
  let S := bs "SUCCESS" in let F := bs "FAILURE" in let D := bs "DELAY" in
  [ [bs "NEVER"];
    [S]; [F]; [D];
    [S; F]; [S; D]; [F; S]; [F; D]; [D; S]; [D; F];
    [S; F; D]; [S; D; F]; [F; S; D]; [F; D; S]; [D; S; F]; [D; F; S] ].

Definition list_bytes_eqb (a b : list bytes) : bool :=
  (List.length a =? List.length b)%nat && forallb (fun '(x, y) => bytes_eqb x y) (combine a b).

Lemma list_bytes_eqb_eq a : forall b, list_bytes_eqb a b = true -> a = b.
Proof.
  unfold list_bytes_eqb. induction a as [|x a IH]; intros [|y b] H; cbn in H; try discriminate; [reflexivity|].
  apply andb_true_iff in H as [H1 H2]. apply andb_true_iff in H2 as [H2 H3].
  apply bytes_eqb_eq in H2. subst y. f_equal. apply IH. now rewrite H1, H3.
Qed.

(* each of the sixteen passes checkNotifySet and is split again at the commas *)
Lemma notify_sets_facts vals :
  In vals notify_sets ->
  notify_ok vals = true /\ map to_upper (split_byte "," (join (bs ",") vals)) = vals.
Proof.
  assert (C : forallb (fun vals => notify_ok vals
                                   && list_bytes_eqb (map to_upper (split_byte "," (join (bs ",") vals))) vals)
                      notify_sets = true) by (vm_compute; reflexivity).
  rewrite forallb_forall in C. intros Hin. specialize (C vals Hin).
  apply andb_true_iff in C as [C1 C2]. split; [exact C1|now apply list_bytes_eqb_eq].
Qed.

Theorem C14_notify cfg vals o :
  cf_dsn cfg = true -> In vals notify_sets ->
  rcpt_param cfg (bs "NOTIFY") (join (bs ",") vals) o = inl (set_notify o vals).
Proof.
  intros Hd Hin. destruct (notify_sets_facts vals Hin) as [C1 C2].
  unfold rcpt_param. cbv beta zeta. keys. rewrite Hd. cbn [negb]. rewrite C2, C1. reflexivity.
Qed.

(* the sixteen sets are exactly what checkNotifySet (client and server) accepts *)
Fixpoint nodupb (l : list bytes) : bool :=
  match l with
  | [] => true
  | x :: r => negb (existsb (bytes_eqb x) r) && nodupb r
  end.

Definition notify_consts : list bytes := [bs "NEVER"; bs "DELAY"; bs "FAILURE"; bs "SUCCESS"].

Lemma nodupb_NoDup l : nodupb l = true -> NoDup l.
Proof.
  induction l as [|x l IH]; cbn [nodupb]; intros H; [constructor|].
  apply andb_true_iff in H as [H1 H2]. constructor; [|now apply IH].
  intros Hin. apply negb_true_iff in H1.
  assert (E : existsb (bytes_eqb x) l = true).
  { apply existsb_exists. exists x. split; [exact Hin|apply bytes_eqb_refl]. }
  congruence.
Qed.

Definition in_sets (vals : list bytes) : bool := existsb (list_bytes_eqb vals) notify_sets.

(* all sequences of length n over the four constants *)
Fixpoint seqs (n : nat) : list (list bytes) :=
  match n with
  | O => [[]]
  | S n => flat_map (fun s => map (fun a => a :: s) notify_consts) (seqs n)
  end.

Lemma in_seqs s : (forall v, In v s -> In v notify_consts) -> In s (seqs (List.length s)).
Proof.
  induction s as [|a s IH]; intros H; [now left|]. cbn [List.length seqs].
  apply in_flat_map. exists s. split; [apply IH; intros v Hv; apply H; now right|].
  apply (in_map (fun x => x :: s)), H. now left.
Qed.

Lemma seqs_chk :
  forallb (fun s => negb (notify_ok s) || in_sets s) (flat_map seqs [1; 2; 3; 4]%nat) = true.
Proof. vm_compute. reflexivity. Qed.

Theorem notify_sets_complete vals : notify_ok vals = true <-> In vals notify_sets.
Proof.
  split.
  - intros H.
    (* the values are among the four constants and do not repeat, so there are
       at most four of them: a finite search *)
    assert (K : forallb (fun v => existsb (bytes_eqb v) notify_consts) vals = true
                /\ nodupb vals = true /\ vals <> []).
    { unfold notify_ok in H. destruct vals as [|v0 vals]; [discriminate|].
      apply andb_true_iff in H as [H _]. apply andb_true_iff in H as [H1 H2].
      split; [|split; [exact H2|discriminate]].
      rewrite forallb_forall in *. intros v Hv. specialize (H1 v Hv).
      unfold notify_consts. cbn [existsb]. rewrite orb_false_r. rewrite <- !orb_assoc in H1.
      exact H1. }
    destruct K as (K1 & K2 & K3).
    assert (Hc : forall v, In v vals -> In v notify_consts).
    { intros v Hv. rewrite forallb_forall in K1. specialize (K1 v Hv).
      apply existsb_exists in K1 as (c & Hc & E). apply bytes_eqb_eq in E. now subst. }
    pose proof (NoDup_incl_length (nodupb_NoDup _ K2) Hc) as L.
    assert (S4 : In vals (flat_map seqs [1; 2; 3; 4]%nat)).
    { apply in_flat_map. exists (List.length vals). split; [|now apply in_seqs].
      destruct vals as [|a [|b [|c [|d [|e r]]]]]; [congruence|cbn; auto..|cbn in L; lia]. }
    pose proof seqs_chk as C. rewrite forallb_forall in C. specialize (C vals S4).
    rewrite H in C. cbn [negb orb] in C. unfold in_sets in C.
    apply existsb_exists in C as (s & Hs & E). apply list_bytes_eqb_eq in E. now subst.
  - apply notify_sets_facts.
Qed.

Corollary C14_notify_ok cfg vals o :
  cf_dsn cfg = true -> notify_ok vals = true ->
  rcpt_param cfg (bs "NOTIFY") (join (bs ",") vals) o = inl (set_notify o vals).
Proof. intros Hd H. apply C14_notify; [exact Hd|now apply notify_sets_complete]. Qed.

(* RRVS: every instant of the years 0001..9999 (local date), every zone offset
   of whole minutes inside (-24h, +24h); the instant and the offset arrive,
   nanoseconds are not transmitted by the RFC 3339 layout *)
Theorem C14_rrvs cfg t o :
  cf_rrvs cfg = true -> rt_dom t ->
  rcpt_param cfg (bs "RRVS") (Client.format_rfc3339 t) o
  = inl (set_rrvs o (mkRT (rt_unix t) 0 (rt_off t))).
Proof.
  intros Hr Hd. unfold rcpt_param. cbv beta zeta. keys. rewrite Hr. cbn [negb].
  (* the layout has no ';', so nothing is cut off the value *)
  rewrite cut_byte_none
    by (eapply forallb_not_mem; [apply ClientProofs.format_rfc3339_timech|reflexivity]).
  rewrite rfc3339_roundtrip by exact Hd. reflexivity.
Qed.

Print Assumptions C14_envid.
Print Assumptions C14_auth_mailbox.
Print Assumptions C14_size_Z.
Print Assumptions C14_orcpt_rfc822.
Print Assumptions C14_orcpt_utf8_unitext.
Print Assumptions C14_orcpt_utf8_xtext.
Print Assumptions C14_notify_ok.
Print Assumptions C14_rrvs.
