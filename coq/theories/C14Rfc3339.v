(* C14: Time.Format(time.RFC3339) followed by time.Parse(time.RFC3339, .) is
   the identity on (instant, zone offset), to the second: the layout prints no
   nanoseconds.  It holds for every instant whose LOCAL date (instant +
   offset) lies in 0001-01-01T00:00:00 .. 9999-12-31T23:59:59 and every zone
   offset of whole minutes strictly between -24h and +24h ([rt_dom]); the date
   arithmetic is proved for every day number (C14Time.civil_roundtrip), not
   for a grid of dates. *)
From Smtp Require Import Bytes Rfc3339 C14Time.
From Smtp Require Client.
From Coq Require Import Lia ZifyBool.
Local Open Scope char_scope.
Local Open Scope Z_scope.

Definition rt_dom (t : rtime) : Prop :=
  -62135596800 <= rt_unix t + rt_off t < 253402300800
  /\ -86400 < rt_off t < 86400 /\ rt_off t mod 60 = 0.

Lemma quot_whole off : off mod 60 = 0 -> Z.quot off 60 = off / 60 /\ off = off / 60 * 60.
Proof.
  intros H. assert (E : off = off / 60 * 60) by lia. split; [|exact E].
  rewrite E at 1. apply Z.quot_mul. lia.
Qed.

Lemma skip1_same c r : skip1 c (c :: r) = Some r.
Proof. unfold skip1. rewrite Ascii.eqb_refl. reflexivity. Qed.

(* getnum reads back a two-digit field of the layout *)
Lemma getnum_two x r f : 0 <= x < 100 -> getnum (Client.append_int x 2 ++ r) f = Some (x, r).
Proof.
  intros H. destruct (two_digits x H) as (a & b & -> & Da & Db & <-).
  cbn [app]. unfold getnum. now rewrite Da, Db.
Qed.

(* the parser reads the layout back, whatever the fields, as long as each fits
   its width and passes the parser's range check *)
Lemma parse_layout y m d h mi s off :
  0 <= y < 10000 -> 1 <= m <= 12 -> 1 <= d <= days_in m y ->
  0 <= h < 24 -> 0 <= mi < 60 -> 0 <= s < 60 -> -86400 < off < 86400 -> off mod 60 = 0 ->
  parse_rfc3339
    (Client.append_int y 4 ++ "-" :: Client.append_int m 2 ++ "-" :: Client.append_int d 2 ++ "T" ::
     Client.append_int h 2 ++ ":" :: Client.append_int mi 2 ++ ":" :: Client.append_int s 2 ++
     (if off =? 0 then ["Z"]
      else let zone := Z.quot off 60 in let az := Z.abs zone in
           (if zone <? 0 then "-" else "+") :: Client.append_int (az / 60) 2 ++ ":" ::
           Client.append_int (az mod 60) 2))
  = Some (mkRT (days_from_civil y m d * 86400 + h * 3600 + mi * 60 + s - off) 0 off).
Proof.
  intros Hy Hm Hd Hh Hmi Hs.
  assert (Hd' : 0 <= d < 100).
  { unfold days_in in Hd. destruct (m =? 2); [destruct (is_leap y)|destruct (_ || _)]; lia. }
  assert (Bm : (m <=? 0) || (12 <? m) = false) by lia.
  assert (Bd : (d <? 1) || (days_in m y <? d) = false) by lia.
  assert (Bh : (24 <=? h) = false) by lia.
  assert (Bmi : (60 <=? mi) = false) by lia.
  assert (Bs : (60 <=? s) = false) by lia.
  destruct (four_digits y Hy) as (y0 & y1 & y2 & y3 & -> & Dy0 & Dy1 & Dy2 & Dy3 & Vy).
  cbn [app]. unfold parse_rfc3339. cbn [forallb]. rewrite Dy0, Dy1, Dy2, Dy3, Vy. cbn [andb].
  rewrite skip1_same, getnum_two, Bm by (clear - Hm; lia).
  rewrite skip1_same, getnum_two by exact Hd'.
  rewrite skip1_same, getnum_two, Bh by (clear - Hh; lia).
  rewrite skip1_same, getnum_two, Bmi by (clear - Hmi; lia).
  rewrite skip1_same, getnum_two, Bs by (clear - Hs; lia).
  rewrite Bd. cbv iota.
  generalize (days_from_civil y m d * 86400 + h * 3600 + mi * 60 + s). clear. intros u Hoff Hmin.
  destruct (off =? 0) eqn:Ez.
  - cbn [Ascii.eqb Bool.eqb andb orb]. cbv iota. f_equal. f_equal; lia.
  - destruct (quot_whole off Hmin) as (-> & Ek). set (k := off / 60) in *.
    assert (Hk : 0 < Z.abs k < 1440) by lia.
    destruct (two_digits (Z.abs k / 60)) as (a0 & a1 & -> & Da0 & Da1 & Va); [lia|].
    destruct (two_digits (Z.abs k mod 60)) as (b0 & b1 & -> & Db0 & Db1 & Vb); [lia|].
    assert (Hr : (24 <? dig a0 * 10 + dig a1) || (60 <? dig b0 * 10 + dig b1) = false) by lia.
    assert (Ea : ((dig a0 * 10 + dig a1) * 60 + (dig b0 * 10 + dig b1)) * 60 = Z.abs off) by lia.
    clear - Ek Da0 Da1 Db0 Db1 Hr Ea. cbn [app]. destruct (k <? 0) eqn:Es0;
      cbn [Ascii.eqb Bool.eqb andb orb negb forallb]; cbv iota;
      rewrite Da0, Da1, Db0, Db1; cbn [andb negb]; cbv iota beta zeta; rewrite Hr, Ea;
      cbn [Ascii.eqb Bool.eqb andb]; cbv iota; f_equal; f_equal; lia.
Qed.

Theorem rfc3339_roundtrip t :
  rt_dom t ->
  parse_rfc3339 (Client.format_rfc3339 t) = Some (mkRT (rt_unix t) 0 (rt_off t)).
Proof.
  intros (Hloc & Hoff & Hmin). unfold Client.format_rfc3339.
  set (off := rt_off t) in *. set (loc := rt_unix t + off) in *.
  pose proof (civil_roundtrip (loc / 86400)) as R.
  destruct (Client.civil_from_days (loc / 86400)) as [[y m] d].
  destruct R as (Hm & Hd & Hdfc & Hy).
  (* the fields of the time of day are the digits of loc mod 86400 in the
     mixed base 24, 60, 60 *)
  rewrite parse_layout by (try assumption; lia). f_equal. f_equal. rewrite Hdfc. lia.
Qed.

Print Assumptions rfc3339_roundtrip.

(* non-vacuity, and one of the instants of Client.ex_rfc3339 *)
Example rfc3339_roundtrip_ex :
  rt_dom (mkRT 1700000000 0 (-12600)) /\ rt_dom (mkRT (-62135596800) 0 0)
  /\ rt_dom (mkRT 253402300799 0 0) /\ rt_dom (mkRT 0 0 86340)
  /\ parse_rfc3339 (Client.format_rfc3339 (mkRT 1700000000 123 (-12600)))
     = Some (mkRT 1700000000 0 (-12600)).
Proof. unfold rt_dom. cbn [rt_unix rt_off]. repeat split; try lia; reflexivity. Qed.
