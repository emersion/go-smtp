(* What the DATA and BDAT handlers do (conn.go handleData, handleBdat), for
   every state of the connection.  [data_outcome] and [bdat_outcome] list the
   forms a result of [handle_data] and [handle_bdat] can have;
   [handle_data_outcome], [handle_bdat_classified] say that there are no
   others.  No reply code is interpreted here: the shape of the reply groups
   (ReplyGroups.v), the delivery a verdict comes from (ReplyVerdict.v) and the
   well-formedness of the replies (ReplyWf.v) are three readings of the same
   description. *)
From Smtp Require Import Bytes Transport DataReader Reply Lmtp Conn.
From Smtp Require Import LmtpSpec LmtpProofs ConnProofs BdatProofs.
Local Open Scope char_scope.

Lemma bd_feed_werr b chunk e :
  snd (bd_feed b chunk) = Some e ->
  exists v, bd_done (fst (fst (bd_feed b chunk))) = Some v /\ e = pipe_err v.
Proof.
  unfold bd_feed. destruct chunk as [|x chunk]; [discriminate|].
  destruct (bd_done b) as [v|] eqn:Hd; [intros [= <-]; exists v; split; [exact Hd|reflexivity]|].
  destruct (dp_stop (bd_plan b)) as [k|]; [|discriminate].
  destruct (take_N _ _) as [[a ?] ?]. destruct (_ <? _)%N; [discriminate|].
  destruct (bd_finish _ None) as [b2 ev]. destruct (_ =? _)%N; [discriminate|]. cbn [fst snd].
  destruct (bd_done b2) as [v|]; [intros [= <-]; exists v; split; reflexivity|discriminate].
Qed.

(* [ended c c' ev]: a handler has ended the transaction, and with it whatever
   transfer was running, by a reset or by Close ([ev]: the events of that);
   [settles]: that, or it has left the transaction alone. *)
Definition ended (c c' : conn) (ev : list event) : Prop :=
  (ev = reset_ev c \/ ev = close_ev c) /\ c_be c' = c_be c /\ c_bdat c' = None
  /\ (c_rcpts c' = c_rcpts c \/ c_rcpts c' = []).

Definition settles (c c' : conn) (ev : list event) : Prop :=
  (ev = [] /\ c_be c' = c_be c /\ c_bdat c' = c_bdat c /\ c_rcpts c' = c_rcpts c) \/ ended c c' ev.

Lemma Inv_no_session c :
  Inv c -> c_closed c = false -> negb (c_session c) = true -> c_helo c = [] /\ negb (c_from c) = true.
Proof.
  intros (H & _) Hc Hs. apply negb_true_iff in Hs. destruct (H Hc Hs) as (H1 & -> & _). split; [exact H1|reflexivity].
Qed.

(* every branch of a function's body: [destruct] on the scrutinee of the first
   [match] of the goal, again and again, the equations kept *)
Ltac break_match :=
  repeat match goal with
         | |- context [match ?x with _ => _ end] =>
             match type of x with
             | sumbool _ _ => fail 1
             | _ => destruct x eqn:?
             end
         end.

Lemma classify_nil_session cfg c arg :
  bdat_classify cfg c arg = BvNilSession -> c_session c = false /\ c_from c = true.
Proof.
  unfold bdat_classify. break_match; try discriminate; intros _.
  all: match goal with H1 : negb (c_from _) || _ = false, H2 : negb (c_session _) && _ = true |- _ =>
         apply orb_false_iff in H1 as [H1 _]; apply andb_true_iff in H2 as [H2 _] end.
  all: destruct (c_session c), (c_from c); try discriminate; split; reflexivity.
Qed.

Lemma classify_accept_rcpts cfg c arg size last :
  bdat_classify cfg c arg = BvAccept size last -> c_rcpts c <> [].
Proof.
  unfold bdat_classify. break_match; intros E; try discriminate.
  all: intros E'; rewrite E', orb_true_r in *; discriminate.
Qed.

Definition bdat_refused_with : list (Z * ecode * bytes) :=
  [(501, (5, 5, 4), bs "Missing chunk size argument"); (501, (5, 5, 4), bs "Too many arguments");
   (501, (5, 5, 4), bs "Malformed size argument"); (502, (5, 5, 1), bs "Missing RCPT TO command.");
   (501, (5, 5, 4), bs "Unknown BDAT argument"); (552, (5, 3, 4), bs "Max message size exceeded")]%Z.

Definition bd_result (b : bdat) : berr := match bd_done b with Some v => v | None => BNil end.

(* the write side of the pipe is closed before the replies to the LAST chunk in
   LMTP mode, which are one per recipient (BdatProofs.fed_replies) *)
Definition pipe_end (cfg : config) (last : bool) (b : bdat) (pe : rerr) : bdat * list event :=
  if last && cf_lmtp cfg then bd_end b pe else (b, []).

(* How a chunk ends the transfer, [b1] and [werr] being what feeding it to the
   delivery gave and [cerr] the error of the copy: the error value [e] the
   replies render, the delivery record [b2] then and its events [ev2] up to the
   replies. *)
Inductive fed_end (cfg : config) (last : bool) (b1 : bdat) (werr : option berr) (cerr : option terr)
  : berr -> bdat -> list event -> Prop :=
| FE_stopped e b2 ev2 :   (* the backend had stopped reading *)
    werr = Some e -> pipe_end cfg last b1 RDataReset = (b2, ev2) -> fed_end cfg last b1 werr cerr e b2 ev2
| FE_unread te b2 ev2 :   (* the chunk could not be read from the connection *)
    werr = None -> cerr = Some te -> pipe_end cfg last b1 (rerr_of_copy te) = (b2, ev2) ->
    fed_end cfg last b1 werr cerr (berr_of_rerr (rerr_of_copy te)) b2 ev2
| FE_copied b2 ev2 :      (* the LAST chunk was copied: what the delivery returns *)
    werr = None -> cerr = None -> last = true -> bd_end b1 REOF = (b2, ev2) ->
    fed_end cfg last b1 werr cerr (bd_result b2) b2 ev2.

(* What handle_bdat does: it refuses the command with one reply; or copies the
   chunk, feeds it to the delivery of the running transfer (a new one if none
   runs: [bdat_start]) and answers 250, the transfer going on; or the chunk
   ends the transfer ([fed_end]), the final replies are written and the
   transaction is reset or the connection closed ([cm]: the connection then,
   the delivery record still in it). *)
Inductive bdat_outcome (cfg : config) (c : conn) (last : bool) : hres -> Prop :=
| BO_refused code ec msg c' tail :
    In (code, ec, msg) bdat_refused_with -> settles c c' tail ->
    bdat_outcome cfg c last (c', reply code ec msg :: tail)
| BO_no_session :         (* does not happen between two commands ([Inv_no_session]) *)
    c_session c = false -> c_from c = true -> bdat_outcome cfg c last (c, [EPanic])
| BO_continue chunk b0 ev0 c0 b1 ev1 c' :
    bdat_start cfg c = (b0, ev0, c0) -> bd_feed b0 chunk = (b1, ev1, None) -> last = false ->
    c_be c' = c_be c0 -> c_rcpts c' = c_rcpts c0 -> c_bdat c' = Some b1 ->
    bdat_outcome cfg c last (c', ev0 ++ ev1 ++ [reply 250 (2, 0, 0)%Z (bs "Continue")])
| BO_end chunk cerr b0 ev0 c0 b1 ev1 werr e b2 ev2 cm c' tail :
    bdat_start cfg c = (b0, ev0, c0) -> bd_feed b0 chunk = (b1, ev1, werr) ->
    fed_end cfg last b1 werr cerr e b2 ev2 -> c_rcpts c <> [] ->
    ended cm c' tail -> c_be cm = c_be c0 -> c_rcpts cm = c_rcpts c0 -> c_bdat cm = Some b2 ->
    bdat_outcome cfg c last
      (c', ev0 ++ ev1 ++ ev2 ++ fed_replies cfg (last && cf_lmtp cfg) b2 e ++ tail).

Lemma handle_bdat_classified cfg c arg last :
  (forall size l, bdat_classify cfg c arg = BvAccept size l -> l = last) ->
  bdat_outcome cfg c last (handle_bdat cfg c arg).
Proof.
  intros Hlast. pose proof (handle_bdat_cases cfg c arg) as H.
  pose proof (discard_cases cfg c) as Hd.
  destruct (bdat_classify cfg c arg) as [|size|size|size| |size l] eqn:Ecl.
  - destruct H as (msg & Hin & ->).
    apply BO_refused; [|left; auto]. destruct Hin as [<-|[<-|[<-|[]]]]; cbn; tauto.
  - rewrite H. apply BO_refused; [cbn; tauto|].
    destruct (Hd size) as [(_ & -> & ->)|(_ & -> & ->)]; [left|right]; repeat split; auto.
  - rewrite H. apply BO_refused; [cbn; tauto|].
    destruct (Hd size) as [(_ & -> & ->)|(_ & -> & ->)]; [left|right]; repeat split; auto.
  - (* after Close the reset emits nothing *)
    rewrite H. cbn [app]. apply BO_refused; [cbn; tauto|]. right.
    destruct (Hd size) as [(_ & -> & ->)|(_ & -> & ->)]; [|rewrite (app_nil_r (close_ev c) : close_ev c ++ reset_ev (close_c _) = _)];
      repeat split; auto.
  - rewrite H. apply BO_no_session; apply (classify_nil_session cfg c arg Ecl).
  - rewrite H. pose proof (classify_accept_rcpts _ _ _ _ _ Ecl) as Hne. rewrite (Hlast _ _ eq_refl) in *.
    destruct (t_copy_n size _) as [[chunk cerr] t1]. rewrite bdat_fed_eq.
    destruct (bdat_start cfg c) as [[b0 ev0] c0] eqn:E0. destruct (bd_feed b0 chunk) as [[b1 ev1] werr] eqn:E1.
    unfold fed_failure, fed_end_ev. cbv zeta.
    destruct werr as [e|]; [|destruct cerr as [te|]].
    + destruct (pipe_end cfg last b1 RDataReset) as [b2 ev2] eqn:Ep. unfold pipe_end in Ep. rewrite Ep.
      eapply (BO_end _ _ _ chunk cerr);
        [exact E0|exact E1|apply FE_stopped; [reflexivity|exact Ep]|exact Hne
        |destruct (bd_panics b1 || is_some cerr); (split; [eauto|]); repeat split; auto|reflexivity..].
    + destruct (t_copy_n (size - blen chunk) t1) as [[dg derr] td].
      destruct (pipe_end cfg last b1 (rerr_of_copy te)) as [b2 ev2] eqn:Ep. unfold pipe_end in Ep. rewrite Ep.
      eapply (BO_end _ _ _ chunk (Some te));
        [exact E0|exact E1|apply FE_unread; [reflexivity..|exact Ep]|exact Hne
        |destruct (is_some derr); (split; [eauto|]); repeat split; auto|reflexivity..].
    + destruct last; [|eapply BO_continue; [exact E0|exact E1|reflexivity..]].
      destruct (bd_end b1 REOF) as [b2 ev2] eqn:Eb.
      eapply (BO_end _ _ _ chunk None);
        [exact E0|exact E1|apply FE_copied; auto|exact Hne|destruct (bd_panics b1); (split; [eauto|]); repeat split; auto|reflexivity..].
Qed.

Lemma handle_bdat_some_outcome cfg c arg : exists last, bdat_outcome cfg c last (handle_bdat cfg c arg).
Proof.
  exists (match bdat_classify cfg c arg with BvAccept _ l => l | _ => false end).
  apply handle_bdat_classified. intros size l ->. reflexivity.
Qed.

Definition go_ahead : event :=
  EWire (write_response 354 no_ec [bs "Go ahead. End your data with <CR><LF>.<CR><LF>"]).

Definition data_refused_with : list (Z * ecode * bytes) :=
  [(501, (5, 5, 4), bs "DATA command should not have any arguments");
   (502, (5, 5, 1), bs "DATA not allowed during message transfer");
   (502, (5, 5, 1), bs "DATA not allowed for BINARYMIME messages");
   (502, (5, 5, 1), bs "Missing RCPT TO command.")]%Z.

Definition be_data_rest (be : backend) (rest : list data_plan) : backend :=
  mkBE (be_ns be) (be_mail be) (be_rcpt be) rest (be_auth be).

Lemma reset_ev_closed c : reset_ev (close_c c) = [].
Proof. reflexivity. Qed.

(* What handle_data does: it refuses the command with one reply; or writes 354,
   lets the backend read the message (the next plan [p] of the script; what it
   returns is [plan_ret p term]) and reports that value - in one reply, in LMTP
   mode in one per recipient, those of a backend with per-recipient statuses
   being [lmtp_statuses] - and ends the transaction ([cm]: the connection then:
   the script used up by one plan, no transfer); or the backend panics. *)
Inductive data_outcome (cfg : config) (c : conn) : hres -> Prop :=
| DO_refused code ec msg :
    In (code, ec, msg) data_refused_with -> data_outcome cfg c (c, [reply code ec msg])
| DO_no_session :         (* does not happen between two commands ([Inv_no_session]) *)
    c_session c = false -> c_from c = true -> data_outcome cfg c (c, [go_ahead; EPanic])
| DO_smtp p rest got term code ec msg cm c' tail :
    pop dp_default (be_data (c_be c)) = (p, rest) ->
    c_be cm = be_data_rest (c_be c) rest -> c_rcpts cm = c_rcpts c -> c_bdat cm = None ->
    cf_lmtp cfg = false -> data_error_to_status (plan_ret p term) = (code, ec, msg) -> ended cm c' tail ->
    data_outcome cfg c (c', [go_ahead; EData got term (plan_ret p term) false; reply code ec msg] ++ tail)
| DO_lmtp p rest got term cm c' tail :
    pop dp_default (be_data (c_be c)) = (p, rest) ->
    c_be cm = be_data_rest (c_be c) rest -> c_rcpts cm = c_rcpts c -> c_bdat cm = None ->
    cf_lmtp cfg = true -> cf_lmtp_session cfg = false -> c_rcpts c <> [] -> ended cm c' tail ->
    data_outcome cfg c
      (c', [go_ahead; EData got term (plan_ret p term) false]
           ++ map (fun a => status_reply a (plan_ret p term)) (c_rcpts c) ++ tail)
| DO_session p rest got term sts pk cm c' tail :
    pop dp_default (be_data (c_be c)) = (p, rest) ->
    c_be cm = be_data_rest (c_be c) rest -> c_rcpts cm = c_rcpts c -> c_bdat cm = None ->
    cf_lmtp cfg = true -> cf_lmtp_session cfg = true ->
    lmtp_statuses (c_rcpts c) (dp_status p) (plan_ret p term) (dp_panic p) = (sts, pk) -> ended cm c' tail ->
    data_outcome cfg c
      (c', [go_ahead; EData got term (plan_ret p term) pk]
           ++ map (fun '(a, e) => status_reply a e) sts ++ tail)
| DO_panicked p rest got term cm :   (* the deferred reset runs, then 421 and Close *)
    pop dp_default (be_data (c_be c)) = (p, rest) ->
    c_be cm = be_data_rest (c_be c) rest -> c_rcpts cm = c_rcpts c -> c_bdat cm = None ->
    dp_panic p = true -> cf_lmtp cfg = false \/ cf_lmtp_session cfg = false ->
    data_outcome cfg c
      (close_c (reset_c cm),
       [go_ahead; EData got term (plan_ret p term) true] ++ reset_ev cm
       ++ [EPanic; reply 421 (4, 0, 0)%Z (bs "Internal server error")] ++ close_ev (reset_c cm)).

(* the conditions "if !x" met on the way, turned into equations on x *)
Ltac unneg :=
  repeat match goal with
         | H : negb _ = true |- _ => apply negb_true_iff in H
         | H : negb _ = false |- _ => apply negb_false_iff in H
         end.

Lemma handle_data_outcome cfg c arg : data_outcome cfg c (handle_data cfg c arg).
Proof.
  unfold handle_data, pop_data, call_data, close_unless. walk.
  (* after Close the reset emits nothing; a Close that does not happen emits nothing *)
  all: rewrite ?reset_ev_closed, ?app_nil_r, ?app_nil_l; fold go_ahead; unneg.
  all: try (apply DO_refused; cbn; tauto).
  all: match goal with H : negb (c_from _) || _ = false |- _ => apply orb_false_iff in H as [Hf Hr] end; unneg.
  all: try (apply DO_no_session; assumption).
  (* the leaves behind the call of the backend, by the mode they are in; [cm] is read off the
     events of the reset or Close ([ended]), then its script, recipients and transfer (none) are
     those claimed *)
  all: first
    [ eapply DO_panicked; [eassumption|reflexivity|reflexivity|eassumption|assumption|auto]
    | eapply DO_smtp; [eassumption| | | |assumption|eassumption|]
    | eapply DO_lmtp; [eassumption| | | |assumption|assumption|intros E; rewrite E in Hr; discriminate|]
    | eapply DO_session; [eassumption| | | |assumption|assumption|eassumption|] ].
  all: try (split; [eauto|repeat split; auto]).
  all: reflexivity || assumption.
Qed.

Lemma fed_end_pipe cfg last b1 werr cerr e b2 ev2 :
  fed_end cfg last b1 werr cerr e b2 ev2 -> (b2, ev2) = (b1, []) \/ exists pe, bd_end b1 pe = (b2, ev2).
Proof.
  intros [e' b' ev' _ E|te b' ev' _ _ E|b' ev' _ _ _ E]; [| |eauto];
    revert E; unfold pipe_end; destruct (last && cf_lmtp cfg); intros E; eauto.
Qed.

Lemma pop_ok {A} (P : A -> bool) d l r rest :
  P d = true -> forallb P l = true -> pop d l = (r, rest) -> P r = true /\ forallb P rest = true.
Proof.
  intros Hd Hl. destruct l as [|x l]; cbn [pop]; intros [= <- <-]; [split; [exact Hd|reflexivity]|].
  cbn [forallb] in Hl. apply andb_true_iff in Hl. exact Hl.
Qed.

(* A predicate [B] on the error values a backend callback may return - a
   three-digit code in ReplyGroups.v, printable texts in ReplyWf.v - that
   holds of nil, of the server's own error values and of every value in the
   backend script holds of every value a handler gets to report. *)
Section Backend.
Variable B : berr -> bool.
Hypothesis B_own : B BNil = true /\ B err_panic = true /\ forall e, B (berr_of_rerr e) = true.
Let B_nil := proj1 B_own.
Let B_panic := proj1 (proj2 B_own).
Let B_rerr := proj2 (proj2 B_own).

Definition plan_all (p : data_plan) : bool := B (dp_ret p) && forallb (fun x => B (snd x)) (dp_status p).
Definition step_all (s : sasl_step) : bool := match s with SaslStep _ _ e => B e end.
Definition aplan_all (p : auth_plan) : bool := B (ap_start p) && forallb step_all (ap_steps p).

Definition backend_all (be : backend) : bool :=
  forallb B (be_ns be) && forallb B (be_mail be) && forallb B (be_rcpt be)
  && forallb plan_all (be_data be) && forallb aplan_all (be_auth be).

Lemma backend_all_iff a b c d e :
  backend_all (mkBE a b c d e) = true
  <-> forallb B a = true /\ forallb B b = true /\ forallb B c = true
      /\ forallb plan_all d = true /\ forallb aplan_all e = true.
Proof. unfold backend_all. cbn [be_ns be_mail be_rcpt be_data be_auth]. rewrite !andb_true_iff. tauto. Qed.

Lemma pop_ns_all be r rest :
  backend_all be = true -> pop BNil (be_ns be) = (r, rest) ->
  B r = true /\ backend_all (mkBE rest (be_mail be) (be_rcpt be) (be_data be) (be_auth be)) = true.
Proof.
  destruct be as [a b c d e]. intros H E. apply backend_all_iff in H as (H1 & H2 & H3 & H4 & H5).
  destruct (pop_ok B BNil _ _ _ B_nil H1 E). split; [|apply backend_all_iff]; auto.
Qed.

Lemma pop_mail_all be r rest :
  backend_all be = true -> pop BNil (be_mail be) = (r, rest) ->
  B r = true /\ backend_all (mkBE (be_ns be) rest (be_rcpt be) (be_data be) (be_auth be)) = true.
Proof.
  destruct be as [a b c d e]. intros H E. apply backend_all_iff in H as (H1 & H2 & H3 & H4 & H5).
  destruct (pop_ok B BNil _ _ _ B_nil H2 E). split; [|apply backend_all_iff]; auto.
Qed.

Lemma pop_rcpt_all be r rest :
  backend_all be = true -> pop BNil (be_rcpt be) = (r, rest) ->
  B r = true /\ backend_all (mkBE (be_ns be) (be_mail be) rest (be_data be) (be_auth be)) = true.
Proof.
  destruct be as [a b c d e]. intros H E. apply backend_all_iff in H as (H1 & H2 & H3 & H4 & H5).
  destruct (pop_ok B BNil _ _ _ B_nil H3 E). split; [|apply backend_all_iff]; auto.
Qed.

Lemma pop_data_all be p rest :
  backend_all be = true -> pop dp_default (be_data be) = (p, rest) ->
  plan_all p = true /\ backend_all (mkBE (be_ns be) (be_mail be) (be_rcpt be) rest (be_auth be)) = true.
Proof.
  destruct be as [a b c d e]. intros H E. apply backend_all_iff in H as (H1 & H2 & H3 & H4 & H5).
  assert (Hd : plan_all dp_default = true) by (unfold plan_all; cbn; rewrite B_nil; reflexivity).
  destruct (pop_ok plan_all dp_default _ _ _ Hd H4 E). split; [|apply backend_all_iff]; auto.
Qed.

Lemma pop_auth_all be p rest :
  backend_all be = true -> pop ap_default (be_auth be) = (p, rest) ->
  aplan_all p = true /\ backend_all (mkBE (be_ns be) (be_mail be) (be_rcpt be) (be_data be) rest) = true.
Proof.
  destruct be as [a b c d e]. intros H E. apply backend_all_iff in H as (H1 & H2 & H3 & H4 & H5).
  assert (Hd : aplan_all ap_default = true) by (unfold aplan_all; cbn; rewrite B_nil; reflexivity).
  destruct (pop_ok aplan_all ap_default _ _ _ Hd H5 E). split; [|apply backend_all_iff]; auto.
Qed.

Lemma plan_ret_all p term : plan_all p = true -> B (plan_ret p term) = true.
Proof.
  unfold plan_all, plan_ret. intros H. apply andb_true_iff in H as [H _].
  destruct term as [[]|]; try exact H; destruct (dp_prop p); try exact H; apply B_rerr.
Qed.

Lemma pipe_err_all v : B v = true -> B (pipe_err v) = true.
Proof. destruct v; intros H; try exact H. apply B_rerr. Qed.

Definition bd_all (b : bdat) : Prop :=
  plan_all (bd_plan b) = true /\ (forall v, bd_done b = Some v -> B v = true).

Lemma bd_result_all b : bd_all b -> B (bd_result b) = true.
Proof. intros [_ H]. unfold bd_result. destruct (bd_done b) as [v|]; [apply H; reflexivity|exact B_nil]. Qed.

Lemma bd_finish_all b term : bd_all b -> bd_all (fst (bd_finish b term)).
Proof.
  intros [Hp _]. split; [exact Hp|]. cbn. intros v Hv. injection Hv as <-.
  destruct (bd_panics b); [exact B_panic|apply plan_ret_all, Hp].
Qed.

Lemma bd_end_all b term : bd_all b -> bd_all (fst (bd_end b term)).
Proof. intros H. unfold bd_end. destruct (bd_done b); [exact H|apply bd_finish_all, H]. Qed.

Lemma bd_new_all p rcpts sp : plan_all p = true -> bd_all (fst (bd_new p rcpts sp)).
Proof.
  intros Hp. unfold bd_new. set (b := mkBD _ _ _ _ _).
  assert (Hb : bd_all b) by (split; [exact Hp|discriminate]).
  destruct (dp_stop p) as [[|k]|]; try exact Hb.
  pose proof (bd_finish_all b None Hb) as F. destruct (bd_finish b None). exact F.
Qed.

Lemma bd_feed_ok b chunk : bd_all b -> bd_all (fst (fst (bd_feed b chunk))).
Proof.
  intros H. unfold bd_feed. destruct chunk as [|x chunk]; [exact H|].
  destruct (bd_done b) as [v|] eqn:Hd; [exact H|].
  assert (Hm : forall a, bd_all (mkBD (bd_plan b) (bd_got b ++ a) None (bd_rcpts b) (bd_panics b)))
    by (intros a; split; [exact (proj1 H)|discriminate]).
  destruct (dp_stop (bd_plan b)) as [k|]; [|apply Hm].
  destruct (take_N _ _) as [[a ?] ?]. destruct (_ <? _)%N; [apply Hm|].
  pose proof (bd_finish_all _ None (Hm a)) as F. destruct (bd_finish _ None) as [b2 ev].
  destruct (_ =? _)%N; exact F.
Qed.

Lemma bd_feed_werr_all b chunk e : bd_all b -> snd (bd_feed b chunk) = Some e -> B e = true.
Proof.
  intros Hb He. destruct (bd_feed_werr b chunk e He) as (v & Hv & ->).
  apply pipe_err_all, (proj2 (bd_feed_ok b chunk Hb) v Hv).
Qed.

Lemma fed_end_all cfg last b1 werr cerr e b2 ev2 :
  bd_all b1 -> (forall e, werr = Some e -> B e = true) ->
  fed_end cfg last b1 werr cerr e b2 ev2 -> bd_all b2 /\ B e = true.
Proof.
  intros Hb Hw H.
  assert (Hb2 : bd_all b2).
  { destruct (fed_end_pipe _ _ _ _ _ _ _ _ H) as [[= -> _]|[pe E]]; [exact Hb|].
    pose proof (bd_end_all b1 pe Hb) as H2. rewrite E in H2. exact H2. }
  split; [exact Hb2|]. destruct H; [auto|apply B_rerr|apply bd_result_all, Hb2].
Qed.

Lemma bdat_fed_all cfg c chunk b0 ev0 c0 b1 ev1 werr :
  backend_all (c_be c) = true -> (forall b, c_bdat c = Some b -> bd_all b) ->
  bdat_start cfg c = (b0, ev0, c0) -> bd_feed b0 chunk = (b1, ev1, werr) ->
  backend_all (c_be c0) = true /\ bd_all b1 /\ (forall e, werr = Some e -> B e = true).
Proof.
  intros Hbe Hbd E0 E1.
  assert (H0 : backend_all (c_be c0) = true /\ bd_all b0).
  { revert E0. unfold bdat_start, pop_data. destruct (c_bdat c) as [b|]; [intros [= <- _ <-]; auto|].
    destruct (pop dp_default _) as [p rest] eqn:Ep. destruct (pop_data_all _ _ _ Hbe Ep) as [Hp Hbe'].
    match goal with |- context [bd_new p ?r ?sp] =>
      pose proof (bd_new_all p r sp Hp) as H1; destruct (bd_new p r sp) end.
    intros [= <- _ <-]. auto. }
  destruct H0 as [Hbe0 Hb0]. pose proof (bd_feed_ok b0 chunk Hb0) as Hb1.
  pose proof (bd_feed_werr_all b0 chunk) as Hw. rewrite E1 in Hb1, Hw. cbn [fst snd] in *. auto.
Qed.

Lemma ok_calls_forallb (P : bytes * berr -> bool) rcpts calls :
  forallb P calls = true -> forallb P (ok_calls rcpts calls) = true.
Proof.
  intros H. destruct (ok_calls_from_prefix rcpts calls []) as [post Hp].
  fold (ok_calls rcpts calls) in Hp. rewrite Hp, forallb_app in H.
  apply andb_true_iff in H as [H _]. exact H.
Qed.

Definition statuses_all (rcpts : list bytes) (sts : list (bytes * berr)) : Prop :=
  map fst sts = rcpts /\ Forall (fun x => B (snd x) = true) sts.

Lemma expected_statuses_all rcpts calls fv :
  forallb (fun x => B (snd x)) calls = true -> B fv = true ->
  statuses_all rcpts (expected_statuses rcpts (ok_calls rcpts calls) fv).
Proof.
  intros Hc Hf. split; [apply expected_names|]. apply (ok_calls_forallb _ rcpts) in Hc.
  unfold expected_statuses. generalize (ok_calls rcpts calls) (@nil bytes) Hc. clear Hc. intros oc seen Hc.
  revert seen. induction rcpts as [|a r IH]; intros seen; cbn [assign]; constructor; [|apply IH].
  cbn [snd]. unfold status_of, calls_for.
  destruct (nth_in_or_default (count_addr a seen)
              (map snd (filter (fun c => bytes_eqb a (fst c)) oc)) fv) as [Hin|Hd]; [|rewrite Hd; exact Hf].
  apply in_map_iff in Hin as (x & Hx & Hin). apply filter_In in Hin as [Hin _].
  rewrite forallb_forall in Hc. rewrite <- Hx. apply Hc, Hin.
Qed.

Lemma lmtp_statuses_all rcpts calls ret panic :
  forallb (fun x => B (snd x)) calls = true -> B ret = true ->
  statuses_all rcpts (fst (lmtp_statuses rcpts calls ret panic)).
Proof.
  intros Hc Hr. rewrite lmtp_statuses_spec. apply expected_statuses_all; [exact Hc|].
  destruct (panic || negb (contract_ok rcpts calls)); [exact B_panic|exact Hr].
Qed.

Lemma bdat_lmtp_replies_all cfg b e :
  bd_all b -> B e = true ->
  exists sts, fst (bdat_lmtp_replies cfg b e) = map (fun '(a, e) => status_reply a e) sts
              /\ statuses_all (bd_rcpts b) sts.
Proof.
  intros Hb He. pose proof (bd_result_all b Hb) as Hv. destruct Hb as [Hp _].
  apply andb_true_iff in Hp as [_ Hst]. unfold bdat_lmtp_replies.
  destruct (cf_lmtp_session cfg).
  - destruct (run_statuses_mk (bd_rcpts b) (dp_status (bd_plan b))) as (col & -> & Ee).
    destruct (bd_panics b); cbn [fst]; rewrite Ee; eexists; (split; [reflexivity|]);
      apply expected_statuses_all; assumption.
  - assert (Hs : forall fv, B fv = true -> statuses_all (bd_rcpts b) (map (fun a => (a, fv)) (bd_rcpts b))).
    { intros fv Hf. split; [rewrite map_map; apply map_id|apply Forall_map, Forall_forall; intros; exact Hf]. }
    destruct (bd_panics b); cbn [fst]; eexists; (split; [reflexivity|]); apply Hs; assumption.
Qed.

End Backend.
