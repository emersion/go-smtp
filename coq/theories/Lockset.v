(* Lockset.v - data-race freedom by lock discipline + spawn/join ordering.

   PART 1 (generic).  An abstract concurrent program is a family of task
   instances [i : I], each a list of events

       Acc field (R|W) site | Acq | Rel | Spawn i | Send ch | Recv ch

   ([site] is a label naming the source function of the access; the semantics
   ignores it).  Interleaving semantics with ONE mutex: [Acq] blocks while the
   mutex is held, [Rel] is only possible for the holder, [Recv ch] blocks until
   a [Send ch] has happened, an instance that is not a root starts when some
   instance executes [Spawn] of it.  A schedule is a list of instance ids (who
   tries to move next; a blocked or finished instance does not move); all
   theorems quantify over every schedule, of any length.

   A data race is a reachable state in which two different started instances
   both have a conflicting access as their NEXT event (same field, at least
   one write).

     mutual_exclusion : at most one instance is between Acq and Rel.
     race_positions   : what is known about the two positions of a reachable
                        race: not both inside a lock region, neither instance
                        is "not yet spawned" by the other's position, neither
                        is past a receive whose only sender has not sent yet.
     lockset_hb_sound : a program in which every conflicting pair of
                        positions of two different instances is both-locked
                        or ordered by such a spawn / send-before-receive edge
                        has no reachable data race.

   PART 2 (the family of shapes go-smtp uses, unbounded).  A [template] is a
   finite table: handler bodies, closure bodies, external entry bodies.  For
   EVERY list [hs] of handler invocations (any number, any order) and every
   list [es] of external tasks (each any sequence of external entries) the
   concrete program [inst tpl hs es] has
     - the loop task   : the concatenation of the bodies of [hs];
     - detached tasks  : closures spawned by a handler invocation and never
                         joined (any number alive at once);
     - scoped tasks    : closures that end by [Send k] and whose spawning
                         handler body contains [Recv k];
     - external tasks  : run at any time.
   [races tpl] is a computable list of the unprotected conflicting pairs
   (field, site, site) over the relations loop x external, external x
   external, closure x external, closure x closure, detached closure x every
   handler access, scoped closure x the accesses of a handler between its
   spawn and its join.

     races_sound       : wf_b tpl = true -> every reachable data race of
                         every inst tpl hs es, under every schedule, is on a
                         triple listed in [races tpl].
     race_free_b_sound : race_free_b tpl = true -> no data race at all.

   PART 3.  [build] makes a template out of the per-function table that
   tools/accesses writes (gen/Accesses.v), inlining calls; [races_within]
   is [races_sound] for any list that covers [races tpl]. *)
From Coq Require Import List String Bool Arith Lia.
Import ListNotations.

Inductive event (I C : Type) : Type :=
| Acc (f : string) (w : bool) (site : string)
| Acq
| Rel
| Spawn (i : I)
| Send (c : C)
| Recv (c : C).
Arguments Acc {I C} f w site.
Arguments Acq {I C}.
Arguments Rel {I C}.
Arguments Spawn {I C} i.
Arguments Send {I C} c.
Arguments Recv {I C} c.

(* lock status along an event list *)

Section Held.
  Context {I C : Type}.

  Definition held_step (b : bool) (e : event I C) : bool :=
    match e with Acq => true | Rel => false | _ => b end.

  Definition held_from (b : bool) (l : list (event I C)) : bool :=
    fold_left held_step l b.

  Definition held (l : list (event I C)) : bool := held_from false l.

  Lemma held_from_app b l1 l2 :
    held_from b (l1 ++ l2) = held_from (held_from b l1) l2.
  Proof. unfold held_from. apply fold_left_app. Qed.

  Lemma held_snoc l e : held (l ++ [e]) = held_step (held l) e.
  Proof. unfold held. rewrite held_from_app. reflexivity. Qed.
End Held.

(* PART 1: generic semantics and theorems *)

Section Sem.
  Context {I C : Type}.
  Context (I_dec : forall a b : I, {a = b} + {a <> b}).
  Context (C_dec : forall a b : C, {a = b} + {a <> b}).
  Notation ev := (event I C).

  Record program := mkProg { body : I -> list ev; root : I -> bool }.

  Record state := mkS {
    pc : I -> list ev;          (* remaining events of each instance *)
    started : I -> bool;
    holder : option I;          (* who holds the mutex *)
    sent : C -> bool            (* channels on which a Send has happened *)
  }.

  Definition updI {A} (f : I -> A) (k : I) (v : A) : I -> A :=
    fun x => if I_dec x k then v else f x.
  Definition updC {A} (f : C -> A) (k : C) (v : A) : C -> A :=
    fun x => if C_dec x k then v else f x.

  Definition init (p : program) : state :=
    mkS (body p) (root p) None (fun _ => false).

  (* instance i executes its next event e (rest r), if enabled *)
  Definition exec (s : state) (i : I) (e : ev) (r : list ev) : option state :=
    match e with
    | Acc _ _ _ => Some (mkS (updI (pc s) i r) (started s) (holder s) (sent s))
    | Acq =>
        match holder s with
        | None => Some (mkS (updI (pc s) i r) (started s) (Some i) (sent s))
        | Some _ => None
        end
    | Rel =>
        match holder s with
        | Some j =>
            if I_dec j i
            then Some (mkS (updI (pc s) i r) (started s) None (sent s))
            else None
        | None => None
        end
    | Spawn j =>
        Some (mkS (updI (pc s) i r) (updI (started s) j true) (holder s) (sent s))
    | Send c =>
        Some (mkS (updI (pc s) i r) (started s) (holder s) (updC (sent s) c true))
    | Recv c =>
        if sent s c
        then Some (mkS (updI (pc s) i r) (started s) (holder s) (sent s))
        else None
    end.

  Definition step (s : state) (i : I) : state :=
    if started s i then
      match pc s i with
      | [] => s
      | e :: r => match exec s i e r with Some s' => s' | None => s end
      end
    else s.

  Definition run (p : program) (sched : list I) : state :=
    fold_left step sched (init p).

  Lemma run_snoc p sched i : run p (sched ++ [i]) = step (run p sched) i.
  Proof. unfold run. rewrite fold_left_app. reflexivity. Qed.

  Definition race (s : state) : Prop :=
    exists i j f w1 t1 r1 w2 t2 r2,
      i <> j /\ started s i = true /\ started s j = true /\
      pc s i = Acc f w1 t1 :: r1 /\ pc s j = Acc f w2 t2 :: r2 /\
      (w1 || w2) = true.

  Definition no_race (s : state) : Prop := ~ race s.

  Set Implicit Arguments.
  Record inv (p : program) (s : state) : Prop := mkInv {
    inv_pre : forall i, exists pre, body p i = pre ++ pc s i;
    inv_mutex : forall i pre,
        body p i = pre ++ pc s i -> held pre = true -> holder s = Some i;
    inv_started : forall j,
        started s j = true ->
        root p j = true \/
        exists i pre, body p i = pre ++ pc s i /\ In (Spawn j) pre;
    inv_sent : forall c,
        sent s c = true ->
        exists i pre, body p i = pre ++ pc s i /\ In (Send c) pre;
    inv_recv : forall i pre c,
        body p i = pre ++ pc s i -> In (Recv c) pre -> sent s c = true
  }.
  Unset Implicit Arguments.

  Lemma inv_init p : inv p (init p).
  Proof.
    constructor; simpl.
    - intro i. exists []. reflexivity.
    - intros i pre Hb Hh.
      assert (pre = []) as ->.
      { apply (app_inv_tail (body p i)). symmetry. exact Hb. }
      discriminate Hh.
    - intros j Hj. left. exact Hj.
    - intros c Hc. discriminate Hc.
    - intros i pre c Hb Hin.
      assert (pre = []) as ->.
      { apply (app_inv_tail (body p i)). symmetry. exact Hb. }
      destruct Hin.
  Qed.

  (* positions after instance i consumed e *)
  Lemma pos_upd p (pcs : I -> list ev) i pre e r :
    body p i = pre ++ e :: r ->
    forall i0 pre0,
      body p i0 = pre0 ++ updI pcs i r i0 ->
      (i0 = i /\ pre0 = pre ++ [e]) \/ (i0 <> i /\ body p i0 = pre0 ++ pcs i0).
  Proof.
    intros Hb i0 pre0 H0. unfold updI in H0.
    destruct (I_dec i0 i) as [-> | Hne].
    - left. split; [reflexivity|].
      apply (app_inv_tail r). rewrite <- app_assoc. simpl.
      rewrite <- H0. exact Hb.
    - right. split; assumption.
  Qed.

  Lemma pos_keep p (pcs : I -> list ev) i pre e r :
    body p i = pre ++ e :: r ->
    forall i1 pre1,
      pcs i = e :: r ->
      body p i1 = pre1 ++ pcs i1 ->
      exists pre1', body p i1 = pre1' ++ updI pcs i r i1 /\
                    forall x, In x pre1 -> In x pre1'.
  Proof.
    intros Hb i1 pre1 Hpc H1. unfold updI.
    destruct (I_dec i1 i) as [-> | Hne].
    - rewrite Hpc in H1. exists (pre1 ++ [e]). split.
      + rewrite <- app_assoc. exact H1.
      + intros x Hx. apply in_or_app. left. exact Hx.
    - exists pre1. split; [exact H1 | auto].
  Qed.

  (* what executing e does, and when it is possible *)
  Lemma exec_spec s i e r s' :
    exec s i e r = Some s' ->
    pc s' = updI (pc s) i r /\
    (forall j, started s' j = true -> started s j = true \/ e = Spawn j) /\
    (forall c, sent s' c = true -> sent s c = true \/ e = Send c) /\
    (forall c, sent s c = true \/ e = Recv c -> sent s' c = true) /\
    holder s' = match e with Acq => Some i | Rel => None | _ => holder s end /\
    (e = Acq -> holder s = None) /\ (e = Rel -> holder s = Some i).
  Proof.
    intro H. destruct e as [f w t | | | j | c | c]; simpl in H;
      [ | destruct (holder s) | destruct (holder s) as [h|]; [destruct (I_dec h i)|]
      | | | destruct (sent s c) eqn:Hc ];
      inversion H; subst; simpl; repeat split; try (intros; discriminate); auto;
      try (intros c0 [H0 | H0]; [exact H0 | discriminate H0]).
    - intros j0. unfold updI. destruct (I_dec j0 j) as [-> | _]; auto.
    - intros c0. unfold updC. destruct (C_dec c0 c) as [-> | _]; auto.
    - intros c0 [H0 | H0]; [|discriminate H0]. unfold updC. destruct (C_dec c0 c); auto.
    - intros c0 [H0 | H0]; [exact H0 | congruence].
  Qed.

  Lemma exec_inv p s i e r s' :
    inv p s -> pc s i = e :: r -> exec s i e r = Some s' -> inv p s'.
  Proof.
    intros Hinv Hpc Hex.
    destruct (exec_spec s i e r s' Hex) as (Epc & Est & Ese & Erc & Eh & Eacq & Erel).
    destruct (inv_pre Hinv i) as [pre Hpre]. rewrite Hpc in Hpre.
    assert (Hpos := @pos_upd p (pc s) i pre e r Hpre).
    assert (Hkeep := fun i1 pre1 => @pos_keep p (pc s) i pre e r Hpre i1 pre1 Hpc).
    (* i is now just behind e *)
    assert (Hi : body p i = (pre ++ [e]) ++ updI (pc s) i r i).
    { unfold updI. destruct (I_dec i i); [|congruence]. rewrite <- app_assoc. exact Hpre. }
    assert (Hin : In e (pre ++ [e])) by (apply in_or_app; right; left; reflexivity).
    constructor; rewrite Epc.
    - intro i0. destruct (inv_pre Hinv i0) as [pre0 H0].
      destruct (Hkeep i0 pre0 H0) as [pre0' [H0' _]]. exists pre0'. exact H0'.
    - intros i0 pre0 H0 Hh. rewrite Eh. destruct (Hpos i0 pre0 H0) as [[-> ->] | [Hne H0']].
      + rewrite held_snoc in Hh.
        destruct e; simpl in Hh; try discriminate Hh; try reflexivity;
          apply (inv_mutex Hinv i pre); (rewrite Hpc; exact Hpre) || exact Hh.
      + assert (Hm := inv_mutex Hinv i0 pre0 H0' Hh).
        destruct e; try exact Hm; [rewrite Eacq in Hm | rewrite Erel in Hm]; congruence.
    - intros j Hj. destruct (Est j Hj) as [Hj' | ->]; [|right; exists i, (pre ++ [Spawn j]); auto].
      destruct (inv_started Hinv j Hj') as [Hr | (i1 & pre1 & H1 & Hin1)]; [left; exact Hr | right].
      destruct (Hkeep i1 pre1 H1) as (pre1' & H1' & Hsub). exists i1, pre1'. auto.
    - intros c Hc. destruct (Ese c Hc) as [Hc' | ->]; [|exists i, (pre ++ [Send c]); auto].
      destruct (inv_sent Hinv c Hc') as (i1 & pre1 & H1 & Hin1).
      destruct (Hkeep i1 pre1 H1) as (pre1' & H1' & Hsub). exists i1, pre1'. auto.
    - intros i0 pre0 c H0 Hc. apply Erc. destruct (Hpos i0 pre0 H0) as [[-> ->] | [Hne H0']].
      + apply in_app_or in Hc as [Hc | [<- | []]]; [left | right; reflexivity].
        apply (inv_recv Hinv i pre c); [rewrite Hpc; exact Hpre | exact Hc].
      + left. exact (inv_recv Hinv i0 pre0 c H0' Hc).
  Qed.

  Lemma step_inv p s i : inv p s -> inv p (step s i).
  Proof.
    intro Hinv. unfold step.
    destruct (started s i); [|exact Hinv].
    destruct (pc s i) as [|e r] eqn:Hpc; [exact Hinv|].
    destruct (exec s i e r) as [s'|] eqn:Hex; [|exact Hinv].
    eapply exec_inv; eauto.
  Qed.

  Lemma run_inv p sched : inv p (run p sched).
  Proof.
    induction sched as [|i sched IH] using rev_ind.
    - apply inv_init.
    - rewrite run_snoc. apply step_inv. exact IH.
  Qed.

  (* instance i is between an Acq and the matching Rel *)
  Definition inside (p : program) (s : state) (i : I) : Prop :=
    exists pre, body p i = pre ++ pc s i /\ held pre = true.

  Theorem mutual_exclusion p sched i j :
    inside p (run p sched) i -> inside p (run p sched) j -> i = j.
  Proof.
    intros [prei [Hi Hhi]] [prej [Hj Hhj]].
    assert (Hinv := run_inv p sched).
    assert (H1 := inv_mutex Hinv i prei Hi Hhi).
    assert (H2 := inv_mutex Hinv j prej Hj Hhj).
    congruence.
  Qed.

  Theorem holder_is_inside p sched i pre :
    body p i = pre ++ pc (run p sched) i -> held pre = true ->
    holder (run p sched) = Some i.
  Proof. intros. eapply inv_mutex; eauto using run_inv. Qed.

  (* at position [pre] of its body, instance i has not yet spawned j, and
     nobody else ever spawns j *)
  Definition spawn_excl (p : program) (i : I) (pre : list ev) (j : I) : Prop :=
    root p j = false /\
    (forall i', In (Spawn j) (body p i') -> i' = i) /\
    ~ In (Spawn j) pre.

  (* at position [pre_i] instance i is past a receive on a channel whose only
     sender is j, and j at position [pre_j] has not sent yet *)
  Definition recv_excl (p : program) (i : I) (pre_i : list ev) (j : I) (pre_j : list ev) : Prop :=
    exists c, In (Recv c) pre_i /\
              (forall i', In (Send c) (body p i') -> i' = j) /\
              ~ In (Send c) pre_j.

  Lemma started_not_spawn_excl p sched i pre j :
    let s := run p sched in
    body p i = pre ++ pc s i -> started s j = true -> ~ spawn_excl p i pre j.
  Proof.
    intros s Hi Hj [Hroot [Honly Hnot]]. subst s.
    destruct (inv_started (run_inv p sched) j Hj) as [Hr | [i' [pre' [Hb Hin]]]].
    - congruence.
    - assert (i' = i) as ->.
      { apply Honly. rewrite Hb. apply in_or_app. left. exact Hin. }
      assert (pre' = pre) as ->.
      { apply (app_inv_tail (pc (run p sched) i)). rewrite <- Hb. exact Hi. }
      exact (Hnot Hin).
  Qed.

  Lemma not_recv_excl p sched i pre_i j pre_j :
    let s := run p sched in
    body p i = pre_i ++ pc s i -> body p j = pre_j ++ pc s j ->
    ~ recv_excl p i pre_i j pre_j.
  Proof.
    intros s Hi Hj [c [Hrecv [Honly Hnot]]]. subst s.
    assert (Hs := inv_recv (run_inv p sched) i pre_i c Hi Hrecv).
    destruct (inv_sent (run_inv p sched) c Hs) as [i' [pre' [Hb Hin]]].
    assert (i' = j) as ->.
    { apply Honly. rewrite Hb. apply in_or_app. left. exact Hin. }
    assert (pre' = pre_j) as ->.
    { apply (app_inv_tail (pc (run p sched) j)). rewrite <- Hb. exact Hj. }
    exact (Hnot Hin).
  Qed.

  Theorem race_positions p sched i j pre_i pre_j :
    let s := run p sched in
    i <> j -> started s i = true -> started s j = true ->
    body p i = pre_i ++ pc s i -> body p j = pre_j ++ pc s j ->
    ~ (held pre_i = true /\ held pre_j = true) /\
    ~ spawn_excl p i pre_i j /\ ~ spawn_excl p j pre_j i /\
    ~ recv_excl p i pre_i j pre_j /\ ~ recv_excl p j pre_j i pre_i.
  Proof.
    intros s Hne Hsi Hsj Hi Hj. repeat split.
    - intros [H1 H2]. apply Hne, (mutual_exclusion p sched); [exists pre_i | exists pre_j]; auto.
    - exact (started_not_spawn_excl p sched i pre_i j Hi Hsj).
    - exact (started_not_spawn_excl p sched j pre_j i Hj Hsi).
    - exact (not_recv_excl p sched i pre_i j pre_j Hi Hj).
    - exact (not_recv_excl p sched j pre_j i pre_i Hj Hi).
  Qed.

  (* the discipline: every conflicting pair of positions of two different
     instances is both-locked, or ordered by a spawn / send-recv edge *)
  Definition disciplined (p : program) : Prop :=
    forall i j pre_i pre_j f w1 t1 r1 w2 t2 r2,
      i <> j ->
      body p i = pre_i ++ Acc f w1 t1 :: r1 ->
      body p j = pre_j ++ Acc f w2 t2 :: r2 ->
      (w1 || w2) = true ->
      (held pre_i = true /\ held pre_j = true) \/
      spawn_excl p i pre_i j \/ spawn_excl p j pre_j i \/
      recv_excl p i pre_i j pre_j \/ recv_excl p j pre_j i pre_i.

  Theorem lockset_hb_sound p :
    disciplined p -> forall sched, no_race (run p sched).
  Proof.
    intros Hd sched
           (i & j & f & w1 & t1 & r1 & w2 & t2 & r2 & Hne & Hsi & Hsj & Hpi & Hpj & Hw).
    destruct (inv_pre (run_inv p sched) i) as [pre_i Hi].
    destruct (inv_pre (run_inv p sched) j) as [pre_j Hj].
    destruct (race_positions p sched i j pre_i pre_j Hne Hsi Hsj Hi Hj) as (N1 & N2 & N3 & N4 & N5).
    rewrite Hpi in Hi. rewrite Hpj in Hj.
    destruct (Hd i j pre_i pre_j f w1 t1 r1 w2 t2 r2 Hne Hi Hj Hw)
      as [H | [H | [H | [H | H]]]]; tauto.
  Qed.

  (* a decidable witness check: instances i and j are in a race in state s *)
  Definition race_pair_b (s : state) (i j : I) : bool :=
    (if I_dec i j then false else true) && started s i && started s j &&
    match pc s i, pc s j with
    | Acc f1 w1 _ :: _, Acc f2 w2 _ :: _ => String.eqb f1 f2 && (w1 || w2)
    | _, _ => false
    end.

  Lemma race_pair_b_sound s i j : race_pair_b s i j = true -> race s.
  Proof.
    unfold race_pair_b. intro H.
    apply andb_prop in H. destruct H as [H H4].
    apply andb_prop in H. destruct H as [H H3].
    apply andb_prop in H. destruct H as [H1 H2].
    destruct (I_dec i j) as [|Hne]; [discriminate H1|].
    destruct (pc s i) as [|[f1 w1 t1| | | | |] r1] eqn:Ei; try discriminate H4.
    destruct (pc s j) as [|[f2 w2 t2| | | | |] r2] eqn:Ej; try discriminate H4.
    apply andb_prop in H4. destruct H4 as [Hf Hw].
    apply String.eqb_eq in Hf. subst f2.
    exists i, j, f1, w1, t1, r1, w2, t2, r2. repeat split; assumption.
  Qed.
End Sem.

(* PART 2: the loop / detached / scoped / external family *)

(* template events: [Spawn k] spawns closure k, [Send k] (only as an event of
   closure k itself) signals its completion, [Recv k] in a handler joins the
   instance of k spawned by the same handler invocation *)
Definition tev := event string string.

Record template := mkT {
  t_handlers : list (string * list tev);
  t_closures : list (string * list tev);
  t_externals : list (string * list tev)
}.

Fixpoint lookup (k : string) (l : list (string * list tev)) : list tev :=
  match l with
  | [] => []
  | (k', b) :: r => if String.eqb k k' then b else lookup k r
  end.

Lemma lookup_cases k l : lookup k l = [] \/ In (k, lookup k l) l.
Proof.
  induction l as [|[k' b] l IH]; simpl.
  - left. reflexivity.
  - destruct (String.eqb_spec k k') as [-> | Hne].
    + right. left. reflexivity.
    + destruct IH as [IH | IH]; [left | right; right]; exact IH.
Qed.

(* a check passed by every entry of a table, and by the empty body, is passed
   by whatever is looked up *)
Lemma lookup_forallb (Q : string * list tev -> bool) k l :
  forallb Q l = true -> Q (k, []) = true -> Q (k, lookup k l) = true.
Proof.
  intros H H0. destruct (lookup_cases k l) as [-> | Hin]; [exact H0|].
  rewrite forallb_forall in H. exact (H _ Hin).
Qed.

Inductive iid := Loop | Ext (n : nat) | Child (inv : nat) (k : string).
Definition chan := (nat * string)%type.

Definition iid_dec (a b : iid) : {a = b} + {a <> b}.
Proof. decide equality; [apply Nat.eq_dec | apply string_dec | apply Nat.eq_dec]. Defined.
Definition chan_dec (a b : chan) : {a = b} + {a <> b}.
Proof. decide equality; [apply string_dec | apply Nat.eq_dec]. Defined.

Definition cev := event iid chan.

Definition cev_dec (a b : cev) : {a = b} + {a <> b}.
Proof.
  decide equality; try apply string_dec; try apply bool_dec;
    try apply iid_dec; try apply chan_dec.
Defined.

(* events of handler invocation number n *)
Definition cv (n : nat) (e : tev) : cev :=
  match e with
  | Acc f w t => Acc f w t
  | Acq => Acq
  | Rel => Rel
  | Spawn k => Spawn (Child n k)
  | Send k => Send (n, k)
  | Recv k => Recv (n, k)
  end.

Fixpoint blocks (n : nat) (bs : list (list tev)) : list cev :=
  match bs with
  | [] => []
  | b :: r => map (cv n) b ++ blocks (S n) r
  end.

Definition hbody (tpl : template) (h : string) := lookup h (t_handlers tpl).
Definition cbody (tpl : template) (k : string) := lookup k (t_closures tpl).
Definition xbody (tpl : template) (x : string) := lookup x (t_externals tpl).

(* the concrete program for handler invocations hs and external tasks es *)
Definition inst (tpl : template) (hs : list string) (es : list (list string))
  : @program iid chan :=
  mkProg
    (fun i => match i with
              | Loop => blocks 0 (map (hbody tpl) hs)
              | Ext n => blocks 0 (map (xbody tpl) (nth n es []))
              | Child inv k => map (cv inv) (cbody tpl k)
              end)
    (fun i => match i with Child _ _ => false | _ => true end).

Record acc := mkAcc {
  a_f : string; a_w : bool; a_site : string;
  a_held : bool;               (* mutex held at the access *)
  a_open : list string         (* closures spawned and not yet joined *)
}.

Definition open_step (op : list string) (e : tev) : list string :=
  match e with
  | Spawn k => k :: op
  | Recv k => remove string_dec k op
  | _ => op
  end.
Definition open_from (op : list string) (l : list tev) : list string :=
  fold_left open_step l op.

Fixpoint annot (b : bool) (op : list string) (l : list tev) : list acc :=
  match l with
  | [] => []
  | e :: r =>
      let rest := annot (held_step b e) (open_step op e) r in
      match e with
      | Acc f w t => mkAcc f w t b op :: rest
      | _ => rest
      end
  end.

Definition accs (b : list tev) : list acc := annot false [] b.

Definition bad (a b : acc) : bool :=
  String.eqb (a_f a) (a_f b) && (a_w a || a_w b) && negb (a_held a && a_held b).

Definition triple := (string * string * string)%type.

Definition triple_dec (a b : triple) : {a = b} + {a <> b}.
Proof. repeat decide equality. Defined.

Definition bad_pairs (sel : acc -> acc -> bool) (A B : list acc) : list triple :=
  flat_map (fun a =>
    flat_map (fun b => if bad a b && sel a b then [(a_f a, a_site a, a_site b)] else []) B) A.

Definition all_pairs (_ _ : acc) : bool := true.

Definition is_send (k : string) (e : tev) : bool :=
  match e with Send c => String.eqb c k | _ => false end.
Definition is_recv (k : string) (e : tev) : bool :=
  match e with Recv c => String.eqb c k | _ => false end.

(* a closure is scoped iff it signals its own completion *)
Definition scoped (k : string) (cb : list tev) : bool := existsb (is_send k) cb.

Definition mem (k : string) (l : list string) : bool := existsb (String.eqb k) l.

Definition Hacc (tpl : template) : list acc := flat_map (fun hb => accs (snd hb)) (t_handlers tpl).
Definition Xacc (tpl : template) : list acc := flat_map (fun xb => accs (snd xb)) (t_externals tpl).

Definition closure_sel (kb : string * list tev) : acc -> acc -> bool :=
  if scoped (fst kb) (snd kb) then (fun _ b => mem (fst kb) (a_open b)) else all_pairs.

Definition races_raw (tpl : template) : list triple :=
  bad_pairs all_pairs (Hacc tpl) (Xacc tpl) ++
  bad_pairs all_pairs (Xacc tpl) (Xacc tpl) ++
  flat_map (fun kb =>
      bad_pairs all_pairs (accs (snd kb)) (Xacc tpl) ++
      flat_map (fun kb' => bad_pairs all_pairs (accs (snd kb)) (accs (snd kb'))) (t_closures tpl) ++
      bad_pairs (closure_sel kb) (accs (snd kb)) (Hacc tpl))
    (t_closures tpl).

(* the unprotected conflicting pairs (field, site, site) *)
Definition races (tpl : template) : list triple := nodup triple_dec (races_raw tpl).

Fixpoint lock_ok (b : bool) (l : list tev) : bool :=
  match l with
  | [] => negb b
  | Acq :: r => negb b && lock_ok true r
  | Rel :: r => b && lock_ok false r
  | _ :: r => lock_ok b r
  end.

(* no access after the completion signal *)
Fixpoint no_acc_after_send (seen : bool) (l : list tev) : bool :=
  match l with
  | [] => true
  | Send _ :: r => no_acc_after_send true r
  | Acc _ _ _ :: r => negb seen && no_acc_after_send seen r
  | _ :: r => no_acc_after_send seen r
  end.

Definition handler_ok (tpl : template) (b : list tev) : bool :=
  lock_ok false b &&
  forallb (fun e => match e with
                    | Send _ => false
                    | Spawn k => implb (scoped k (cbody tpl k)) (existsb (is_recv k) b)
                    | _ => true
                    end) b.

Definition closure_ok (k : string) (b : list tev) : bool :=
  lock_ok false b &&
  forallb (fun e => match e with
                    | Spawn _ | Recv _ => false
                    | Send c => String.eqb c k
                    | _ => true
                    end) b &&
  no_acc_after_send false b.

Definition external_ok (b : list tev) : bool :=
  lock_ok false b &&
  forallb (fun e => match e with
                    | Spawn _ | Send _ | Recv _ => false
                    | _ => true
                    end) b.

Definition wf_b (tpl : template) : bool :=
  forallb (fun hb => handler_ok tpl (snd hb)) (t_handlers tpl) &&
  forallb (fun kb => closure_ok (fst kb) (snd kb)) (t_closures tpl) &&
  forallb (fun xb => external_ok (snd xb)) (t_externals tpl).

Definition race_free_b (tpl : template) : bool :=
  wf_b tpl && match races tpl with [] => true | _ => false end.

Lemma held_from_map_cv n b l : held_from b (map (cv n) l) = held_from b l.
Proof.
  revert b. induction l as [|e l IH]; intro b; [reflexivity|].
  simpl. unfold held_from in *. simpl.
  replace (held_step b (cv n e)) with (held_step b e) by (destruct e; reflexivity).
  apply IH.
Qed.

Lemma lock_ok_held b l : lock_ok b l = true -> held_from b l = false.
Proof.
  revert b. induction l as [|e l IH]; intros b H; simpl in *.
  - destruct b; [discriminate H | reflexivity].
  - unfold held_from. simpl. fold (held_from (held_step b e) l).
    destruct e; simpl in *; try (apply IH; exact H).
    + apply andb_prop in H. destruct H as [_ H]. apply IH. exact H.
    + apply andb_prop in H. destruct H as [_ H]. apply IH. exact H.
Qed.

Lemma annot_pos l : forall b op pre f w t rest,
  l = pre ++ Acc f w t :: rest ->
  In (mkAcc f w t (held_from b pre) (open_from op pre)) (annot b op l).
Proof.
  induction l as [|e l IH]; intros b op pre f w t rest H.
  - destruct pre; discriminate H.
  - destruct pre as [|e' pre]; simpl in H; inversion H; subst.
    + simpl. left. reflexivity.
    + simpl. specialize (IH (held_step b e') (open_step op e') pre f w t rest eq_refl).
      unfold held_from, open_from in *. simpl.
      destruct e'; simpl; try right; exact IH.
Qed.

Lemma open_from_in k l : forall op,
  ~ In (Recv k) l -> (In k op \/ In (Spawn k) l) -> In k (open_from op l).
Proof.
  induction l as [|e l IH]; intros op Hn H.
  - destruct H as [H | []]. exact H.
  - unfold open_from. simpl. fold (open_from (open_step op e) l).
    apply IH.
    + intro Hin. apply Hn. right. exact Hin.
    + destruct H as [H | [H | H]].
      * left. destruct e; simpl; auto.
        apply in_in_remove; [|exact H].
        intro Heq. subst c. apply Hn. left. reflexivity.
      * subst e. left. left. reflexivity.
      * right. exact H.
Qed.

Lemma no_acc_after_send_pos l : forall seen pre f w t rest,
  no_acc_after_send seen l = true -> l = pre ++ Acc f w t :: rest ->
  seen = false /\ forall c, ~ In (Send c) pre.
Proof.
  induction l as [|e l IH]; intros seen pre f w t rest H E.
  - destruct pre; discriminate E.
  - destruct pre as [|e' pre]; simpl in E; inversion E; subst.
    + simpl in H. apply andb_prop in H. destruct H as [H _].
      split; [destruct seen; [discriminate H | reflexivity] | intros c []].
    + (* what is behind e' is checked with [seen] raised if e' is a Send *)
      assert (H' : no_acc_after_send (match e' with Send _ => true | _ => seen end)
                                     (pre ++ Acc f w t :: rest) = true)
        by (destruct e'; simpl in H; try exact H; apply andb_prop in H; apply H).
      destruct (IH _ _ _ _ _ _ H' eq_refl) as [Hs Hn].
      destruct e'; try discriminate Hs;
        (split; [exact Hs|]; intros c0 [Hc | Hc]; [discriminate Hc | exact (Hn c0 Hc)]).
Qed.

Lemma bad_pairs_in sel A B a b :
  In a A -> In b B -> bad a b = true -> sel a b = true ->
  In (a_f a, a_site a, a_site b) (bad_pairs sel A B).
Proof.
  intros Ha Hb Hbad Hsel. unfold bad_pairs.
  apply in_flat_map. exists a. split; [exact Ha|].
  apply in_flat_map. exists b. split; [exact Hb|].
  rewrite Hbad, Hsel. left. reflexivity.
Qed.

Lemma blocks_app n a b : blocks n (a ++ b) = blocks n a ++ blocks (n + List.length a) b.
Proof.
  revert n. induction a as [|x a IH]; intro n; simpl.
  - rewrite Nat.add_0_r. reflexivity.
  - rewrite IH. rewrite <- app_assoc. rewrite Nat.add_succ_r. reflexivity.
Qed.

(* where a position of a concatenation lies *)
Lemma app_eq_mid {A} (a b pre rest : list A) e :
  a ++ b = pre ++ e :: rest ->
  (exists r1, a = pre ++ e :: r1 /\ rest = r1 ++ b) \/
  (exists p2, pre = a ++ p2 /\ b = p2 ++ e :: rest).
Proof.
  revert pre. induction a as [|x a IH]; intros pre H; [right; exists pre; auto|].
  destruct pre as [|y pre]; simpl in H.
  - injection H as -> <-. left. exists a. auto.
  - injection H as -> H.
    destruct (IH pre H) as [(r1 & -> & ->) | (p2 & -> & ->)];
      [left; exists r1 | right; exists p2]; split; reflexivity.
Qed.

Lemma blocks_pos bs : forall n pre e rest,
  blocks n bs = pre ++ e :: rest ->
  exists bs1 b bs2 pre_b e0 rest_b,
    bs = bs1 ++ b :: bs2 /\ b = pre_b ++ e0 :: rest_b /\
    e = cv (n + List.length bs1) e0 /\
    pre = blocks n bs1 ++ map (cv (n + List.length bs1)) pre_b.
Proof.
  induction bs as [|b bs IH]; intros n pre e rest H; [destruct pre; discriminate H|].
  simpl in H. apply app_eq_mid in H as [(r1 & H1 & _) | (p2 & -> & H2)].
  - apply map_eq_app in H1 as (l1 & l2 & E1 & E2 & E3).
    apply map_eq_cons in E3 as (e0 & tl & E4 & E5 & E6).
    exists [], b, bs, l1, e0, tl. simpl. rewrite Nat.add_0_r.
    repeat split; [rewrite E1, E4; reflexivity | symmetry; exact E5 | symmetry; exact E2].
  - destruct (IH (S n) p2 e rest H2)
      as (bs1 & b' & bs2 & pre_b & e0 & rest_b & E1 & E2 & E3 & E4).
    exists (b :: bs1), b', bs2, pre_b, e0, rest_b.
    simpl. rewrite Nat.add_succ_r. simpl in E3, E4.
    repeat split; [rewrite E1; reflexivity | exact E2 | exact E3 |].
    rewrite E4, <- app_assoc. reflexivity.
Qed.

Lemma blocks_held bs : forall n,
  (forall b, In b bs -> lock_ok false b = true) -> held_from false (blocks n bs) = false.
Proof.
  induction bs as [|b bs IH]; intros n H; [reflexivity|].
  cbn [blocks]. rewrite (@held_from_app iid chan), held_from_map_cv.
  rewrite (lock_ok_held false b (H b (or_introl eq_refl))).
  apply IH. intros b' Hb'. apply H. right. exact Hb'.
Qed.

Lemma in_map_cv_spawn n inv k l :
  In (Spawn (Child inv k)) (map (cv n) l) -> inv = n /\ In (Spawn k) l.
Proof.
  intros (e & E & Hin)%in_map_iff. destruct e; try discriminate E. injection E as <- <-. auto.
Qed.

Lemma in_map_cv_recv n inv k l :
  In (Recv (inv, k)) (map (cv n) l) -> inv = n /\ In (Recv k) l.
Proof.
  intros (e & E & Hin)%in_map_iff. destruct e; try discriminate E. injection E as <- <-. auto.
Qed.

Lemma in_map_cv_send n inv k l :
  In (Send (inv, k)) (map (cv n) l) -> inv = n /\ In (Send k) l.
Proof.
  intros (e & E & Hin)%in_map_iff. destruct e; try discriminate E. injection E as <- <-. auto.
Qed.

Lemma blocks_in bs : forall n e,
  In e (blocks n bs) ->
  exists bs1 b bs2 e0, bs = bs1 ++ b :: bs2 /\ In e0 b /\ e = cv (n + List.length bs1) e0.
Proof.
  induction bs as [|b bs IH]; intros n e H; [destruct H|].
  simpl in H. apply in_app_or in H. destruct H as [H | H].
  - apply in_map_iff in H. destruct H as [e0 [E Hin]].
    exists [], b, bs, e0. simpl. rewrite Nat.add_0_r. auto.
  - destruct (IH (S n) e H) as (bs1 & b' & bs2 & e0 & E1 & E2 & E3).
    exists (b :: bs1), b', bs2, e0. simpl. rewrite Nat.add_succ_r.
    split; [rewrite E1; reflexivity | auto].
Qed.

Lemma blocks_in_intro n bs1 b bs2 e0 :
  In e0 b -> In (cv (n + List.length bs1) e0) (blocks n (bs1 ++ b :: bs2)).
Proof.
  intro H. rewrite blocks_app. apply in_or_app. right. simpl.
  apply in_or_app. left. apply in_map. exact H.
Qed.

Lemma blocks_map_in {A} (g : A -> list tev) xs n e :
  In e (blocks n (map g xs)) -> exists m x e0, In e0 (g x) /\ e = cv m e0.
Proof.
  intro H. destruct (blocks_in _ _ _ H) as (bs1 & b & bs2 & e0 & E1 & E2 & E3).
  assert (Hb : In b (map g xs)) by (rewrite E1; apply in_elt).
  apply in_map_iff in Hb as (x & <- & _). eauto.
Qed.

(* an access of a body found in a table is among the accesses the checker
   collects from that table *)
Lemma lookup_accs k (l : list (string * list tev)) pre f w t rest :
  lookup k l = pre ++ Acc f w t :: rest ->
  In (mkAcc f w t (held_from false pre) (open_from [] pre)) (flat_map (fun kb => accs (snd kb)) l).
Proof.
  intro E. destruct (lookup_cases k l) as [E0 | Hin]; [rewrite E0 in E; destruct pre; discriminate E|].
  apply in_flat_map. exists (k, lookup k l). split; [exact Hin|].
  exact (annot_pos _ false [] pre f w t rest E).
Qed.

Section Family.
  Variable tpl : template.
  Hypothesis Hwf : wf_b tpl = true.

  Lemma wf_handler h : handler_ok tpl (hbody tpl h) = true.
  Proof.
    unfold wf_b in Hwf. apply andb_prop in Hwf as [[H _]%andb_prop _].
    exact (lookup_forallb (fun hb => handler_ok tpl (snd hb)) h _ H eq_refl).
  Qed.

  Lemma wf_closure k : closure_ok k (cbody tpl k) = true.
  Proof.
    unfold wf_b in Hwf. apply andb_prop in Hwf as [[_ H]%andb_prop _].
    exact (lookup_forallb (fun kb => closure_ok (fst kb) (snd kb)) k _ H eq_refl).
  Qed.

  Lemma wf_external x : external_ok (xbody tpl x) = true.
  Proof.
    unfold wf_b in Hwf. apply andb_prop in Hwf as [_ H].
    exact (lookup_forallb (fun xb => external_ok (snd xb)) x _ H eq_refl).
  Qed.

  (* what well-formedness says of the single events of a body *)
  Lemma handler_event h e :
    In e (hbody tpl h) ->
    match e with
    | Send _ => False
    | Spawn k => scoped k (cbody tpl k) = true -> In (Recv k) (hbody tpl h)
    | _ => True
    end.
  Proof.
    intro H. assert (W := wf_handler h). unfold handler_ok in W.
    apply andb_prop in W as [_ W]. rewrite forallb_forall in W. specialize (W e H).
    destruct e as [| | | k | |]; try exact I; [|discriminate W].
    intro Hsc. rewrite Hsc in W. apply existsb_exists in W as (e1 & G1 & G2).
    destruct e1; try discriminate G2. apply String.eqb_eq in G2. subst. exact G1.
  Qed.

  Lemma closure_event k e :
    In e (cbody tpl k) ->
    match e with Spawn _ | Recv _ => False | Send c => c = k | _ => True end.
  Proof.
    intro H. assert (W := wf_closure k). unfold closure_ok in W.
    apply andb_prop in W as [[_ W]%andb_prop _]. rewrite forallb_forall in W. specialize (W e H).
    destruct e; try exact I; try discriminate W. apply String.eqb_eq. exact W.
  Qed.

  Lemma external_event x e :
    In e (xbody tpl x) -> match e with Spawn _ | Send _ | Recv _ => False | _ => True end.
  Proof.
    intro H. assert (W := wf_external x). unfold external_ok in W.
    apply andb_prop in W as [_ W]. rewrite forallb_forall in W. specialize (W e H).
    destruct e; try exact I; discriminate W.
  Qed.

  Lemma handler_lock_ok hs b : In b (map (hbody tpl) hs) -> lock_ok false b = true.
  Proof.
    intro H. apply in_map_iff in H. destruct H as [h [<- _]].
    assert (W := wf_handler h). unfold handler_ok in W.
    apply andb_prop in W. tauto.
  Qed.

  Lemma external_lock_ok xs b : In b (map (xbody tpl) xs) -> lock_ok false b = true.
  Proof.
    intro H. apply in_map_iff in H. destruct H as [x [<- _]].
    assert (W := wf_external x). unfold external_ok in W.
    apply andb_prop in W. tauto.
  Qed.

  Lemma view_blocks_acc bs n pre f w t rest :
    (forall b, In b bs -> lock_ok false b = true) ->
    blocks n bs = pre ++ Acc f w t :: rest ->
    exists bs1 b bs2 pre_b rest_b,
      bs = bs1 ++ b :: bs2 /\ b = pre_b ++ Acc f w t :: rest_b /\
      pre = blocks n bs1 ++ map (cv (n + List.length bs1)) pre_b /\
      held pre = held pre_b.
  Proof.
    intros Hok H.
    destruct (blocks_pos bs n pre _ rest H)
      as (bs1 & b & bs2 & pre_b & e0 & rest_b & E1 & E2 & E3 & E4).
    assert (e0 = Acc f w t) as ->.
    { destruct e0; simpl in E3; try discriminate E3. inversion E3; reflexivity. }
    exists bs1, b, bs2, pre_b, rest_b. repeat split; try assumption.
    rewrite E4. unfold held. rewrite (@held_from_app iid chan).
    rewrite blocks_held.
    - apply held_from_map_cv.
    - intros b' Hb'. apply Hok. rewrite E1. apply in_or_app. left. exact Hb'.
  Qed.

  Variable hs : list string.
  Variable es : list (list string).
  Notation P := (inst tpl hs es).

  (* what the checker knows about an access of the loop task *)
  Lemma view_loop pre f w t rest :
    body P Loop = pre ++ Acc f w t :: rest ->
    exists a, In a (Hacc tpl) /\ a_f a = f /\ a_w a = w /\ a_site a = t /\
              a_held a = held pre /\
              forall inv k, scoped k (cbody tpl k) = true ->
                            In (Spawn (Child inv k)) pre ->
                            ~ In (Recv (inv, k)) pre ->
                            In k (a_open a).
  Proof.
    simpl. intro H.
    destruct (view_blocks_acc _ _ _ _ _ _ _ (handler_lock_ok hs) H)
      as (bs1 & b & bs2 & pre_b & rest_b & E1 & E2 & E3 & E4).
    exists (mkAcc f w t (held_from false pre_b) (open_from [] pre_b)). simpl.
    assert (Hb : In b (map (hbody tpl) hs)) by (rewrite E1; apply in_elt).
    apply in_map_iff in Hb as (h & Hh & _).
    repeat split; try reflexivity.
    - apply (lookup_accs h _ pre_b f w t rest_b). rewrite <- E2. exact Hh.
    - symmetry. exact E4.
    - intros inv k Hsc Hsp Hnr. rewrite E3 in Hsp, Hnr.
      apply in_app_or in Hsp. destruct Hsp as [Hsp | Hsp].
      + (* spawned by an earlier, completed invocation: it has been joined *)
        exfalso.
        destruct (blocks_in _ _ _ Hsp) as (a1 & b' & a2 & e0 & F1 & F2 & F3).
        destruct e0; simpl in F3; try discriminate F3. inversion F3; subst inv i. clear F3.
        assert (Hb' : In b' (map (hbody tpl) hs))
          by (rewrite E1, F1; apply in_or_app; left; apply in_elt).
        apply in_map_iff in Hb' as (h' & <- & _).
        assert (G1 := handler_event h' _ F2 Hsc).
        apply Hnr. apply in_or_app. left. rewrite F1.
        exact (blocks_in_intro 0 a1 _ a2 (Recv k) G1).
      + apply in_map_cv_spawn in Hsp. destruct Hsp as [-> Hsp].
        apply open_from_in.
        * intro Hr. apply Hnr. apply in_or_app. right.
          apply (in_map (cv (0 + List.length bs1))) in Hr. exact Hr.
        * right. exact Hsp.
  Qed.

  Lemma view_ext n pre f w t rest :
    body P (Ext n) = pre ++ Acc f w t :: rest ->
    exists a, In a (Xacc tpl) /\ a_f a = f /\ a_w a = w /\ a_site a = t /\
              a_held a = held pre.
  Proof.
    simpl. intro H.
    destruct (view_blocks_acc _ _ _ _ _ _ _ (external_lock_ok (nth n es [])) H)
      as (bs1 & b & bs2 & pre_b & rest_b & E1 & E2 & E3 & E4).
    exists (mkAcc f w t (held_from false pre_b) (open_from [] pre_b)). simpl.
    assert (Hb : In b (map (xbody tpl) (nth n es []))) by (rewrite E1; apply in_elt).
    apply in_map_iff in Hb as (x & Hx & _).
    repeat split; try reflexivity.
    - apply (lookup_accs x _ pre_b f w t rest_b). rewrite <- E2. exact Hx.
    - symmetry. exact E4.
  Qed.

  Lemma view_child inv k pre f w t rest :
    body P (Child inv k) = pre ++ Acc f w t :: rest ->
    exists a, In a (accs (cbody tpl k)) /\ In (k, cbody tpl k) (t_closures tpl) /\
              a_f a = f /\ a_w a = w /\ a_site a = t /\ a_held a = held pre /\
              forall c, ~ In (Send c) pre.
  Proof.
    simpl. intro H.
    apply map_eq_app in H. destruct H as (l1 & l2 & E1 & E2 & E3).
    apply map_eq_cons in E3. destruct E3 as (e0 & tl & E4 & E5 & E6).
    assert (e0 = Acc f w t) as ->.
    { destruct e0; simpl in E5; try discriminate E5. inversion E5; reflexivity. }
    subst l2.
    exists (mkAcc f w t (held_from false l1) (open_from [] l1)). simpl.
    repeat split; try reflexivity.
    - unfold accs. apply annot_pos with (rest := tl). exact E1.
    - unfold cbody in *. destruct (lookup_cases k (t_closures tpl)) as [E | Hin].
      + rewrite E in E1. destruct l1; discriminate E1.
      + exact Hin.
    - rewrite <- E2. unfold held. symmetry. apply held_from_map_cv.
    - intros c Hc. rewrite <- E2 in Hc.
      apply in_map_iff in Hc. destruct Hc as [e [F1 F2]].
      destruct e; simpl in F1; try discriminate F1.
      assert (W := wf_closure k). unfold closure_ok in W.
      apply andb_prop in W. destruct W as [_ W].
      destruct (no_acc_after_send_pos _ _ _ _ _ _ _ W E1) as [_ Hn].
      exact (Hn _ F2).
  Qed.

  (* only the loop spawns; only the closure instance itself signals *)
  Lemma only_loop_spawns i' inv k :
    In (Spawn (Child inv k)) (body P i') -> i' = Loop.
  Proof.
    destruct i' as [|n|inv' k']; simpl; intro H; [reflexivity | exfalso | exfalso].
    - apply blocks_map_in in H as (m & x & e0 & Hin & E).
      destruct e0; try discriminate E. exact (external_event x _ Hin).
    - apply in_map_cv_spawn in H as [_ H]. exact (closure_event k' _ H).
  Qed.

  Lemma only_child_sends i' inv k :
    In (Send (inv, k)) (body P i') -> i' = Child inv k.
  Proof.
    destruct i' as [|n|inv' k']; simpl; intro H; [exfalso | exfalso |].
    - apply blocks_map_in in H as (m & h & e0 & Hin & E).
      destruct e0; try discriminate E. exact (handler_event h _ Hin).
    - apply blocks_map_in in H as (m & x & e0 & Hin & E).
      destruct e0; try discriminate E. exact (external_event x _ Hin).
    - apply in_map_cv_send in H as [-> H]. rewrite (closure_event k' _ H). reflexivity.
  Qed.

  Lemma bad_of a b f w1 w2 :
    a_f a = f -> a_f b = f -> a_w a = w1 -> a_w b = w2 -> (w1 || w2) = true ->
    ~ (a_held a = true /\ a_held b = true) -> bad a b = true.
  Proof.
    intros Fa Fb Wa Wb Hw Hn. unfold bad.
    rewrite Fa, Fb, Wa, Wb, Hw, String.eqb_refl. simpl.
    destruct (a_held a), (a_held b); try reflexivity. exfalso. apply Hn. split; reflexivity.
  Qed.

  Definition ordered (i j : iid) : Prop :=
    match i, j with
    | Loop, Ext _ => True
    | Ext _, Ext _ => True
    | Child _ _, _ => True
    | _, _ => False
    end.

  (* two accesses the checker has seen, on one field, not both read-only and
     not both under the lock, are a pair it lists *)
  Lemma conflict_listed sel A B a b f w1 t1 w2 t2 (hi hj : bool) :
    In a A -> a_f a = f -> a_w a = w1 -> a_site a = t1 -> a_held a = hi ->
    In b B -> a_f b = f -> a_w b = w2 -> a_site b = t2 -> a_held b = hj ->
    (w1 || w2) = true -> ~ (hi = true /\ hj = true) -> sel a b = true ->
    In (f, t1, t2) (bad_pairs sel A B).
  Proof.
    intros Ia <- <- <- <- Ib Fb <- <- <- Hw Hh Hs.
    apply bad_pairs_in; auto. apply (bad_of a b (a_f a) (a_w a) (a_w b)); auto.
  Qed.

  (* the part of [races_raw] that concerns closure k *)
  Lemma closure_pairs_listed k x :
    In (k, cbody tpl k) (t_closures tpl) ->
    In x (bad_pairs all_pairs (accs (cbody tpl k)) (Xacc tpl) ++
          flat_map (fun kb' => bad_pairs all_pairs (accs (cbody tpl k)) (accs (snd kb'))) (t_closures tpl) ++
          bad_pairs (closure_sel (k, cbody tpl k)) (accs (cbody tpl k)) (Hacc tpl)) ->
    In x (races_raw tpl).
  Proof.
    intros Ik Hx. unfold races_raw. apply in_or_app. right. apply in_or_app. right.
    apply in_flat_map. exists (k, cbody tpl k). split; [exact Ik | exact Hx].
  Qed.

  Lemma listed_ordered i j pre_i pre_j f w1 t1 r1 w2 t2 r2 :
    ordered i j ->
    body P i = pre_i ++ Acc f w1 t1 :: r1 ->
    body P j = pre_j ++ Acc f w2 t2 :: r2 ->
    (w1 || w2) = true ->
    ~ (held pre_i = true /\ held pre_j = true) ->
    ~ spawn_excl P j pre_j i ->
    ~ recv_excl P j pre_j i pre_i ->
    In (f, t1, t2) (races_raw tpl).
  Proof.
    intros Hord Hi Hj Hw Hheld Hsp Hrc.
    destruct i as [|n|inv k]; destruct j as [|n'|inv' k']; simpl in Hord; try contradiction.
    - (* Loop, Ext *)
      destruct (view_loop _ _ _ _ _ Hi) as (a & Ia & Fa & Wa & Sa & Ha & _).
      destruct (view_ext _ _ _ _ _ _ Hj) as (b & Ib & Fb & Wb & Sb & Hb).
      unfold races_raw. apply in_or_app. left. apply (conflict_listed _ _ _ a b f w1 t1 w2 t2 (held pre_i) (held pre_j)); try assumption; try reflexivity.
    - (* Ext, Ext *)
      destruct (view_ext _ _ _ _ _ _ Hi) as (a & Ia & Fa & Wa & Sa & Ha).
      destruct (view_ext _ _ _ _ _ _ Hj) as (b & Ib & Fb & Wb & Sb & Hb).
      unfold races_raw. apply in_or_app. right. apply in_or_app. left.
      apply (conflict_listed _ _ _ a b f w1 t1 w2 t2 (held pre_i) (held pre_j)); try assumption; try reflexivity.
    - (* Child, Loop *)
      destruct (view_child _ _ _ _ _ _ _ Hi) as (a & Ia & Ik & Fa & Wa & Sa & Ha & Hns).
      destruct (view_loop _ _ _ _ _ Hj) as (b & Ib & Fb & Wb & Sb & Hb & Hopen).
      apply (closure_pairs_listed k _ Ik). apply in_or_app. right. apply in_or_app. right.
      apply (conflict_listed _ _ _ a b f w1 t1 w2 t2 (held pre_i) (held pre_j)); try assumption; try reflexivity.
      unfold closure_sel. simpl. destruct (scoped k (cbody tpl k)) eqn:Hsc; [|reflexivity].
      unfold mem. apply existsb_exists. exists k. split; [|apply String.eqb_refl].
      apply (Hopen inv k Hsc).
      + destruct (in_dec cev_dec (Spawn (Child inv k)) pre_j) as [Hin | Hnin]; [exact Hin|].
        exfalso. apply Hsp. split; [reflexivity|]. split; [|exact Hnin].
        intros i' Hi'. exact (only_loop_spawns _ _ _ Hi').
      + intro Hin. apply Hrc. exists (inv, k). split; [exact Hin|]. split; [|apply Hns].
        intros i' Hi'. exact (only_child_sends _ _ _ Hi').
    - (* Child, Ext *)
      destruct (view_child _ _ _ _ _ _ _ Hi) as (a & Ia & Ik & Fa & Wa & Sa & Ha & _).
      destruct (view_ext _ _ _ _ _ _ Hj) as (b & Ib & Fb & Wb & Sb & Hb).
      apply (closure_pairs_listed k _ Ik). apply in_or_app. left.
      apply (conflict_listed _ _ _ a b f w1 t1 w2 t2 (held pre_i) (held pre_j)); try assumption; try reflexivity.
    - (* Child, Child *)
      destruct (view_child _ _ _ _ _ _ _ Hi) as (a & Ia & Ik & Fa & Wa & Sa & Ha & _).
      destruct (view_child _ _ _ _ _ _ _ Hj) as (b & Ib & Ik' & Fb & Wb & Sb & Hb & _).
      apply (closure_pairs_listed k _ Ik). apply in_or_app. right. apply in_or_app. left.
      apply in_flat_map. exists (k', cbody tpl k'). split; [exact Ik'|].
      apply (conflict_listed _ _ _ a b f w1 t1 w2 t2 (held pre_i) (held pre_j)); try assumption; try reflexivity.
  Qed.

  Lemma ordered_total i j : i <> j -> ordered i j \/ ordered j i.
  Proof.
    destruct i, j; simpl; intro H; tauto.
  Qed.

  (* every reachable data race, for every list of handler invocations, every
     set of external tasks and every schedule, is on a pair listed by the
     checker *)
  Theorem races_sound_sec sched i j f w1 t1 r1 w2 t2 r2 :
    let s := run iid_dec chan_dec P sched in
    i <> j -> started s i = true -> started s j = true ->
    pc s i = Acc f w1 t1 :: r1 -> pc s j = Acc f w2 t2 :: r2 ->
    (w1 || w2) = true ->
    In (f, t1, t2) (races tpl) \/ In (f, t2, t1) (races tpl).
  Proof.
    intros s Hne Hsi Hsj Hpi Hpj Hw. subst s.
    destruct (inv_pre (run_inv iid_dec chan_dec P sched) i) as [pre_i Hi].
    destruct (inv_pre (run_inv iid_dec chan_dec P sched) j) as [pre_j Hj].
    destruct (race_positions iid_dec chan_dec P sched i j pre_i pre_j Hne Hsi Hsj Hi Hj)
      as (N1 & N2 & N3 & N4 & N5).
    rewrite Hpi in Hi. rewrite Hpj in Hj. unfold races.
    destruct (ordered_total i j Hne) as [Ho | Ho].
    - left. apply nodup_In.
      apply (listed_ordered i j pre_i pre_j f w1 t1 r1 w2 t2 r2); assumption.
    - right. apply nodup_In.
      apply (listed_ordered j i pre_j pre_i f w2 t2 r2 w1 t1 r1); try assumption.
      + rewrite orb_comm. exact Hw.
      + tauto.
  Qed.
End Family.

Theorem races_sound tpl :
  wf_b tpl = true ->
  forall hs es sched i j f w1 t1 r1 w2 t2 r2,
    let s := run iid_dec chan_dec (inst tpl hs es) sched in
    i <> j -> started s i = true -> started s j = true ->
    pc s i = Acc f w1 t1 :: r1 -> pc s j = Acc f w2 t2 :: r2 ->
    (w1 || w2) = true ->
    In (f, t1, t2) (races tpl) \/ In (f, t2, t1) (races tpl).
Proof. intros Hwf hs es sched. apply races_sound_sec. exact Hwf. Qed.

Theorem race_free_b_sound tpl :
  race_free_b tpl = true ->
  forall hs es sched, no_race (run iid_dec chan_dec (inst tpl hs es) sched).
Proof.
  unfold race_free_b. intros H hs es sched.
  apply andb_prop in H. destruct H as [Hwf Hr].
  destruct (races tpl) as [|x l] eqn:E; [|discriminate Hr].
  intros (i & j & f & w1 & t1 & r1 & w2 & t2 & r2 & Hne & Hsi & Hsj & Hpi & Hpj & Hw).
  destruct (races_sound tpl Hwf hs es sched i j f w1 t1 r1 w2 t2 r2 Hne Hsi Hsj Hpi Hpj Hw)
    as [H | H]; rewrite E in H; destruct H.
Qed.

(* PART 3: from the translator's per-function table to a template *)

(* table entries: the function's own events and its calls of other table
   functions, in source order *)
Inductive tcall := Ev (e : tev) | Call (fn : string).
Definition table := list (string * list tcall).

Fixpoint tlookup (k : string) (t : table) : option (list tcall) :=
  match t with
  | [] => None
  | (k', b) :: r => if String.eqb k k' then Some b else tlookup k r
  end.

(* transitive inlining of calls; None = unknown callee or call depth > fuel *)
Fixpoint inline (fuel : nat) (t : table) (l : list tcall) {struct fuel} : option (list tev) :=
  match fuel with
  | 0 => None
  | S fuel' =>
      (fix go (l : list tcall) : option (list tev) :=
         match l with
         | [] => Some []
         | Ev e :: r => option_map (cons e) (go r)
         | Call f :: r =>
             match tlookup f t with
             | None => None
             | Some b =>
                 match inline fuel' t b, go r with
                 | Some x, Some y => Some (x ++ y)
                 | _, _ => None
                 end
             end
         end) l
  end.

(* a dispatcher contributes only its own events: what it calls are handlers
   of their own *)
Definition own (l : list tcall) : list tev :=
  flat_map (fun x => match x with Ev e => [e] | Call _ => [] end) l.

Fixpoint map_opt {A B} (f : A -> option B) (l : list A) : option (list B) :=
  match l with
  | [] => Some []
  | a :: r => match f a, map_opt f r with
              | Some b, Some bs => Some (b :: bs)
              | _, _ => None
              end
  end.

Definition inline_depth : nat := 24.

Definition entry (t : table) (n : string) : option (string * list tev) :=
  match tlookup n t with
  | None => None
  | Some b => option_map (fun l => (n, l)) (inline inline_depth t b)
  end.

Definition own_entry (t : table) (n : string) : option (string * list tev) :=
  option_map (fun b => (n, own b)) (tlookup n t).

(* a template that no checker accepts: used when the table is inconsistent *)
Definition bad_template : template := mkT [("?"%string, [Rel])] [] [].

Definition build (t : table) (dispatchers handlers closures externals : list string) : template :=
  match map_opt (own_entry t) dispatchers, map_opt (entry t) handlers,
        map_opt (entry t) closures, map_opt (entry t) externals with
  | Some d, Some h, Some c, Some x => mkT (d ++ h) c x
  | _, _, _, _ => bad_template
  end.

Lemma bad_template_rejected : wf_b bad_template = false.
Proof. reflexivity. Qed.

(* remove the accesses (field, site) listed in [l] *)
Definition prune_body (l : list (string * string)) (b : list tev) : list tev :=
  filter (fun e => match e with
                   | Acc f _ s => negb (existsb (fun p => String.eqb f (fst p) && String.eqb s (snd p)) l)
                   | _ => true
                   end) b.

Definition prune (l : list (string * string)) (tpl : template) : template :=
  let pr := map (fun nb => (fst nb, prune_body l (snd nb))) in
  mkT (pr (t_handlers tpl)) (pr (t_closures tpl)) (pr (t_externals tpl)).

Definition triple_eqb (a b : triple) : bool :=
  match a, b with
  | (f1, s1, t1), (f2, s2, t2) => String.eqb f1 f2 && String.eqb s1 s2 && String.eqb t1 t2
  end.

Definition incl_b (a b : list triple) : bool :=
  forallb (fun x => existsb (triple_eqb x) b) a.

Definition same_set_b (a b : list triple) : bool := incl_b a b && incl_b b a.

Lemma triple_eqb_eq a b : triple_eqb a b = true -> a = b.
Proof.
  destruct a as [[f1 s1] t1], b as [[f2 s2] t2]. simpl. intro H.
  apply andb_prop in H. destruct H as [H H3]. apply andb_prop in H. destruct H as [H1 H2].
  apply String.eqb_eq in H1, H2, H3. subst. reflexivity.
Qed.

Lemma incl_b_incl a b x : incl_b a b = true -> In x a -> In x b.
Proof.
  unfold incl_b. rewrite forallb_forall. intros H Hin.
  specialize (H x Hin). apply existsb_exists in H. destruct H as [y [Hy E]].
  apply triple_eqb_eq in E. subst y. exact Hy.
Qed.

(* every reachable race is on a pair of any list that covers the checker's *)
Theorem races_within tpl known :
  wf_b tpl = true -> same_set_b (races tpl) known = true ->
  forall hs es sched i j f w1 t1 r1 w2 t2 r2,
    let s := run iid_dec chan_dec (inst tpl hs es) sched in
    i <> j -> started s i = true -> started s j = true ->
    pc s i = Acc f w1 t1 :: r1 -> pc s j = Acc f w2 t2 :: r2 ->
    (w1 || w2) = true ->
    In (f, t1, t2) known \/ In (f, t2, t1) known.
Proof.
  intros Hwf Hk hs es sched i j f w1 t1 r1 w2 t2 r2 s Hne Hsi Hsj Hpi Hpj Hw.
  apply andb_prop in Hk as [Hk _].
  destruct (races_sound tpl Hwf hs es sched i j f w1 t1 r1 w2 t2 r2 Hne Hsi Hsj Hpi Hpj Hw);
    [left | right]; eapply incl_b_incl; eassumption.
Qed.

(* non-vacuity: the semantics does exhibit races, the checker finds them,
   and a disciplined template passes *)
Module Examples.
  Local Open Scope string_scope.

  (* a handler writes x without the lock; an external entry reads x *)
  Definition racy : template :=
    mkT [("h", [Acc "x" true "h"])] [] [("e", [Acq; Acc "x" false "e"; Rel])].

  Example racy_found : races racy = [("x", "h", "e")].
  Proof. reflexivity. Qed.

  Example racy_reachable :
    race (run iid_dec chan_dec (inst racy ["h"] [["e"]]) [Ext 0]).
  Proof.
    exists Loop, (Ext 0), "x", true, "h", [], false, "e", [Rel].
    repeat split; try reflexivity. discriminate.
  Qed.

  (* loop + detached closure + scoped closure + external, all disciplined:
     the detached closure only touches y under the lock; the scoped closure
     reads z unlocked, which is fine because the handler writes z only
     before the spawn and after the join *)
  Definition good : template :=
    mkT [("h1", [Acq; Acc "y" true "h1"; Rel; Spawn "d"]);
         ("h2", [Acc "z" true "h2"; Spawn "s"; Acc "w" true "h2"; Recv "s"; Acc "z" true "h2"])]
        [("d", [Acq; Acc "y" true "d"; Rel]);
         ("s", [Acc "z" false "s"; Send "s"])]
        [("e", [Acq; Acc "y" false "e"; Rel])].

  Example good_ok : race_free_b good = true.
  Proof. reflexivity. Qed.

  (* moving the handler's write of z in front of the join is detected *)
  Definition bad_join : template :=
    mkT [("h2", [Spawn "s"; Acc "z" true "h2"; Recv "s"])]
        [("s", [Acc "z" false "s"; Send "s"])] [].

  Example bad_join_found : races bad_join = [("z", "s", "h2")].
  Proof. reflexivity. Qed.

  Example bad_join_reachable :
    race (run iid_dec chan_dec (inst bad_join ["h2"] []) [Loop]).
  Proof.
    exists Loop, (Child 0 "s"), "z", true, "h2", [Recv (0, "s")], false, "s", [Send (0, "s")].
    repeat split; try reflexivity. discriminate.
  Qed.

  (* non-vacuity of the generic theorem: two tasks that write / read x
     inside lock regions form a disciplined program *)
  Definition two_lockers : @program bool unit :=
    mkProg (fun b : bool => if b then [Acq; Acc "x" true "a"; Rel]
                            else [Acq; Acc "x" false "b"; Rel])
           (fun _ => true).

  Lemma two_lockers_pos (l pre : list (event bool unit)) f w t r a :
    l = [Acq; a; Rel] -> l = (pre ++ Acc f w t :: r)%list -> pre = [Acq].
  Proof.
    intros -> H.
    destruct pre as [|e1 [|e2 [|e3 pre]]]; simpl in H; inversion H; subst; try reflexivity.
    destruct pre; discriminate.
  Qed.

  Example two_lockers_disciplined : disciplined two_lockers.
  Proof.
    intros i j pre_i pre_j f w1 t1 r1 w2 t2 r2 Hne Hi Hj Hw. left.
    assert (pre_i = [Acq]) as ->.
    { destruct i; simpl in Hi; eapply two_lockers_pos; eauto. }
    assert (pre_j = [Acq]) as ->.
    { destruct j; simpl in Hj; eapply two_lockers_pos; eauto. }
    split; reflexivity.
  Qed.

  Example two_lockers_no_race sched :
    no_race (run Bool.bool_dec (fun a b : unit => left (match a, b with tt, tt => eq_refl end))
                 two_lockers sched).
  Proof. apply lockset_hb_sound. exact two_lockers_disciplined. Qed.
End Examples.
