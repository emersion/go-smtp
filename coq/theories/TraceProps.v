(* Properties of event traces, stated directly over the event list, and the
   general lemmas deriving them from acceptance by the (strict) monitor.  With
   ConnProofs.serve_accepted_strict they hold for every trace of the server
   model. *)
From Smtp Require Import Bytes Reply Conn Order OrderStrict ConnProofs.

Fixpoint take_while {A} (q : A -> bool) (l : list A) : list A :=
  match l with
  | [] => []
  | x :: r => if q x then x :: take_while q r else []
  end.

Definition until {A} (p : A -> bool) (l : list A) : list A := take_while (fun x => negb (p x)) l.

(* the part of [l] after its last element satisfying [p] (all of [l] if there is none) *)
Definition since {A} (p : A -> bool) (l : list A) : list A := rev (until p (rev l)).

Definition count {A} (q : A -> bool) (l : list A) : nat := List.length (filter q l).

Lemma since_snoc {A} (p : A -> bool) l e :
  since p (l ++ [e]) = if p e then [] else since p l ++ [e].
Proof.
  unfold since, until. rewrite rev_app_distr. cbn. destruct (p e); cbn; reflexivity.
Qed.

Lemma since_nil {A} (p : A -> bool) : since p [] = [].
Proof. reflexivity. Qed.

Lemma until_split {A} (p : A -> bool) l :
  l = until p l \/ exists x rest, l = until p l ++ x :: rest /\ p x = true.
Proof.
  induction l as [|x l IH]; [left; reflexivity|].
  unfold until in *. cbn. destruct (p x) eqn:E; cbn.
  - right. exists x, l. split; [reflexivity|exact E].
  - destruct IH as [IH|(y & rest & IH & Hy)].
    + left. f_equal. exact IH.
    + right. exists y, rest. split; [f_equal; exact IH|exact Hy].
Qed.

Lemma until_no {A} (p : A -> bool) l x : In x (until p l) -> p x = false.
Proof.
  unfold until. induction l as [|y l IH]; cbn; [intros []|].
  destruct (p y) eqn:E; cbn; [intros []|]. intros [H|H]; [subst; exact E|apply IH, H].
Qed.

Lemma until_all {A} (p : A -> bool) l : (forall x, In x l -> p x = false) -> until p l = l.
Proof.
  unfold until. induction l as [|y l IH]; intros H; cbn; [reflexivity|].
  rewrite (H y (or_introl eq_refl)). cbn. f_equal. apply IH. intros x Hx. apply H. right. exact Hx.
Qed.

Lemma since_no {A} (p : A -> bool) l x : In x (since p l) -> p x = false.
Proof. unfold since. intros H. apply in_rev in H. apply until_no in H. exact H. Qed.

Lemma since_incl {A} (p : A -> bool) l x : In x (since p l) -> In x l.
Proof.
  unfold since, until. intros H. apply in_rev in H. apply in_rev. revert H.
  induction (rev l) as [|y r IH]; cbn; [tauto|]. destruct (negb (p y)); cbn; tauto.
Qed.

Definition scan_step {A} (p q : A -> bool) (b : bool) (e : A) : bool :=
  if p e then false else if q e then true else b.
Definition scann_step {A} (p q : A -> bool) (n : nat) (e : A) : nat :=
  if p e then 0 else if q e then S n else n.

Lemma existsb_since_snoc {A} (p q : A -> bool) l e :
  existsb q (since p (l ++ [e])) = scan_step p q (existsb q (since p l)) e.
Proof.
  rewrite since_snoc. unfold scan_step. destruct (p e); [reflexivity|].
  rewrite existsb_app. cbn. destruct (q e); [apply orb_true_r|rewrite !orb_false_r; reflexivity].
Qed.

Lemma count_since_snoc {A} (p q : A -> bool) l e :
  count q (since p (l ++ [e])) = scann_step p q (count q (since p l)) e.
Proof.
  rewrite since_snoc. unfold scann_step, count. destruct (p e); [reflexivity|].
  rewrite filter_app, app_length. cbn. destruct (q e); cbn; lia.
Qed.

Definition is_logout (e : event) : bool := match e with ELogout => true | _ => false end.
Definition is_tx_end (e : event) : bool := match e with EReset | ELogout => true | _ => false end.
Definition is_ns (e : event) : bool := match e with ENewSession _ _ _ => true | _ => false end.
Definition is_ns_ok (e : event) : bool := match e with ENewSession _ _ BNil => true | _ => false end.
Definition is_mail_ok (e : event) : bool := match e with EMail _ _ BNil => true | _ => false end.
Definition is_rcpt_ok (e : event) : bool := match e with ERcpt _ _ BNil => true | _ => false end.
Definition is_tls_ok (e : event) : bool := match e with ETlsStart true => true | _ => false end.
Definition is_cmd (e : event) : bool := match e with ECmd _ => true | _ => false end.
Definition is_close (e : event) : bool := match e with EClose => true | _ => false end.
Definition is_auth (e : event) : bool :=
  match e with EAuth _ _ | EAuthNext _ _ _ _ => true | _ => false end.
(* a backend callback that begins a new piece of work on the session *)
Definition is_callback (e : event) : bool :=
  match e with
  | ENewSession _ _ _ | EMail _ _ _ | ERcpt _ _ _ | EData _ _ _ _ | EBdatStart
  | EAuth _ _ | EAuthNext _ _ _ _ => true
  | _ => false
  end.
(* anything that is called on, or is about, a live session *)
Definition is_session_event (e : event) : bool :=
  match e with
  | EMail _ _ _ | ERcpt _ _ _ | EData _ _ _ _ | EBdatStart | EReset | ELogout
  | EAuth _ _ | EAuthNext _ _ _ _ | EAuthOk => true
  | _ => false
  end.
Definition is_panicking (e : event) : bool :=
  match e with EData _ _ _ p | EDelivery _ _ _ p => p | _ => false end.

Definition live (pre : list event) : bool := existsb is_ns_ok (since is_logout pre).
Definition tls_after (implicit : bool) (pre : list event) : bool := implicit || existsb is_tls_ok pre.

Section Mon.
Variable cfg : config.

Lemma run_split pre e post : forall s s',
  smon_run cfg s (pre ++ e :: post) = Some s' ->
  exists s1 s2, smon_run cfg s pre = Some s1 /\ smon_step cfg s1 e = Some s2
                /\ smon_run cfg s2 post = Some s'.
Proof.
  intros s s' H. rewrite smon_run_app in H.
  destruct (smon_run cfg s pre) as [s1|]; [|discriminate]. cbn in H.
  destruct (smon_step cfg s1 e) as [s2|] eqn:E; [|discriminate].
  exists s1, s2. repeat split; assumption.
Qed.

Lemma run_snoc pre e : forall s s',
  smon_run cfg s (pre ++ [e]) = Some s' ->
  exists s1, smon_run cfg s pre = Some s1 /\ smon_step cfg s1 e = Some s'.
Proof.
  intros s s' H. apply run_split in H as (s1 & s2 & H1 & H2 & H3). cbn in H3. inversion H3; subst.
  exists s1. split; assumption.
Qed.

Lemma guard_some b (m m' : mon) : guard b m = Some m' -> b = true /\ m' = m.
Proof. unfold guard. destruct b; intros H; inversion H; split; reflexivity. Qed.

Lemma step_inv s e s' :
  smon_step cfg s e = Some s' ->
  strict_bad (fst s) (snd s) e = false /\ mon_step cfg (fst s) e = Some (fst s')
  /\ snd s' = next_ml (fst s) (snd s) e.
Proof.
  unfold smon_step. destruct (strict_bad (fst s) (snd s) e); [discriminate|].
  destruct (mon_step cfg (fst s) e); [|discriminate]. intros H. inversion H. cbn. repeat split.
Qed.

(* step_inv in H, the three parts named *)
Ltac inv_step H :=
  let Hb := fresh "Hbad" in let Hs := fresh "Hstep" in let Hl := fresh "Hml" in
  apply step_inv in H as (Hb & Hs & Hl).

(* the step of the monitor is a guarded update, but for the marker, which it ignores *)
Ltac inv_guard H :=
  let G := fresh "G" in
  cbn [mon_step] in H; first [apply guard_some in H as [G H]|injection H as H; assert (G := I)].

Lemma closed_sticky_step s e s' :
  smon_step cfg s e = Some s' -> m_closed (fst s) = true -> m_closed (fst s') = true.
Proof.
  intros H Hc. inv_step H. destruct s as [m ml], s' as [m' ml']. cbn [fst snd] in *.
  destruct e; inv_guard Hstep; subst m'; try rewrite Hc in G; try discriminate; cbn; try assumption.
  reflexivity.
Qed.

Lemma closed_sticky l : forall s s',
  smon_run cfg s l = Some s' -> m_closed (fst s) = true -> m_closed (fst s') = true.
Proof.
  induction l as [|e l IH]; intros s s' H Hc; cbn in H.
  - inversion H; subst. exact Hc.
  - destruct (smon_step cfg s e) as [s1|] eqn:E; [|discriminate].
    eapply IH; [exact H|]. eapply closed_sticky_step; eassumption.
Qed.

Lemma step_fields s e s' :
  smon_step cfg s e = Some s' -> m_closed (fst s') = false ->
  m_closed (fst s) = false
  /\ m_session (fst s') = scan_step is_logout is_ns_ok (m_session (fst s)) e
  /\ m_from (fst s') = scan_step is_tx_end is_mail_ok (m_from (fst s)) e
  /\ m_nrcpt (fst s') = scann_step is_tx_end is_rcpt_ok (m_nrcpt (fst s)) e
  /\ m_tls (fst s') = m_tls (fst s) || is_tls_ok e.
Proof.
  intros H Hc.
  assert (Hc0 : m_closed (fst s) = false).
  { destruct (m_closed (fst s)) eqn:E; [|reflexivity].
    rewrite (closed_sticky_step _ _ _ H E) in Hc. discriminate. }
  split; [exact Hc0|].
  inv_step H. destruct s as [m ml], s' as [m' ml']. cbn [fst snd] in *.
  unfold scan_step, scann_step.
  destruct e; try (inv_guard Hstep; subst m'; cbn in *; rewrite ?orb_false_r).
  all: try (rewrite !andb_true_iff in G).
  all: try solve [repeat split].
  - rewrite !negb_true_iff in G. destruct G as [[_ Gs] _]. rewrite Gs. destruct r; repeat split.
  - destruct r; rewrite ?orb_true_r, ?orb_false_r; repeat split.
  - destruct G as [[_ Gs] _]. rewrite Gs. repeat split.
  - discriminate.
  - rewrite !negb_true_iff in G. destruct G as [[_ Gt] _].
    destruct ok; cbn; rewrite ?orb_true_r, ?orb_false_r; repeat split.
Qed.

Lemma run_init_fields tls0 pre : forall s,
  smon_run cfg (smon_init tls0) pre = Some s -> m_closed (fst s) = false ->
  m_session (fst s) = live pre
  /\ m_from (fst s) = existsb is_mail_ok (since is_tx_end pre)
  /\ m_nrcpt (fst s) = count is_rcpt_ok (since is_tx_end pre)
  /\ m_tls (fst s) = tls_after tls0 pre.
Proof.
  induction pre as [|e pre IH] using rev_ind; intros s H Hc.
  - inversion H; subst. unfold tls_after. cbn. rewrite orb_false_r. repeat split.
  - apply run_snoc in H as (s1 & H1 & H2).
    destruct (step_fields _ _ _ H2 Hc) as (Hc1 & Hs & Hf & Hn & Ht).
    destruct (IH _ H1 Hc1) as (IHs & IHf & IHn & IHt).
    unfold live, tls_after in *.
    rewrite !existsb_since_snoc, count_since_snoc, existsb_app, <- IHs, <- IHf, <- IHn.
    cbn [existsb]. rewrite orb_false_r, orb_assoc, <- IHt. repeat split; assumption.
Qed.

Definition accepted (tr : list event) : Prop :=
  smon_run cfg (smon_init (cf_implicit_tls cfg)) tr <> None.

Lemma accepted_at tr pre e post :
  accepted tr -> tr = pre ++ e :: post ->
  exists m ml m' s',
    smon_run cfg (smon_init (cf_implicit_tls cfg)) pre = Some (m, ml)
    /\ strict_bad m ml e = false /\ mon_step cfg m e = Some m'
    /\ smon_run cfg (m', next_ml m ml e) post = Some s'.
Proof.
  intros Ha ->. unfold accepted in Ha.
  destruct (smon_run cfg (smon_init (cf_implicit_tls cfg)) (pre ++ e :: post)) as [s'|] eqn:E;
    [|congruence].
  apply run_split in E as ([m ml] & [m' ml'] & H1 & H2 & H3).
  apply step_inv in H2 as (Hb & Hs & Hl). cbn [fst snd] in *. subst ml'. exists m, ml, m', s'. auto.
Qed.

Lemma until_inv (I : smon -> Prop) (p good : event -> bool) :
  (forall s e s', I s -> smon_step cfg s e = Some s' -> p e = false -> good e = true /\ I s') ->
  forall post s s', I s -> smon_run cfg s post = Some s' ->
  Forall (fun e => good e = true) (until p post).
Proof.
  intros Hstep. induction post as [|e post IH]; intros s s' HI H; [constructor|].
  unfold until in *. cbn in *.
  destruct (smon_step cfg s e) as [s1|] eqn:E; [|discriminate].
  destruct (p e) eqn:Ep; cbn; [constructor|].
  destruct (Hstep _ _ _ HI E Ep) as [Hg HI1].
  constructor; [exact Hg|]. eapply IH; eassumption.
Qed.

(* a guard is a conjunction of tests, some of them negated *)
Ltac split_G G := rewrite ?andb_true_iff, ?negb_true_iff in G.

Lemma count_pos_existsb {A} (q : A -> bool) l : (0 <? count q l)%nat = true -> existsb q l = true.
Proof.
  unfold count. induction l as [|x l IH]; cbn; [discriminate|].
  destruct (q x); cbn; [reflexivity|exact IH].
Qed.

(* (a) and (c): what has happened before each backend callback *)
Definition C03_order (tr : list event) : Prop :=
  forall pre e post, tr = pre ++ e :: post ->
    match e with
    | ENewSession _ t _ =>
        (* no other session is live; the TLS state shown is the current one *)
        live pre = false /\ t = tls_after (cf_implicit_tls cfg) pre
    | EMail _ _ _ =>
        (* a successful greeting, no Logout since *)
        live pre = true
    | ERcpt _ _ _ =>
        live pre = true /\ existsb is_mail_ok (since is_tx_end pre) = true
        /\ ((0 < cf_max_rcpt cfg)%N ->
            (N.of_nat (count is_rcpt_ok (since is_tx_end (pre ++ [e]))) <= cf_max_rcpt cfg)%N)
    | EData _ _ _ _ | EBdatStart =>
        live pre = true /\ existsb is_mail_ok (since is_tx_end pre) = true
        /\ existsb is_rcpt_ok (since is_tx_end pre) = true
    | _ => True
    end.

Lemma accepted_C03_order tr : accepted tr -> C03_order tr.
Proof.
  intros Ha pre e post Htr.
  destruct (accepted_at _ _ _ _ Ha Htr) as (m & ml & m' & s' & H1 & Hbad & Hstep & _).
  destruct e; try exact I; inv_guard Hstep; split_G G.
  - destruct G as [[Gc Gs] Gt].
    destruct (run_init_fields _ _ _ H1 Gc) as (Hs & _ & _ & Ht). cbn [fst] in *.
    split; [congruence|]. apply eqb_prop in Gt. congruence.
  - destruct G as [[Gc Gs] _].
    destruct (run_init_fields _ _ _ H1 Gc) as (Hs & _). cbn [fst] in *. congruence.
  - destruct G as [[[[Gc Gs] Gf] _] Gl].
    destruct (run_init_fields _ _ _ H1 Gc) as (Hs & Hf & Hn & _). cbn [fst] in *.
    split; [congruence|]. split; [congruence|]. intros Hmax.
    rewrite count_since_snoc, <- Hn. unfold scann_step. cbn [is_tx_end].
    apply orb_true_iff in Gl as [Gl|Gl]; [apply N.eqb_eq in Gl; lia|].
    apply N.ltb_lt in Gl. destruct r; cbn; lia.
  - destruct G as [[[[Gc Gs] Gf] Gn] _].
    destruct (run_init_fields _ _ _ H1 Gc) as (Hs & Hf & Hn & _). cbn [fst] in *.
    split; [congruence|]. split; [congruence|]. apply count_pos_existsb. congruence.
  - destruct G as [[[[[Gc Gs] Gf] Gn] _] _].
    destruct (run_init_fields _ _ _ H1 Gc) as (Hs & Hf & Hn & _). cbn [fst] in *.
    split; [congruence|]. split; [congruence|]. apply count_pos_existsb. congruence.
Qed.

(* (b): between the final outcome of DATA and the Reset (or Logout) that
   signals the end of the transaction, no callback begins, no further command
   is read and the connection is not closed *)
Definition quiet (e : event) : bool := negb (is_callback e) && negb (is_cmd e) && negb (is_close e).

Definition C03_end_signalled (tr : list event) : Prop :=
  forall pre g t r p post, tr = pre ++ EData g t r p :: post ->
    Forall (fun e => quiet e = true) (until is_tx_end post).

Lemma step_must_reset s e s' :
  (m_must_reset (fst s) = true /\ m_session (fst s) = true) ->
  smon_step cfg s e = Some s' -> is_tx_end e = false ->
  quiet e = true /\ (m_must_reset (fst s') = true /\ m_session (fst s') = true).
Proof.
  intros [Hm Hs] H Hp. inv_step H. destruct s as [m ml], s' as [m' ml']. cbn [fst snd] in *.
  destruct e; cbn in Hp; try discriminate; cbn in Hbad; rewrite ?Hm in Hbad; try discriminate;
    try (inv_guard Hstep; subst m'; split_G G); cbn; rewrite ?Hm, ?Hs; repeat split;
    try (exfalso; decompose [and] G; congruence); try assumption.
  - destruct ok; cbn; [reflexivity|exact Hm].
  - destruct ok; cbn; [reflexivity|exact Hs].
Qed.

Lemma accepted_C03_end_signalled tr : accepted tr -> C03_end_signalled tr.
Proof.
  intros Ha pre g t r p post Htr.
  destruct (accepted_at _ _ _ _ Ha Htr) as (m & ml & m' & s' & H1 & Hbad & Hstep & H3).
  eapply (until_inv (fun s => m_must_reset (fst s) = true /\ m_session (fst s) = true));
    [apply step_must_reset| |exact H3].
  inv_guard Hstep. subst m'. split_G G. cbn. split; [reflexivity|]. tauto.
Qed.

(* while a session is live no other session is created and the connection is
   not closed: the first boundary event after a successful NewSession is its
   Logout *)
Definition C08_live_until_logout (tr : list event) : Prop :=
  forall pre h t post, tr = pre ++ ENewSession h t BNil :: post ->
    Forall (fun e => negb (is_ns e) && negb (is_close e) = true) (until is_logout post).

(* after Logout nothing is called on the session (no second Logout either)
   until a new session has been created successfully *)
Definition C08_nothing_after_logout (tr : list event) : Prop :=
  forall pre post, tr = pre ++ ELogout :: post ->
    Forall (fun e => negb (is_session_event e) = true) (until is_ns_ok post).

(* after Close: no command, no reply, no session, no callback, no delivery *)
Definition after_close_ok (e : event) : bool :=
  match e with EClose | EPanic | EOutOfFuel => true | _ => false end.
Definition C08_nothing_after_close (tr : list event) : Prop :=
  forall pre post, tr = pre ++ EClose :: post ->
    Forall (fun e => after_close_ok e = true) post.

Definition C08_closed_logged_out (tr : list event) : Prop :=
  forall pre post, tr = pre ++ EClose :: post -> ~ In EClose pre -> live pre = false.

Lemma step_session_live s e s' :
  m_session (fst s) = true -> smon_step cfg s e = Some s' -> is_logout e = false ->
  negb (is_ns e) && negb (is_close e) = true /\ m_session (fst s') = true.
Proof.
  intros Hs H Hp. inv_step H. destruct s as [m ml], s' as [m' ml']. cbn [fst snd] in *.
  destruct e; cbn in Hp; try discriminate;
    try (inv_guard Hstep; subst m'; split_G G); cbn; rewrite ?Hs; repeat split;
    try (exfalso; decompose [and] G; congruence); try assumption.
  destruct ok; cbn; [reflexivity|exact Hs].
Qed.

Lemma accepted_C08_live_until_logout tr : accepted tr -> C08_live_until_logout tr.
Proof.
  intros Ha pre h t post Htr.
  destruct (accepted_at _ _ _ _ Ha Htr) as (m & ml & m' & s' & H1 & Hbad & Hstep & H3).
  eapply (until_inv (fun s => m_session (fst s) = true)); [apply step_session_live| |exact H3].
  inv_guard Hstep. subst m'. reflexivity.
Qed.

Lemma step_no_session s e s' :
  m_session (fst s) = false -> smon_step cfg s e = Some s' -> is_ns_ok e = false ->
  negb (is_session_event e) = true /\ m_session (fst s') = false.
Proof.
  intros Hs H Hp. inv_step H. destruct s as [m ml], s' as [m' ml']. cbn [fst snd] in *.
  destruct e; cbn in Hp;
    try (inv_guard Hstep; subst m'; split_G G); cbn; rewrite ?Hs; repeat split;
    try (exfalso; decompose [and] G; congruence); try assumption.
  destruct ok; cbn; [reflexivity|exact Hs].
Qed.

Lemma accepted_C08_nothing_after_logout tr : accepted tr -> C08_nothing_after_logout tr.
Proof.
  intros Ha pre post Htr.
  destruct (accepted_at _ _ _ _ Ha Htr) as (m & ml & m' & s' & H1 & Hbad & Hstep & H3).
  eapply (until_inv (fun s => m_session (fst s) = false)); [apply step_no_session| |exact H3].
  inv_guard Hstep. subst m'. reflexivity.
Qed.

Lemma step_closed s e s' :
  (m_closed (fst s) = true /\ m_running (fst s) = false) ->
  smon_step cfg s e = Some s' ->
  after_close_ok e = true /\ (m_closed (fst s') = true /\ m_running (fst s') = false).
Proof.
  intros [Hc Hr] H. inv_step H. destruct s as [m ml], s' as [m' ml']. cbn [fst snd] in *.
  destruct e;
    try (inv_guard Hstep; subst m'; split_G G); cbn; rewrite ?Hc, ?Hr; repeat split;
    try (exfalso; decompose [and] G; congruence); assumption.
Qed.

Lemma accepted_C08_nothing_after_close tr : accepted tr -> C08_nothing_after_close tr.
Proof.
  intros Ha pre post Htr.
  destruct (accepted_at _ _ _ _ Ha Htr) as (m & ml & m' & s' & H1 & Hbad & Hstep & H3).
  rewrite <- (until_all (fun _ => false) post) by reflexivity.
  eapply (until_inv (fun s => m_closed (fst s) = true /\ m_running (fst s) = false));
    [intros s e s1 HI H _; exact (step_closed s e s1 HI H)| |exact H3].
  inv_guard Hstep. subst m'. split_G G. cbn. tauto.
Qed.

Lemma closed_has_close l : forall s s',
  smon_run cfg s l = Some s' -> m_closed (fst s) = false -> m_closed (fst s') = true -> In EClose l.
Proof.
  induction l as [|e l IH]; intros s s' H Hc Hc'; cbn in H.
  - inversion H; subst. congruence.
  - destruct (smon_step cfg s e) as [s1|] eqn:E; [|discriminate].
    destruct (m_closed (fst s1)) eqn:Hc1.
    + left. inv_step E. destruct s as [m ml], s1 as [m1 ml1]. cbn [fst snd] in *.
      destruct e; try reflexivity; exfalso;
        inv_guard Hstep; subst m1; cbn in Hc1; try destruct ok; cbn in Hc1; congruence.
    + right. eapply IH; eassumption.
Qed.

Lemma accepted_C08_closed_logged_out tr : accepted tr -> C08_closed_logged_out tr.
Proof.
  intros Ha pre post Htr Hnc.
  destruct (accepted_at _ _ _ _ Ha Htr) as (m & ml & m' & s' & H1 & Hbad & Hstep & H3).
  assert (Hc : m_closed m = false).
  { destruct (m_closed m) eqn:E; [|reflexivity]. exfalso. apply Hnc.
    eapply closed_has_close; [exact H1|reflexivity|exact E]. }
  destruct (run_init_fields _ _ _ H1 Hc) as (Hs & _). cbn [fst] in Hs.
  inv_guard Hstep. split_G G. destruct G as [G _]. congruence.
Qed.

(* on a trace that reaches the closing of the connection, every successfully
   created session gets exactly one Logout: it comes before any other session
   is created and before the connection is closed, and nothing is called on
   the session afterwards *)
Definition C08_exactly_one_logout (tr : list event) : Prop :=
  forall pre h t post, tr = pre ++ ENewSession h t BNil :: post -> In EClose post ->
    exists mid rest,
      post = mid ++ ELogout :: rest
      /\ Forall (fun e => negb (is_logout e) && negb (is_ns e) && negb (is_close e) = true) mid
      /\ Forall (fun e => negb (is_session_event e) = true) (until is_ns_ok rest).

Lemma C08_exactly_one_from tr :
  C08_live_until_logout tr -> C08_nothing_after_logout tr -> C08_exactly_one_logout tr.
Proof.
  intros H1 H2 pre h t post Htr Hcl.
  specialize (H1 _ _ _ _ Htr).
  destruct (until_split is_logout post) as [Hu|(x & rest & Hu & Hx)].
  - exfalso. rewrite <- Hu in H1. rewrite Forall_forall in H1. specialize (H1 _ Hcl). discriminate.
  - destruct x; try discriminate. exists (until is_logout post), rest. split; [exact Hu|]. split.
    + rewrite Forall_forall in *. intros e He. rewrite (until_no _ _ _ He). cbn. apply H1, He.
    + apply (H2 (pre ++ ENewSession h t BNil :: until is_logout post) rest).
      rewrite Htr, Hu at 1. rewrite <- app_assoc. reflexivity.
Qed.

(* the SASL machinery is reached only under TLS (unless insecure authentication
   is allowed), and only with a live session *)
Definition C09_auth_guarded (tr : list event) : Prop :=
  forall pre e post, tr = pre ++ e :: post -> is_auth e = true \/ e = EAuthOk ->
    live pre = true
    /\ (cf_insecure_auth cfg = false -> is_auth e = true -> tls_after (cf_implicit_tls cfg) pre = true).

(* once an exchange has succeeded, no further exchange begins and none
   succeeds until the session is logged out *)
Definition is_authok (e : event) : bool := match e with EAuthOk => true | _ => false end.
Definition C09_at_most_once (tr : list event) : Prop :=
  forall pre post, tr = pre ++ EAuthOk :: post ->
    Forall (fun e => negb (is_auth e) && negb (is_authok e) = true) (until is_logout post).

Lemma accepted_C09_auth_guarded tr : accepted tr -> C09_auth_guarded tr.
Proof.
  intros Ha pre e post Htr He.
  destruct (accepted_at _ _ _ _ Ha Htr) as (m & ml & m' & s' & H1 & Hbad & Hstep & _).
  destruct He as [He| ->]; [destruct e; try discriminate|]; inv_guard Hstep; split_G G.
  1,2: destruct G as [[[Gc Gs] _] Gt].
  3: destruct G as [Gc Gs].
  all: destruct (run_init_fields _ _ _ H1 Gc) as (Hs & _ & _ & Ht); cbn [fst] in *.
  all: split; [congruence|]; intros Hi Hx; try discriminate.
  all: rewrite Hi, orb_false_r in Gt; congruence.
Qed.

Lemma step_authed s e s' :
  (m_authed (fst s) = true /\ m_session (fst s) = true) ->
  smon_step cfg s e = Some s' -> is_logout e = false ->
  negb (is_auth e) && negb (is_authok e) = true
  /\ (m_authed (fst s') = true /\ m_session (fst s') = true).
Proof.
  intros [Hm Hs] H Hp. inv_step H. destruct s as [m ml], s' as [m' ml']. cbn [fst snd] in *.
  destruct e; cbn in Hp; try discriminate; cbn in Hbad; rewrite ?Hm in Hbad; try discriminate;
    try (inv_guard Hstep; subst m'; split_G G); cbn; rewrite ?Hm, ?Hs; repeat split;
    try (exfalso; decompose [and] G; congruence); try assumption.
  all: destruct ok; cbn; first [reflexivity|assumption].
Qed.

Lemma accepted_C09_at_most_once tr : accepted tr -> C09_at_most_once tr.
Proof.
  intros Ha pre post Htr.
  destruct (accepted_at _ _ _ _ Ha Htr) as (m & ml & m' & s' & H1 & Hbad & Hstep & H3).
  eapply (until_inv (fun s => m_authed (fst s) = true /\ m_session (fst s) = true));
    [apply step_authed| |exact H3].
  inv_guard Hstep. subst m'. split_G G. cbn. tauto.
Qed.

Definition C10_starttls_guarded (tr : list event) : Prop :=
  forall pre ok post, tr = pre ++ ETlsStart ok :: post ->
    tls_after (cf_implicit_tls cfg) pre = false /\ cf_tls_config cfg = true.

(* after a successful handshake, a session that was live gets its Logout
   before anything else is called on it or a new one is made, before the next
   command is read and before the connection is closed; it gets no Reset *)
Definition is_reset (e : event) : bool := match e with EReset => true | _ => false end.
Definition C10_logout_after_starttls (tr : list event) : Prop :=
  forall pre post, tr = pre ++ ETlsStart true :: post -> live pre = true ->
    Forall (fun e => negb (is_cmd e) && negb (is_callback e) && negb (is_reset e)
                     && negb (is_close e) = true) (until is_logout post).

Lemma accepted_C10_starttls_guarded tr : accepted tr -> C10_starttls_guarded tr.
Proof.
  intros Ha pre ok post Htr.
  destruct (accepted_at _ _ _ _ Ha Htr) as (m & ml & m' & s' & H1 & Hbad & Hstep & _).
  inv_guard Hstep. split_G G. destruct G as [[Gc Gt] Gcfg].
  destruct (run_init_fields _ _ _ H1 Gc) as (_ & _ & _ & Ht). cbn [fst] in *.
  split; congruence.
Qed.

Lemma step_must_logout s e s' :
  (snd s = true /\ m_session (fst s) = true) ->
  smon_step cfg s e = Some s' -> is_logout e = false ->
  negb (is_cmd e) && negb (is_callback e) && negb (is_reset e) && negb (is_close e) = true
  /\ (snd s' = true /\ m_session (fst s') = true).
Proof.
  intros [Hm Hs] H Hp. inv_step H. destruct s as [m ml], s' as [m' ml']. cbn [fst snd] in *. subst ml.
  destruct e; cbn in Hp; try discriminate; cbn in Hbad; rewrite ?orb_true_r in Hbad; try discriminate;
    try (inv_guard Hstep; subst m'; split_G G); cbn in *; rewrite ?Hs; repeat split;
    try assumption; try (exfalso; decompose [and] G; congruence).
  - destruct ok; [rewrite Hml; exact Hs|exact Hml].
  - destruct ok; cbn; first [reflexivity|assumption].
Qed.

Lemma accepted_C10_logout_after_starttls tr : accepted tr -> C10_logout_after_starttls tr.
Proof.
  intros Ha pre post Htr Hlive.
  destruct (accepted_at _ _ _ _ Ha Htr) as (m & ml & m' & s' & H1 & Hbad & Hstep & H3).
  eapply (until_inv (fun s => snd s = true /\ m_session (fst s) = true));
    [apply step_must_logout| |exact H3].
  inv_guard Hstep. subst m'. split_G G. destruct G as [[Gc _] _].
  destruct (run_init_fields _ _ _ H1 Gc) as (Hs & _). cbn [fst] in *.
  cbn. split; congruence.
Qed.

(* a panic is recovered only if, while the current command was being
   handled, a backend delivery panicked *)
Definition C19_panic_only_from_backend (tr : list event) : Prop :=
  forall pre post, tr = pre ++ EPanic :: post -> existsb is_panicking (since is_cmd pre) = true.

Lemma run_panic_ok tls0 l : forall s',
  smon_run cfg (smon_init tls0) l = Some s' -> m_panic_ok (fst s') = true ->
  existsb is_panicking (since is_cmd l) = true.
Proof.
  induction l as [|e l IH] using rev_ind; intros s' H Hp.
  - inversion H; subst. discriminate Hp.
  - apply run_snoc in H as (s1 & H1 & H2). rewrite existsb_since_snoc.
    specialize (IH _ H1). unfold scan_step.
    inv_step H2. destruct s1 as [m1 ml1], s' as [m' ml']. cbn [fst snd] in *.
    destruct e; inv_guard Hstep; subst m'; cbn in *; try discriminate; try (apply IH, Hp).
    + rewrite Hp. reflexivity.
    + destruct panic; [reflexivity|]. rewrite orb_false_r in Hp. apply IH, Hp.
    + destruct ok; cbn in Hp; apply IH, Hp.
Qed.

Lemma accepted_C19_panic_only_from_backend tr : accepted tr -> C19_panic_only_from_backend tr.
Proof.
  intros Ha pre post Htr.
  destruct (accepted_at _ _ _ _ Ha Htr) as (m & ml & m' & s' & H1 & Hbad & Hstep & _).
  inv_guard Hstep. exact (run_panic_ok _ _ _ H1 G).
Qed.

Definition C19_no_panic (tr : list event) : Prop := ~ In EPanic tr.

Lemma C19_no_panic_from tr :
  C19_panic_only_from_backend tr -> (forall e, In e tr -> is_panicking e = false) -> C19_no_panic tr.
Proof.
  intros H Hn Hin. apply in_split in Hin as (pre & post & Htr).
  specialize (H _ _ Htr). apply existsb_exists in H as (x & Hx & Hp).
  rewrite Hn in Hp; [discriminate|]. rewrite Htr. apply in_or_app. left. exact (since_incl _ _ _ Hx).
Qed.

End Mon.

Lemma in_post_of_last {A} (tr tr' pre post : list A) (x e : A) :
  tr = tr' ++ [x] -> tr = pre ++ e :: post -> e <> x -> In x post.
Proof.
  intros -> H Hne. induction post as [|y post _] using rev_ind.
  - apply app_inj_tail in H as [_ H]. congruence.
  - change (pre ++ e :: post ++ [y]) with (pre ++ (e :: post) ++ [y]) in H.
    rewrite app_assoc in H. apply app_inj_tail in H as [_ ->]. apply in_elt.
Qed.

(* on a trace that reaches the closing of the connection, the end of the
   transaction is signalled after every DATA outcome *)
Definition C03_end_signalled_complete (tr : list event) : Prop :=
  forall pre g t r p post, tr = pre ++ EData g t r p :: post ->
    exists mid e rest, post = mid ++ e :: rest /\ is_tx_end e = true
                       /\ Forall (fun e => quiet e = true) mid.

Lemma C03_end_signalled_complete_from tr tr' :
  C03_end_signalled tr -> tr = tr' ++ [EClose] -> C03_end_signalled_complete tr.
Proof.
  intros H Hend pre g t r p post Htr. specialize (H _ _ _ _ _ _ Htr).
  destruct (until_split is_tx_end post) as [Hu|(x & rest & Hu & Hx)].
  - exfalso. rewrite <- Hu in H. rewrite Forall_forall in H.
    assert (Hin : In EClose post) by (eapply in_post_of_last; [exact Hend|exact Htr|discriminate]).
    specialize (H _ Hin). discriminate.
  - exists (until is_tx_end post), x, rest. repeat split; assumption.
Qed.

(* with ConnProofs.serve_accepted_strict each accepted_* lemma above holds of every trace of
   the model; this instance is used beyond the statement of the property *)
Theorem serve_C08_nothing_after_close fuel cfg be phases :
  C08_nothing_after_close (serve fuel cfg be phases).
Proof. apply (accepted_C08_nothing_after_close cfg), serve_accepted_strict. Qed.
