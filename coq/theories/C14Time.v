(* C14: numbers and instants.  strconv.ParseUint inverts fmt %d; the proleptic
   Gregorian day arithmetic of Client.v (civil_from_days, Time.Format) and of
   Rfc3339.v (days_from_civil, time.Parse) are inverse for EVERY day number -
   both are Hinnant's algorithms, and each step is a comparison of floor
   divisions by constants, which lia decides once the quotients are named;
   time.appendInt writes a number below 10^w as exactly w digits with that
   value. *)
From Smtp Require Import Bytes Utf8Proofs Rfc3339 ReplyProofs.
From Smtp Require Client.
From Coq Require Import Lia ZifyBool ZifyN ZifyNat DecimalN DecimalFacts.
Local Open Scope char_scope.

Theorem parse_uint_dec_of_N bits n :
  (n < 2 ^ bits)%N -> parse_uint bits (dec_of_N n) = POk n.
Proof.
  intros H. unfold parse_uint.
  destruct (dec_of_N n) eqn:E; [exfalso; exact (dec_of_N_nonempty n E)|].
  rewrite <- E, dec_of_N_digits, dec_value_dec_of_N.
  apply N.ltb_lt in H. rewrite H. reflexivity.
Qed.

Local Open Scope Z_scope.

(* An era is 400 years from 1 March of a year divisible by 400, 146097 days.
   From the day of the era, civil_from_days takes the year of the era and the
   day of that year, both counted from 1 March: the year has 365 days, and a
   366th exactly when the civil year that begins in it is a leap year. *)
Lemma year_of_era doe :
  0 <= doe < 146097 ->
  let yoe := (doe - doe / 1460 + doe / 36524 - doe / 146096) / 365 in
  let doy := doe - (365 * yoe + yoe / 4 - yoe / 100) in
  0 <= yoe < 400 /\ 0 <= doy <= 365
  /\ (doy = 365 -> (yoe + 1) mod 4 = 0 /\ ((yoe + 1) mod 100 <> 0 \/ yoe = 399)).
Proof.
  (* one conjunct at a time: together they make lia's certificate five times as large *)
  intros H yoe doy. subst doy yoe. split; [|split]; Z.div_mod_to_equations; lia.
Qed.

(* From the day of the year, the month counted from March (mp) and the day of
   the month: the months have 31 30 31 30 31 31 30 31 30 31 31 days, and
   February, the last, what is left: 28, or 29 in a year of 366 days. *)
Lemma month_of_year doy :
  0 <= doy <= 365 ->
  let mp := (5 * doy + 2) / 153 in
  let d := doy - (153 * mp + 2) / 5 + 1 in
  0 <= mp <= 11 /\ (mp < 10 <-> doy < 306) /\ 1 <= d <= 31
  /\ (mp = 1 \/ mp = 3 \/ mp = 6 \/ mp = 8 -> d <= 30)
  /\ (mp = 11 -> d <= 29 /\ (d = 29 -> doy = 365)).
Proof. intros H mp d. subst d mp. Z.div_mod_to_equations. lia. Qed.

Theorem civil_roundtrip z :
  let '(y, m, d) := Client.civil_from_days z in
  1 <= m <= 12 /\ 1 <= d <= days_in m y /\ days_from_civil y m d = z
  /\ (-719162 <= z <= 2932896 -> 1 <= y <= 9999).
Proof.
  unfold Client.civil_from_days.
  set (era := (z + 719468) / 146097). set (doe := z + 719468 - era * 146097).
  assert (Hdoe : 0 <= doe < 146097) by (subst doe era; Z.div_mod_to_equations; lia).
  (* years 0001..9999 are eras 0..24, without the first 306 days (January and
     February of year 0) and the last 60 (of year 10000) *)
  assert (Hera : -719162 <= z <= 2932896 ->
                 0 <= era <= 24 /\ (era = 0 -> 306 <= doe) /\ (era = 24 -> doe <= 146036))
    by (subst doe era; Z.div_mod_to_equations; lia).
  assert (Ez : era * 146097 + doe - 719468 = z) by (subst doe; ring).
  generalize (year_of_era doe Hdoe). clearbody doe era. cbv zeta.
  set (yoe := (doe - doe / 1460 + doe / 36524 - doe / 146096) / 365). clearbody yoe.
  set (doy := doe - (365 * yoe + yoe / 4 - yoe / 100)).
  assert (Edoe : yoe * 365 + yoe / 4 - yoe / 100 + doy = doe) by (subst doy; ring).
  clearbody doy. intros (Hy & Hdoy & Hleap).
  generalize (month_of_year doy Hdoy). cbv zeta.
  set (mp := (5 * doy + 2) / 153). clearbody mp.
  set (d := doy - (153 * mp + 2) / 5 + 1).
  assert (Edoy : (153 * mp + 2) / 5 + d - 1 = doy) by (subst d; ring).
  clearbody d. intros (Hmp & H306 & Hd & H30 & Hfeb).
  set (m := if mp <? 10 then mp + 3 else mp - 9).
  assert (Hm : m = mp + 3 /\ mp < 10 \/ m = mp - 9 /\ 10 <= mp)
    by (subst m; destruct (mp <? 10) eqn:E; lia).
  clearbody m.
  assert (Emp : (m + 9) mod 12 = mp) by (clear - Hm Hmp; Z.div_mod_to_equations; lia).
  (* January and February belong to the civil year after the one they began in *)
  set (y := yoe + era * 400 + _).
  assert (Hyr : (if m <=? 2 then y - 1 else y) = yoe + era * 400
                /\ (m = 2 -> y = yoe + 1 + era * 400))
    by (subst y; destruct (m <=? 2) eqn:E; clear - E; lia).
  split; [clear - Hm Hmp; lia|]. split; [|split].
  - split; [clear - Hd; lia|]. unfold days_in.
    destruct (m =? 2) eqn:E2; [|destruct (_ || _) eqn:E30; clear - E2 E30 Hm Hmp Hd H30; lia].
    destruct Hyr as [_ ->]; [|clear - E2; lia].
    destruct (is_leap _) eqn:L; [clear - E2 Hm Hmp Hfeb; lia|]. unfold is_leap in L.
    clear - L E2 Hleap Hfeb Hm Hmp Hy. Z.div_mod_to_equations. lia.
  - unfold days_from_civil. destruct Hyr as [-> _]. rewrite Emp.
    replace ((yoe + era * 400) / 400) with era by (clear - Hy; Z.div_mod_to_equations; lia).
    replace (yoe + era * 400 - era * 400) with yoe by ring.
    rewrite Edoy, Edoe. exact Ez.
  - intros Hz. subst y. clear - Hz Hera Hy Hm Hmp H306 Hdoy Edoe.
    destruct (m <=? 2) eqn:E; Z.div_mod_to_equations; lia.
Qed.

Local Open Scope N_scope.

Lemma dec_value_snoc s c : dec_value (s ++ [c]) = dec_value s * 10 + digit_val c.
Proof. unfold dec_value. rewrite fold_left_app. reflexivity. Qed.

Lemma dec_value_pad k s : dec_value (repeat "0" k ++ s) = dec_value s.
Proof. induction k as [|k IH]; [reflexivity|exact IH]. Qed.

Lemma dig_digit_val c : is_digit c = true -> dig c = Z.of_N (digit_val c).
Proof. unfold is_digit, in_range, dig, digit_val. lia. Qed.

(* a number is at least its first digit times the weight of that digit *)
Lemma dec_value_lower c s : digit_val c * 10 ^ N.of_nat (List.length s) <= dec_value (c :: s).
Proof.
  induction s as [|x s IH] using rev_ind; [cbn; lia|].
  change (c :: s ++ [x]) with ((c :: s) ++ [x]).
  rewrite dec_value_snoc, app_length, Nat.add_1_r, Nat2N.inj_succ, N.pow_succ_r'. lia.
Qed.

(* N.to_uint is a fixed point of unorm: no leading zero, except in "0" *)
Lemma dec_of_N_lead0 n t : dec_of_N n = "0" :: t -> t = [].
Proof.
  unfold dec_of_N. rewrite <- (Unsigned.of_to n), Unsigned.to_of at 1.
  generalize (N.to_uint n). intros u. unfold Decimal.unorm.
  pose proof (nzhead_nonzero u) as Z.
  destruct (Decimal.nzhead u); cbn [uint_to_bytes]; intros E; try discriminate E.
  - injection E as <-. reflexivity.
  - now destruct (Z u0).
Qed.

Lemma dec_of_N_length n w : n < 10 ^ N.of_nat (S w) -> (List.length (dec_of_N n) <= S w)%nat.
Proof.
  intros H. pose proof (dec_of_N_digits n) as D. pose proof (dec_value_dec_of_N n) as V.
  destruct (dec_of_N n) as [|c t] eqn:E; [cbn; lia|].
  pose proof (dec_value_lower c t) as B. rewrite V in B.
  destruct (N.eq_dec (digit_val c) 0) as [Z|Z].
  - assert (c = "0").
    { apply byte_n_inj. cbn [forallb] in D. unfold is_digit, in_range, digit_val in *.
      change (byte_n "0") with 48. lia. }
    subst c. apply dec_of_N_lead0 in E. subst t. cbn. lia.
  - assert (L : 10 ^ N.of_nat (List.length t) < 10 ^ N.of_nat (S w)).
    { eapply N.le_lt_trans; [|exact H]. eapply N.le_trans; [|exact B].
      rewrite <- (N.mul_1_l (10 ^ _)) at 1. apply N.mul_le_mono_r. lia. }
    apply N.pow_lt_mono_r_iff in L; cbn [List.length]; lia.
Qed.

Lemma append_int_digits x w :
  (0 <= x < 10 ^ Z.of_nat (S w))%Z ->
  let s := Client.append_int x (S w) in
  List.length s = S w /\ forallb is_digit s = true /\ Z.of_N (dec_value s) = x.
Proof.
  intros H. unfold Client.append_int.
  replace (x <? 0)%Z with false by lia. rewrite Z.abs_eq by lia. cbn [app].
  set (n := Z.to_N x).
  assert (L : (List.length (dec_of_N n) <= S w)%nat).
  { apply dec_of_N_length. subst n. apply N2Z.inj_lt.
    rewrite N2Z.inj_pow, nat_N_Z, Z2N.id by lia. apply H. }
  split; [rewrite app_length, repeat_length; lia|]. split.
  - rewrite forallb_app, dec_of_N_digits, andb_true_r. apply forallb_forall.
    intros c Hc. apply repeat_spec in Hc. now subst c.
  - rewrite dec_value_pad, dec_value_dec_of_N. lia.
Qed.

Local Open Scope Z_scope.

Lemma two_digits x :
  0 <= x < 100 ->
  exists a b, Client.append_int x 2 = [a; b] /\ is_digit a = true /\ is_digit b = true
              /\ dig a * 10 + dig b = x.
Proof.
  intros H. destruct (append_int_digits x 1 H) as (L & D & V).
  destruct (Client.append_int x 2) as [|a [|b [|? ?]]]; try discriminate L.
  cbn [forallb] in D. apply andb_true_iff in D as [Da D]. apply andb_true_iff in D as [Db _].
  exists a, b. rewrite !dig_digit_val by assumption. cbn in V. repeat split; try assumption. lia.
Qed.

Lemma four_digits x :
  0 <= x < 10000 ->
  exists a b c d, Client.append_int x 4 = [a; b; c; d]
    /\ is_digit a = true /\ is_digit b = true /\ is_digit c = true /\ is_digit d = true
    /\ dig a * 1000 + dig b * 100 + dig c * 10 + dig d = x.
Proof.
  intros H. destruct (append_int_digits x 3 H) as (L & D & V).
  destruct (Client.append_int x 4) as [|a [|b [|c [|d [|? ?]]]]]; try discriminate L.
  cbn [forallb] in D. apply andb_true_iff in D as [Da D]. apply andb_true_iff in D as [Db D].
  apply andb_true_iff in D as [Dc D]. apply andb_true_iff in D as [Dd _].
  exists a, b, c, d. rewrite !dig_digit_val by assumption. cbn in V. repeat split; try assumption. lia.
Qed.
