(* LocksetInst.v - the lock discipline of go-smtp's Conn, checked against the
   table that tools/accesses regenerates from /repo on every run
   (coq/gen/Accesses.v).

   The loop task executes, in any order and number, the functions that
   Server.handleConn and Conn.handle call (plus their own accesses); the BDAT
   delivery closure (handleBdat$1) is detached, the LMTP delivery closure
   (handleDataLMTP$1) is scoped (joined by <-done); the exported methods of
   *Conn are external entries that may run at any time (Server.Close ->
   Conn.Close; a backend goroutine that kept the *Conn calling accessors).

   On the current tree the program is NOT race free (DESIGN F20 and the
   accessor / panic-path pairs below): [conn_races_exactly] pins the exact
   set of unprotected conflicting pairs, identified by (field, accessing
   function, accessing function), so that a NEW racy pair - or the repair of
   a listed one - changes [races conn_program] and breaks the theorem.
   [conn_races_only_known] is the partial theorem on the real program: for
   every sequence of handler invocations, every set of external tasks and
   every schedule, a reachable data race is on one of the listed pairs.
   [conn_race_free_partial]: with the listed unlocked command-loop accesses
   removed the program has no data race at all. *)
From Coq Require Import List String Bool.
From Smtp Require Import Lockset.
From SmtpGen Require Import Accesses.
Import ListNotations.
Local Open Scope string_scope.

Definition conn_program_with (exts : list string) : template :=
  build conn_accesses conn_dispatchers conn_handlers conn_closures exts.

Definition conn_program : template := conn_program_with conn_externals.

(* (field, function, function): the first function's access is not ordered
   with and not mutually excluded from the second's.
     bdatPipe : unlocked reads (and the write at handleBdat's io.Pipe()) in
                the command loop against Close's locked read+write
     session  : handleGreet's unlocked `c.session != nil` against Close
     conn     : handleStartTLS's unlocked `c.conn = tlsConn` against every
                reader outside the loop: Close (locked, but the writer is
                not), the accessors Conn / TLSConnectionState, Reject's
                writeResponse, and the BDAT delivery closure's panic path
                (handlePanic: c.conn.RemoteAddr())
     helo     : unlocked writes in handleGreet / handleStartTLS against the
                accessor Hostname
     text     : init's `c.text = ...` (called by handleStartTLS) against
                Reject's writeResponse *)
Definition known_races : list triple := [
  ("bdatPipe", "handleBdat", "Close");
  ("bdatPipe", "handleData", "Close");
  ("bdatPipe", "handleMail", "Close");
  ("bdatPipe", "handleRcpt", "Close");
  ("session", "handleGreet", "Close");
  ("conn", "handleStartTLS", "Close");
  ("conn", "handleStartTLS", "Conn");
  ("conn", "handleStartTLS", "TLSConnectionState");
  ("conn", "handleStartTLS", "writeResponse");
  ("conn", "handlePanic", "handleStartTLS");
  ("helo", "handleGreet", "Hostname");
  ("helo", "handleStartTLS", "Hostname");
  ("text", "init", "writeResponse")
].

(* the table is consistent (calls resolve, lock regions are balanced, the
   scoped closure is joined by its handler, closures do not spawn, ...) *)
Theorem conn_wf : wf_b conn_program = true.
Proof. vm_compute. reflexivity. Qed.

(* THE obligation re-checked against the current source on every run *)
Theorem conn_races_exactly : same_set_b (races conn_program) known_races = true.
Proof. vm_compute. reflexivity. Qed.

(* refuted: the full statement (no data race at all) fails, semantically:
   MAIL in the command loop against a concurrent Server.Close -> Conn.Close *)
Definition race_witness_sched : list iid := [Ext 0; Ext 0; Loop; Loop; Loop; Loop].

Theorem conn_race_refuted :
  race (run iid_dec chan_dec (inst conn_program ["handleMail"] [["Close"]]) race_witness_sched).
Proof.
  apply (race_pair_b_sound iid_dec) with (i := Loop) (j := Ext 0).
  vm_compute. reflexivity.
Qed.

Theorem conn_not_race_free : race_free_b conn_program = false.
Proof.
  (* the set of races equals known_races, which is not empty *)
  unfold race_free_b. assert (H := conn_races_exactly).
  destruct (races conn_program); [discriminate H | apply andb_false_r].
Qed.

(* partial, on the real program: every reachable race is a listed one *)
Theorem conn_races_only_known :
  forall hs es sched i j f w1 t1 r1 w2 t2 r2,
    let s := run iid_dec chan_dec (inst conn_program hs es) sched in
    i <> j -> started s i = true -> started s j = true ->
    pc s i = Acc f w1 t1 :: r1 -> pc s j = Acc f w2 t2 :: r2 ->
    (w1 || w2) = true ->
    In (f, t1, t2) known_races \/ In (f, t2, t1) known_races.
Proof. exact (races_within conn_program known_races conn_wf conn_races_exactly). Qed.

(* the command-loop accesses that are not under c.locker although Close or
   an accessor may run concurrently *)
Definition known_racy_accesses : list (string * string) := [
  ("bdatPipe", "handleBdat"); ("bdatPipe", "handleData");
  ("bdatPipe", "handleMail"); ("bdatPipe", "handleRcpt");
  ("session", "handleGreet");
  ("conn", "handleStartTLS");
  ("helo", "handleGreet"); ("helo", "handleStartTLS");
  ("text", "init")
].

Theorem conn_race_free_partial_b :
  race_free_b (prune known_racy_accesses conn_program) = true.
Proof. vm_compute. reflexivity. Qed.

(* partial: without those accesses, no data race under any schedule *)
Theorem conn_race_free_partial :
  forall hs es sched,
    no_race (run iid_dec chan_dec (inst (prune known_racy_accesses conn_program) hs es) sched).
Proof. exact (race_free_b_sound _ conn_race_free_partial_b). Qed.

(* partial: if Server.Close is never concurrent with a connection's command
   loop and the backend calls Conn accessors only from within its callbacks
   (external entries reduced to the locked Session() and the immutable
   Server()), the only remaining pair is the BDAT delivery closure's panic
   path against STARTTLS *)
Theorem conn_races_without_close :
  races (conn_program_with ["Session"; "Server"]) = [("conn", "handlePanic", "handleStartTLS")].
Proof. vm_compute. reflexivity. Qed.

(* at most one of the command loop, Conn.Close, Conn.Session ... is inside a
   c.locker region, in every reachable state *)
Theorem conn_mutual_exclusion :
  forall hs es sched i j,
    let p := inst conn_program hs es in
    inside p (run iid_dec chan_dec p sched) i ->
    inside p (run iid_dec chan_dec p sched) j -> i = j.
Proof. intros hs es sched i j p. apply mutual_exclusion. Qed.

(* the BDAT delivery closure (after fix 3cc2a65) touches no Conn field that
   anybody writes, except c.conn on its panic path *)
Theorem bdat_closure_accesses :
  match entry conn_accesses "handleBdat$1" with
  | Some (_, b) => map (fun a => (a_f a, a_w a, a_site a)) (accs b)
  | None => []
  end = [("server", false, "handleBdat$1"); ("conn", false, "handlePanic"); ("server", false, "handlePanic")].
Proof. vm_compute. reflexivity. Qed.
