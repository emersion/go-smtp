(* Deadlock freedom and termination of BDAT deliveries (C20; model:
   Interleave.v).

   A delivery goroutine's own moves are a function of its record alone
   ([dnext]); everybody else only closes the write side of its pipe, starts
   or aborts a write, or takes its result ([touched]).  The invariant [Inv]
   is kept by every step but a spawn for one reason ([next_inv]); from it:
   some task can always move until all have finished, and a delivery whose
   pipe is closed runs down a rank of at most 6 with its own moves. *)
From Coq Require Import List Arith Bool Lia.
From Smtp Require Import Interleave.
Import ListNotations.

Definition refs (l : lstate) (i : nat) : Prop :=
  match l with
  | LChunk j _ _ | LBlocked j _ _ | LWait j => j = i
  | _ => False
  end.

Definition early (d : dstate) : bool :=
  match d with DRun | DFailed | DRet => true | _ => false end.

Record Inv (s : state) : Prop := mkInv {
  k_refs_lt : forall i, refs (loop s) i -> i < nd s;
  k_refs_res : forall i, refs (loop s) i -> res (dv s i) <> RTaken;
  k_cur : forall i, cur s = Some i -> i < nd s;
  k_cur_res : forall i, cur s = Some i -> res (dv s i) <> RTaken;
  k_cur_refs : forall i j, refs (loop s) i -> cur s = Some j -> i = j;
  k_old : forall i, i < nd s -> cur s <> Some i -> wclosed (dv s i) = true;
  k_done : forall i, d_st (dv s i) = DDone -> rclosed (dv s i) = true;
  k_res1 : forall i, early (d_st (dv s i)) = true -> res (dv s i) = REmpty;
  k_res2 : forall i, early (d_st (dv s i)) = false -> res (dv s i) <> REmpty;
  k_wait : forall i, loop s = LWait i -> wclosed (dv s i) = true;
  k_closed : closed s = true -> cur s = None;
  k_end : loop s = LEnd -> closed s = true
}.

Lemma inv_init : Inv init.
Proof.
  constructor; simpl; intros; try tauto; try discriminate; try lia; auto.
Qed.

#[local] Hint Extern 2 (_ < _) => lia : core.
#[local] Hint Extern 2 (_ <> _) => congruence : core.
#[local] Hint Extern 2 (_ <> _) => discriminate : core.
#[local] Hint Extern 3 (_ = _) => congruence : core.

(* None: blocked (in a pipe read, or never: see [result_send_never_blocks])
   or finished *)
Definition dnext (d : deliv) (a : dact) : option deliv :=
  match d_st d with
  | DRun =>
      match a with
      | Read =>
          if pending d then Some (mkD DRun (wclosed d) (rclosed d) false (res d))
          else if pipe_closed d then Some (mkD DFailed (wclosed d) (rclosed d) false (res d))
          else None
      | Return => Some (mkD DRet (wclosed d) (rclosed d) (pending d) (res d))
      end
  | DFailed => Some (mkD DRet (wclosed d) (rclosed d) (pending d) (res d))
  | DRet =>
      match res d with
      | REmpty => Some (mkD DSent (wclosed d) (rclosed d) (pending d) RFull)
      | _ => None
      end
  | DSent => Some (mkD DDone (wclosed d) true (pending d) (res d))
  | DDone => None
  end.

Definition rank (d : deliv) : nat :=
  match d_st d with
  | DRun => 5 + (if pending d then 1 else 0)
  | DFailed => 3 | DRet => 2 | DSent => 1 | DDone => 0
  end.

Lemma rank_bounds d : rank d <= 6 /\ (rank d = 0 -> d_st d = DDone).
Proof. unfold rank. destruct (d_st d), (pending d); simpl; split; solve [lia | easy]. Qed.

Definition dinv (d : deliv) : Prop :=
  (d_st d = DDone -> rclosed d = true) /\
  (early (d_st d) = true -> res d = REmpty) /\
  (early (d_st d) = false -> res d <> REmpty).

Lemma dnext_keeps d a d' :
  dnext d a = Some d' -> dinv d ->
  dinv d' /\ wclosed d' = wclosed d /\ (res d' = RTaken -> res d = RTaken).
Proof.
  unfold dnext, dinv. intros H (_ & G & G').
  destruct (d_st d); [destruct a; [destruct (pending d); [|destruct (pipe_closed d)]|]
                     | | destruct (res d) | |];
    inversion H; subst d'; simpl in *; rewrite ?G by reflexivity;
    repeat split; auto; congruence.
Qed.

Lemma dnext_rank d a d' :
  dnext d a = Some d' -> pipe_closed d = true ->
  rank d' < rank d /\ pipe_closed d' = true.
Proof.
  unfold dnext, rank, pipe_closed. intros H Hc.
  destruct (d_st d); [destruct a; [destruct (pending d); [|rewrite Hc in H]|]
                     | | destruct (res d) | |];
    inversion H; subst d'; simpl; rewrite ?orb_true_r; auto.
Qed.

Lemma dnext_enabled d a :
  pending d = true \/ pipe_closed d = true -> d_st d <> DDone ->
  (early (d_st d) = true -> res d = REmpty) -> dnext d a <> None.
Proof.
  unfold dnext. intros Hc Hd G.
  destruct (d_st d); try congruence; [|rewrite G by reflexivity; discriminate].
  destruct a; [|discriminate].
  destruct (pending d); [discriminate|]. destruct Hc as [Hc | ->]; discriminate.
Qed.

Section Proofs.
  Variable lmtp : bool.

  Lemma step_deliv s i a :
    step lmtp s (ADeliv i a) =
    if i <? nd s then
      option_map (fun d' => mkS (loop s) (cur s) (closed s) (nd s) (upd (dv s) i d'))
                 (dnext (dv s i) a)
    else None.
  Proof.
    unfold dnext. simpl. destruct (i <? nd s); [|reflexivity].
    destruct (d_st (dv s i)); [destruct a; [destruct (pending (dv s i)); [|destruct (pipe_closed (dv s i))]|]
                              | | destruct (res (dv s i)) | |]; reflexivity.
  Qed.

  Lemma upd_same (f : nat -> deliv) i d : upd f i d i = d.
  Proof. unfold upd. rewrite Nat.eqb_refl. reflexivity. Qed.

  Lemma upd_upd (f : nat -> deliv) i d d' j : upd (upd f i d) i d' j = upd f i d' j.
  Proof. unfold upd. destruct (Nat.eqb j i); reflexivity. Qed.

  Lemma inv_dinv s : Inv s -> forall j, dinv (dv s j).
  Proof. intros HI j. split; [|split]; [apply k_done | apply k_res1 | apply k_res2]; exact HI. Qed.

  (* One lemma for every step that spawns nothing.  Each delivery keeps its
     own part of Inv and a closed write side, and its result is not taken
     while the loop or c.bdatPipe refers to it; the loop keeps its references
     or starts to work on c.bdatPipe; c.bdatPipe is kept, or forgotten once
     its write side is closed; a loop that waits for a result has closed the
     write side; the loop ends only on a closed connection. *)
  Lemma next_inv s l c cl dv' :
    Inv s ->
    (forall j, dinv (dv' j) /\ (wclosed (dv s j) = true -> wclosed (dv' j) = true)) ->
    (forall j, refs l j \/ c = Some j -> res (dv' j) = RTaken -> res (dv s j) = RTaken) ->
    (forall j, refs l j -> refs (loop s) j \/ cur s = Some j) ->
    (cur s = c \/ c = None /\ forall j, cur s = Some j -> wclosed (dv' j) = true) ->
    (forall j, l = LWait j -> loop s = LWait j \/ wclosed (dv' j) = true) ->
    (l = LEnd -> cl = true) -> (cl = true -> closed s = true \/ c = None) ->
    Inv (mkS l c cl (nd s) dv').
  Proof.
    intros [K1 K1' K2 K2' K2'' K3 K4 K5 K5' K6 K7 K8] Hd Ht Hl Hc Hw He Hcl.
    assert (Hcur : forall j, c = Some j -> cur s = Some j).
    { intros j E. destruct Hc as [<- | [-> _]]; [exact E | discriminate E]. }
    constructor; simpl; auto.
    - intros j H. destruct (Hl j H); auto.
    - intros j H E. apply (Ht j) in E; auto. destruct (Hl j H); [apply (K1' j) | apply (K2' j)]; auto.
    - intros j H E. apply (Ht j) in E; auto. apply (K2' j); auto.
    - intros i j H E. apply Hcur in E. destruct (Hl i H); [eauto | congruence].
    - intros j Hj Hn. destruct Hc as [<- | [_ Hf]]; [apply Hd; auto|].
      destruct (cur s) as [c0|] eqn:Ec; [destruct (Nat.eq_dec c0 j) as [-> | Hne]|]; auto;
        apply Hd, K3; auto; congruence.
    - intro j. apply Hd.
    - intro j. apply Hd.
    - intro j. apply Hd.
    - intros j E. destruct (Hw j E); auto. apply Hd; auto.
    - intro H. destruct (Hcl H) as [H' | H']; auto. destruct Hc as [<- | [-> _]]; auto.
  Qed.

  Lemma upd_ok s i d' :
    Inv s -> dinv d' -> (wclosed (dv s i) = true -> wclosed d' = true) ->
    forall j, dinv (upd (dv s) i d' j) /\
              (wclosed (dv s j) = true -> wclosed (upd (dv s) i d' j) = true).
  Proof.
    intros HI D1 D2 j. unfold upd. destruct (Nat.eqb_spec j i) as [-> | _]; auto.
    split; [apply inv_dinv; exact HI | auto].
  Qed.

  Lemma upd_taken (f : nat -> deliv) i d' j :
    (res d' = RTaken -> res (f i) = RTaken) -> res (upd f i d' j) = RTaken -> res (f j) = RTaken.
  Proof. unfold upd. destruct (Nat.eqb_spec j i) as [-> | _]; auto. Qed.

  Lemma close_cur_nd s : nd (close_cur s) = nd s.
  Proof. unfold close_cur. destruct (cur s); reflexivity. Qed.

  Lemma close_cur_inv s l cl :
    Inv s -> (forall i, refs l i -> refs (loop s) i) ->
    (l = LEnd -> cl = true) -> (forall i, l = LWait i -> loop s = LWait i) ->
    Inv (mkS l None cl (nd (close_cur s)) (dv (close_cur s))).
  Proof.
    intros HI Hl He Hw. assert (P := inv_dinv s HI). rewrite close_cur_nd.
    unfold close_cur. destruct (cur s) as [c0|] eqn:Ec; simpl; apply next_inv; auto.
    - apply upd_ok; auto. apply (P c0).
    - intros j _. apply upd_taken. auto.
    - right. split; [reflexivity|]. intros j E. rewrite Ec in E. injection E as <-.
      rewrite upd_same. reflexivity.
  Qed.

  Lemma close_cur_eta s :
    close_cur s = mkS (loop s) None (closed s) (nd (close_cur s)) (dv (close_cur s)).
  Proof.
    unfold close_cur. destruct (cur s) eqn:E; simpl; [reflexivity|].
    destruct s; simpl in *; subst; reflexivity.
  Qed.

  Lemma close_cur_loop s : loop (close_cur s) = loop s.
  Proof. unfold close_cur. destruct (cur s); reflexivity. Qed.

  Lemma spawn_inv s n last :
    Inv s -> cur s = None -> closed s = false ->
    Inv (mkS (LChunk (nd s) n last) (Some (nd s)) (closed s) (S (nd s)) (upd (dv s) (nd s) fresh)).
  Proof.
    intros [K1 K1' K2 K2' K2'' K3 K4 K5 K5' K6 K7 K8] Ec Ecl.
    assert (U : forall j, j = nd s /\ upd (dv s) (nd s) fresh j = fresh \/
                          j <> nd s /\ upd (dv s) (nd s) fresh j = dv s j).
    { intro j. unfold upd. destruct (Nat.eqb_spec j (nd s)); auto. }
    constructor; simpl; try congruence; intro j; destruct (U j) as [[Ej Eu] | [Hne Eu]];
      rewrite ?Eu; try easy; try congruence; auto.
  Qed.

  (* the loop closes the write side of the delivery it works on, starts a
     write into it or aborts one; it may go on to wait for its result, or
     give up the pipe if its write side is now closed *)
  Lemma touch_inv s l c i w p :
    Inv s -> refs (loop s) i -> (forall j, refs l j -> j = i) ->
    (wclosed (dv s i) = true -> w = true) ->
    (cur s = c \/ c = None /\ w = true) -> (forall j, l = LWait j -> w = true) -> l <> LEnd ->
    Inv (mkS l c (closed s) (nd s)
             (upd (dv s) i (mkD (d_st (dv s i)) w (rclosed (dv s i)) p (res (dv s i))))).
  Proof.
    intros HI Hr Hl Hw Hc Hwt He. apply next_inv; auto; try easy.
    - apply upd_ok; auto. apply (inv_dinv s HI i).
    - intros j _. apply upd_taken. auto.
    - intros j H. rewrite (Hl j H). auto.
    - destruct Hc as [Hc | [-> ->]]; auto. right. split; [reflexivity|]. intros j E.
      rewrite <- (k_cur_refs s HI i j Hr E), upd_same. reflexivity.
    - intros j E. right. rewrite (Hl j), upd_same by (rewrite E; reflexivity). exact (Hwt j E).
  Qed.

  Lemma abort_inv s i last : Inv s -> refs (loop s) i -> Inv (abort lmtp s i last).
  Proof.
    intros HI Hr. unfold abort. destruct (lmtp && last); apply touch_inv; simpl; auto; easy.
  Qed.

  Lemma step_inv s a s' : Inv s -> step lmtp s a = Some s' -> Inv s'.
  Proof.
    intros HI Hst. pose proof HI as [K1 K1' K2 K2' K2'' K3 K4 K5 K5' K6 K7 K8].
    assert (P := inv_dinv s HI).
    destruct a as [c | i a |].
    - simpl in Hst. destruct (loop s) as [| i n last | i n last | i |] eqn:El.
      + destruct (closed s) eqn:Ecl; [|destruct c as [n last | |]; [destruct (cur s) eqn:Ec|..]];
          injection Hst as <-.
        * apply next_inv; auto; easy.
        * apply next_inv; auto; easy.
        * rewrite <- Ecl. apply spawn_inv; auto.
        * rewrite close_cur_eta. apply close_cur_inv; simpl; auto; easy.
        * apply close_cur_inv; simpl; auto; easy.
      + assert (Hr : refs (loop s) i) by (rewrite El; reflexivity).
        destruct n as [|n]; [destruct last | destruct (pipe_closed (dv s i))]; injection Hst as <-;
          first [apply abort_inv | apply touch_inv | apply next_inv]; simpl; auto; easy.
      + assert (Hr : refs (loop s) i) by (rewrite El; reflexivity).
        assert (Hr' : forall j, i = j -> refs (loop s) j \/ cur s = Some j) by (intros j <-; auto).
        destruct (pipe_closed (dv s i)); [|destruct (pending (dv s i)); [discriminate Hst|]];
          injection Hst as <-; first [apply abort_inv | apply next_inv]; simpl; auto; easy.
      + destruct (res (dv s i)) eqn:Er; try discriminate Hst. injection Hst as <-.
        (* the loop and c.bdatPipe let go of i as its result is taken *)
        assert (PT : forall w p, dinv (mkD (d_st (dv s i)) w (rclosed (dv s i)) p RTaken)).
        { intros w p. destruct (P i) as (A & B & _). repeat split; simpl; auto; try discriminate.
          intro E. rewrite (B E) in Er. discriminate Er. }
        assert (G : forall j, refs LIdle j \/ None = Some j -> res (dv s j) = RTaken)
          by (intros j [[] | E]; discriminate E).
        unfold close_cur. simpl. destruct (cur s) as [c0|] eqn:Ec; simpl; apply next_inv; auto; try easy.
        * rewrite <- (K2'' i c0 eq_refl eq_refl), upd_same. intro j. rewrite upd_upd.
          apply upd_ok; auto; apply PT.
        * right. split; [reflexivity|]. intros j E. rewrite Ec in E. injection E as <-.
          rewrite upd_same. reflexivity.
        * apply upd_ok; auto; apply PT.
      + discriminate Hst.
    - rewrite step_deliv in Hst. destruct (i <? nd s); [|discriminate Hst].
      destruct (dnext (dv s i) a) as [d'|] eqn:En; [|discriminate Hst]. injection Hst as <-.
      destruct (dnext_keeps _ _ _ En (P i)) as (D1 & D2 & D3).
      apply next_inv; auto; [apply upd_ok; auto | intros j _; apply upd_taken; auto].
    - simpl in Hst. destruct (closed s) eqn:Ecl; [discriminate Hst|].
      injection Hst as <-. rewrite close_cur_loop. apply close_cur_inv; simpl; auto; easy.
  Qed.

  Lemma exec_inv s a : Inv s -> Inv (exec lmtp s a).
  Proof.
    intro HI. unfold exec. destruct (step lmtp s a) as [s'|] eqn:E; [|exact HI].
    exact (step_inv s a s' HI E).
  Qed.

  Lemma run_inv s sched : Inv s -> Inv (run lmtp s sched).
  Proof.
    revert s. induction sched as [|a l IH]; intros s HI; [exact HI|].
    simpl. apply IH. apply exec_inv. exact HI.
  Qed.

  Definition enabled (s : state) (a : action) : Prop := step lmtp s a <> None.

  Definition final (s : state) : Prop :=
    loop s = LEnd /\ forall i, i < nd s -> d_st (dv s i) = DDone.

  Lemma all_done_dec (f : nat -> deliv) n :
    (forall i, i < n -> d_st (f i) = DDone) \/ (exists i, i < n /\ d_st (f i) <> DDone).
  Proof.
    induction n as [|n [IH | [i [Hi Hd]]]].
    - left. intros i Hi. lia.
    - destruct (d_st (f n)) eqn:E;
        try (right; exists n; split; [lia | rewrite E; discriminate]).
      left. intros i Hi. destruct (Nat.eq_dec i n); [subst; exact E | apply IH; lia].
    - right. exists i. split; [lia | exact Hd].
  Qed.

  Lemma deliv_enabled s i a :
    Inv s -> i < nd s -> pending (dv s i) = true \/ pipe_closed (dv s i) = true ->
    d_st (dv s i) <> DDone -> enabled s (ADeliv i a).
  Proof.
    intros HI Hi Hc Hd. unfold enabled. rewrite step_deliv.
    apply Nat.ltb_lt in Hi. rewrite Hi.
    assert (H := dnext_enabled (dv s i) a Hc Hd (k_res1 s HI i)).
    destruct (dnext (dv s i) a); [discriminate | contradiction].
  Qed.

  Lemma ended_pipes_closed s i :
    Inv s -> loop s = LEnd -> i < nd s -> pipe_closed (dv s i) = true.
  Proof.
    intros HI El Hi. unfold pipe_closed. rewrite (k_old s HI i Hi); [reflexivity|].
    rewrite (k_closed s HI (k_end s HI El)). discriminate.
  Qed.

  Theorem blocked_loop_has_partner s i :
    Inv s ->
    (exists n last, loop s = LBlocked i n last) \/ loop s = LWait i ->
    (exists c, enabled s (ALoop c)) \/ (exists a, enabled s (ADeliv i a)).
  Proof.
    intros HI Hl.
    assert (Hr : refs (loop s) i) by (destruct Hl as [[n [last ->]] | ->]; reflexivity).
    assert (Hi := k_refs_lt s HI i Hr).
    destruct Hl as [[n [last El]] | El].
    - destruct (pipe_closed (dv s i)) eqn:Epc, (pending (dv s i)) eqn:Ep.
      3: { (* the reader has not taken the write yet; it has not finished,
              since its side of the pipe is open *)
           right. exists Read. apply deliv_enabled; auto. intro Hd.
           unfold pipe_closed in Epc. rewrite (k_done s HI i Hd), orb_true_r in Epc. discriminate. }
      all: left; exists CReset; unfold enabled; simpl; rewrite El, Epc, ?Ep; discriminate.
    - destruct (res (dv s i)) eqn:Er.
      + (* no result yet: the delivery has not sent it, and its pipe is closed *)
        right. exists Read. apply deliv_enabled; auto.
        * right. unfold pipe_closed. rewrite (k_wait s HI i El). reflexivity.
        * intro Hd. apply (k_res2 s HI i); [rewrite Hd; reflexivity | exact Er].
      + left. exists CReset. unfold enabled. simpl. rewrite El, Er. discriminate.
      + destruct (k_refs_res s HI i Hr Er).
  Qed.

  Theorem no_deadlock_inv s : Inv s -> final s \/ exists a, enabled s a.
  Proof.
    intro HI.
    destruct (loop s) as [| i n last | i n last | i |] eqn:El.
    - right. exists (ALoop CReset). unfold enabled. simpl. rewrite El.
      destruct (closed s); discriminate.
    - right. exists (ALoop CReset). unfold enabled. simpl. rewrite El.
      destruct n; [destruct last; discriminate|].
      destruct (pipe_closed (dv s i)); discriminate.
    - destruct (blocked_loop_has_partner s i HI) as [[c H] | [a H]]; eauto.
    - destruct (blocked_loop_has_partner s i HI) as [[c H] | [a H]]; eauto.
    - destruct (all_done_dec (dv s) (nd s)) as [Hall | [i [Hi Hd]]].
      + left. split; [exact El | exact Hall].
      + right. exists (ADeliv i Read).
        apply deliv_enabled; auto using ended_pipes_closed.
  Qed.

  (* What the loop and Conn.Close may do to a delivery: close the write side
     of its pipe, start a write while the pipe is open, abort one, take the
     result.  Its state and its side of the pipe are its own. *)
  Definition touched (d d' : deliv) : Prop :=
    d_st d' = d_st d /\ rclosed d' = rclosed d /\ (wclosed d = true -> wclosed d' = true) /\
    (pending d' = true -> pending d = true \/ pipe_closed d = false).

  Lemma touched_refl d : touched d d.
  Proof. repeat split; auto. Qed.

  Lemma touched_keeps d d' :
    touched d d' -> pipe_closed d = true -> rank d' <= rank d /\ pipe_closed d' = true.
  Proof.
    unfold touched, rank, pipe_closed. intros (E1 & E2 & E3 & E4) Hc. rewrite E1, E2. split.
    - destruct (d_st d); auto. destruct (pending d') eqn:P; [|destruct (pending d); lia].
      destruct E4 as [-> | F]; auto. congruence.
    - destruct (wclosed d); [rewrite E3 by reflexivity; reflexivity|].
      simpl in Hc. rewrite Hc. apply orb_true_r.
  Qed.

  Lemma close_cur_touches d s i : touched d (dv s i) -> touched d (dv (close_cur s) i).
  Proof.
    unfold close_cur. destruct (cur s) as [c|]; simpl; auto.
    unfold upd. destruct (Nat.eqb_spec i c) as [-> | _]; auto.
    intros (A & B & C & D). repeat split; auto.
  Qed.

  Lemma outside_step_touches s b s' i :
    step lmtp s b = Some s' -> (forall j a, b <> ADeliv j a) -> i < nd s ->
    touched (dv s i) (dv s' i) /\ i < nd s'.
  Proof.
    intros H Hb Hi. assert (T0 := touched_refl (dv s i)).
    (* a delivery spawned now is another one; one that is updated keeps its
       state and its side of the pipe *)
    assert (T1 : touched (dv s i) (upd (dv s) (nd s) fresh i)).
    { unfold upd. destruct (Nat.eqb_spec i (nd s)); [lia | exact T0]. }
    assert (T2 : forall j w p r,
               (wclosed (dv s j) = true -> w = true) ->
               (p = true -> pending (dv s j) = true \/ pipe_closed (dv s j) = false) ->
               touched (dv s i) (upd (dv s) j (mkD (d_st (dv s j)) w (rclosed (dv s j)) p r) i)).
    { intros j w p r Hw Hp. unfold upd. destruct (Nat.eqb_spec i j) as [-> | _]; repeat split; auto. }
    destruct b as [c | j a |]; [|destruct (Hb j a eq_refl)|]; simpl in H;
      unfold abort, set_wclosed in H.
    - destruct (loop s) as [| j n last | j n last | j |].
      + destruct (closed s); [|destruct c as [n last | |]; [destruct (cur s)|..]].
        all: injection H as <-; split;
          [repeat apply close_cur_touches; simpl; auto | rewrite ?close_cur_nd; simpl; lia].
      + destruct n as [|n]; [destruct last | destruct (pipe_closed (dv s j)) eqn:Epc, (lmtp && last)].
        all: injection H as <-; simpl; auto.
      + destruct (pipe_closed (dv s j)), (lmtp && last), (pending (dv s j)); try discriminate H.
        all: injection H as <-; simpl; auto.
      + destruct (res (dv s j)); try discriminate H. injection H as <-.
        rewrite close_cur_nd. split; [apply close_cur_touches; simpl; auto | exact Hi].
      + discriminate H.
    - destruct (closed s); [discriminate H|]. injection H as <-. simpl.
      rewrite close_cur_nd. auto using close_cur_touches.
  Qed.

  Lemma any_step_keeps s b s' i :
    step lmtp s b = Some s' -> i < nd s -> pipe_closed (dv s i) = true ->
    rank (dv s' i) <= rank (dv s i) /\ pipe_closed (dv s' i) = true /\ i < nd s' /\
    forall a, b = ADeliv i a -> rank (dv s' i) < rank (dv s i).
  Proof.
    intros H Hi Hc. destruct b as [c | j a |].
    1,3: destruct (outside_step_touches s _ s' i H) as [T Hi']; try easy;
         destruct (touched_keeps _ _ T Hc); easy.
    rewrite step_deliv in H. destruct (j <? nd s); [|discriminate H].
    destruct (dnext (dv s j) a) as [d'|] eqn:En; [|discriminate H]. injection H as <-.
    simpl. unfold upd. destruct (Nat.eqb_spec i j) as [-> | Hne].
    - destruct (dnext_rank _ _ _ En Hc). repeat split; auto. lia.
    - repeat split; auto. intros a' E. congruence.
  Qed.

  Fixpoint own_moves (i : nat) (sched : list action) : nat :=
    match sched with
    | [] => 0
    | ADeliv j _ :: r => (if Nat.eqb j i then 1 else 0) + own_moves i r
    | _ :: r => own_moves i r
    end.

  (* once its pipe is closed, a delivery goroutine is never blocked again and
     finishes within its next 6 own steps, whatever everybody else does and
     whatever the backend chooses (read again / return) *)
  Theorem delivery_terminates s i sched :
    Inv s -> i < nd s -> pipe_closed (dv s i) = true ->
    rank (dv (run lmtp s sched) i) <= rank (dv s i) - own_moves i sched /\
    pipe_closed (dv (run lmtp s sched) i) = true.
  Proof.
    revert s. induction sched as [|b l IH]; intros s HI Hi Hc.
    - simpl. split; [lia | exact Hc].
    - change (run lmtp s (b :: l)) with (run lmtp (exec lmtp s b) l).
      unfold exec. destruct (step lmtp s b) as [s'|] eqn:E.
      + destruct (any_step_keeps s b s' i E Hi Hc) as (A & B & C & D).
        destruct (IH s' (step_inv s b s' HI E) C B) as [F G]. split; [|exact G].
        destruct b as [c | j a |]; simpl; try lia.
        destruct (Nat.eqb_spec j i) as [-> | Hne]; simpl; [|lia].
        specialize (D a eq_refl). lia.
      + destruct (IH s HI Hi Hc) as [D F]. split; [|exact F].
        destruct b as [c | j a |]; simpl; try lia.
        destruct (Nat.eqb_spec j i) as [-> | Hne]; simpl; [|lia].
        (* a disabled own move: only possible when the goroutine has finished *)
        destruct (d_st (dv s i)) eqn:Ed.
        1-4: destruct (deliv_enabled s i a HI Hi (or_intror Hc)); [rewrite Ed; discriminate | exact E].
        assert (R0 : rank (dv s i) = 0) by (unfold rank; rewrite Ed; reflexivity). lia.
  Qed.

  (* the result channel (capacity 1) never blocks its only sender *)
  Theorem result_send_never_blocks sched i a :
    let s := run lmtp init sched in
    i < nd s -> d_st (dv s i) = DRet -> enabled s (ADeliv i a).
  Proof.
    intros s Hi Hd. assert (HI : Inv s) by (apply run_inv; apply inv_init).
    unfold enabled. rewrite step_deliv. apply Nat.ltb_lt in Hi. rewrite Hi.
    unfold dnext. rewrite Hd, (k_res1 s HI i) by (rewrite Hd; reflexivity). discriminate.
  Qed.
End Proofs.

(* non-vacuity: blocking is real in the model, and a transfer runs to the end *)
Example loop_really_blocks :
  let s := run false init [ALoop (CBdat 1 true); ALoop CReset] in
  loop s = LBlocked 0 0 true /\ step false s (ALoop CReset) = None /\
  step false s (ADeliv 0 Read) <> None.
Proof. cbv. repeat split; discriminate. Qed.

Example reader_really_blocks :
  let s := run false init [ALoop (CBdat 1 false)] in
  step false s (ADeliv 0 Read) = None.
Proof. reflexivity. Qed.

Example full_transfer :
  let s := run false init
    [ALoop (CBdat 1 true); ALoop CReset; ADeliv 0 Read; ALoop CReset; ALoop CReset;
     ADeliv 0 Read; ADeliv 0 Read; ADeliv 0 Read; ALoop CReset; ADeliv 0 Read; ALoop CQuit] in
  final s.
Proof.
  cbv. split; [reflexivity|]. intros i Hi.
  destruct i as [|i]; [reflexivity|]. exfalso. inversion Hi; subst. inversion H0.
Qed.

(* an aborted transfer (RSET) whose backend is slow: the old delivery is
   still running when the next transaction starts; both finish *)
Example aborted_then_next :
  let s := run false init
    [ALoop (CBdat 1 false); ALoop CReset; ADeliv 0 Read; ALoop CReset; ALoop CReset;
     ALoop CReset;                       (* RSET: pipe 0 closed, delivery 0 still in Data *)
     ALoop (CBdat 0 true); ALoop CReset; (* next transaction: delivery 1, LAST *)
     ADeliv 1 Read; ADeliv 0 Read;       (* both see their pipes closed *)
     ADeliv 1 Read; ADeliv 1 Read; ALoop CReset; ADeliv 1 Read;
     ADeliv 0 Read; ADeliv 0 Read; ADeliv 0 Read; ALoop CQuit] in
  nd s = 2 /\ d_st (dv s 0) = DDone /\ d_st (dv s 1) = DDone /\ loop s = LEnd /\
  res (dv s 0) = RFull /\ res (dv s 1) = RTaken.
Proof. cbv. repeat split. Qed.
