(* C12: EHLO advertises exactly what the configuration enables, and honours it. *)
From Smtp Require Import Bytes Transport Reply Rfc3339 Conn.
Local Open Scope char_scope.

Definition auth_line (mechs : list bytes) : bytes := bs "AUTH" ++ flat_map (fun n => " " :: n) mechs.

(* an independent description of which capability lines must be present *)
Definition advertised (cfg : config) (tls : bool) (s : bytes) : Prop :=
  s = bs "PIPELINING" \/ s = bs "8BITMIME" \/ s = bs "ENHANCEDSTATUSCODES" \/ s = bs "CHUNKING"
  \/ (s = bs "STARTTLS" /\ cf_tls_config cfg = true /\ tls = false)
  \/ (exists m ms, cf_auth cfg = Some (m :: ms) /\ (tls = true \/ cf_insecure_auth cfg = true)
                   /\ s = auth_line (m :: ms))
  \/ (s = bs "SMTPUTF8" /\ cf_utf8 cfg = true)
  \/ (s = bs "REQUIRETLS" /\ tls = true /\ cf_requiretls cfg = true)
  \/ (s = bs "BINARYMIME" /\ cf_binarymime cfg = true)
  \/ (s = bs "DSN" /\ cf_dsn cfg = true)
  \/ (s = bs "SIZE " ++ dec_of_Z (cf_max_bytes cfg) /\ (0 < cf_max_bytes cfg)%Z)
  \/ (s = bs "SIZE" /\ (cf_max_bytes cfg <= 0)%Z)
  \/ (s = bs "LIMITS RCPTMAX=" ++ dec_of_N (cf_max_rcpt cfg) /\ (0 < cf_max_rcpt cfg)%N)
  \/ (s = bs "RRVS" /\ cf_rrvs cfg = true).

(* [caps] and the table list the same entries in the same order: they are
   compared piece by piece *)
Lemma in_cons_or (s a : bytes) l Q : (In s l <-> Q) -> (In s (a :: l) <-> s = a \/ Q).
Proof. intros H. cbn [In]. rewrite H. intuition congruence. Qed.

Lemma in_app_or (s : bytes) l l' P Q :
  (In s l <-> P) -> (In s l' <-> Q) -> (In s (l ++ l') <-> P \/ Q).
Proof. intros H H'. rewrite in_app_iff, H, H'. reflexivity. Qed.

Lemma in_opt (b : bool) P (x s : bytes) :
  (b = true <-> P) -> (In s (if b then [x] else []) <-> s = x /\ P).
Proof. intros <-. destruct b; cbn; intuition congruence. Qed.

Lemma in_auth cfg tls s :
  In s (if tls || cf_insecure_auth cfg
        then match cf_auth cfg with
             | Some (m :: ms) => [bs "AUTH" ++ flat_map (fun n => " " :: n) (m :: ms)]
             | _ => []
             end
        else [])
  <-> exists m ms, cf_auth cfg = Some (m :: ms)
                   /\ (tls = true \/ cf_insecure_auth cfg = true) /\ s = auth_line (m :: ms).
Proof.
  unfold auth_line. split.
  - destruct (tls || cf_insecure_auth cfg) eqn:E; [|intros []].
    destruct (cf_auth cfg) as [[|m ms]|]; [intros []| |intros []].
    intros [<-|[]]. exists m, ms. apply orb_true_iff in E. auto.
  - intros (m & ms & -> & H%orb_true_iff & ->). rewrite H. left. reflexivity.
Qed.

Lemma in_size (z : Z) (x y s : bytes) :
  In s (if (0 <? z)%Z then [x] else [y]) <-> (s = x /\ (0 < z)%Z) \/ (s = y /\ (z <= 0)%Z).
Proof. destruct (Z.ltb_spec 0 z); cbn [In]; intuition (congruence || lia). Qed.

Theorem caps_exact cfg c s : In s (caps cfg c) <-> advertised cfg (c_tls c) s.
Proof.
  unfold caps, advertised, auth_allowed. cbn [app]. do 4 apply in_cons_or.
  apply in_app_or; [apply in_opt; rewrite andb_true_iff, negb_true_iff; reflexivity|].
  apply in_app_or; [apply in_auth|].
  apply in_app_or; [apply in_opt; reflexivity|].
  apply in_app_or; [apply in_opt, andb_true_iff|].
  apply in_app_or; [apply in_opt; reflexivity|].
  apply in_app_or; [apply in_opt; reflexivity|].
  rewrite <- or_assoc. apply in_app_or; [apply in_size|].
  apply in_app_or; apply in_opt; [apply N.ltb_lt|reflexivity].
Qed.

Definition accepted {A} (r : A + rfail) : Prop := exists a, r = inl a.
Definition refused_504 {A} (r : A + rfail) : Prop := exists ec msg, r = inr (504%Z, ec, msg).

(* SIZE with the configured value *)
Lemma mail_param_size cfg v o bm :
  mail_param cfg (bs "SIZE") v o bm =
  match parse_uint 63 v with
  | POk n =>
      if (0 <? cf_max_bytes cfg)%Z && (cf_max_bytes cfg <? Z.of_N n)%Z
      then inr (552, (5, 3, 4), bs "Max message size exceeded")%Z
      else inl (mkMO (mo_body o) (Z.of_N n) (mo_requiretls o) (mo_utf8 o) (mo_ret o) (mo_envid o) (mo_auth o), bm)
  | PRange =>
      if (0 <? cf_max_bytes cfg)%Z then inr (552, (5, 3, 4), bs "Max message size exceeded")%Z
      else inr (501, (5, 5, 4), bs "Unable to parse SIZE as an integer")%Z
  | PSyntax => inr (501, (5, 5, 4), bs "Unable to parse SIZE as an integer")%Z
  end.
Proof. reflexivity. Qed.

(* a SIZE value too large for 63 bits is above any limit *)
Theorem honour_size_huge cfg o bm v :
  forallb is_digit v = true -> v <> [] -> (2 ^ 63 <= dec_value v)%N -> (0 < cf_max_bytes cfg)%Z ->
  mail_param cfg (bs "SIZE") v o bm = inr (552, (5, 3, 4), bs "Max message size exceeded")%Z.
Proof.
  intros Hd Hne Hr Hl. rewrite mail_param_size. unfold parse_uint.
  destruct v as [|x v]; [congruence|]. rewrite Hd.
  assert (E : (dec_value (x :: v) <? 2 ^ 63)%N = false) by (apply N.ltb_ge; exact Hr). rewrite E.
  apply Z.ltb_lt in Hl. rewrite Hl. reflexivity.
Qed.

(* the property's finite configuration space *)

Definition all_bool := [false; true].

Definition cfg_space : list (config * bool) :=
  flat_map (fun lmtp => flat_map (fun tlscfg => flat_map (fun tls =>
  flat_map (fun ins => flat_map (fun u => flat_map (fun r => flat_map (fun b =>
  flat_map (fun d => flat_map (fun rr => flat_map (fun mb => flat_map (fun mr =>
  map (fun au =>
         (mkCfg lmtp tlscfg (bs "d") mr mb 2000 ins u r b d rr false au tls, tls))
      [None; Some [bs "PLAIN"]])
  [0; 7]%N) [0; 1000]%Z) all_bool) all_bool) all_bool) all_bool) all_bool) all_bool) all_bool) all_bool) all_bool.

Definition mk_conn (cfg : config) (tls : bool) : conn :=
  mkC (mkT [] [] 0 (cf_max_line cfg) false) [] (mkBE [] [] [] [] []) (bs "h") true 0 false false [] false false tls None 0.

Definition has (s : string) (l : list bytes) : bool := existsb (bytes_eqb (bs s)) l.

Definition is_inl {A B} (x : A + B) : bool := match x with inl _ => true | inr _ => false end.
Definition is_504 {A} (x : A + rfail) : bool :=
  match x with inr (c, _, _) => (c =? 504)%Z | inl _ => false end.

(* advertised <-> accepted, not advertised <-> 504, per extension *)
Definition cfg_consistent (p : config * bool) : bool :=
  let '(cfg, tls) := p in
  let c := mk_conn cfg tls in
  let l := caps cfg c in
  Bool.eqb (has "SMTPUTF8" l) (is_inl (mail_param cfg (bs "SMTPUTF8") [] mo_zero false))
  && Bool.eqb (negb (has "SMTPUTF8" l)) (is_504 (mail_param cfg (bs "SMTPUTF8") [] mo_zero false))
  && Bool.eqb (has "BINARYMIME" l) (is_inl (mail_param cfg (bs "BODY") (bs "BINARYMIME") mo_zero false))
  && Bool.eqb (negb (has "BINARYMIME" l)) (is_504 (mail_param cfg (bs "BODY") (bs "BINARYMIME") mo_zero false))
  && Bool.eqb (has "DSN" l) (is_inl (mail_param cfg (bs "RET") (bs "FULL") mo_zero false))
  && Bool.eqb (negb (has "DSN" l)) (is_504 (mail_param cfg (bs "ENVID") (bs "x") mo_zero false))
  && Bool.eqb (has "DSN" l) (is_inl (rcpt_param cfg (bs "NOTIFY") (bs "DELAY") ro_zero))
  && Bool.eqb (negb (has "DSN" l)) (is_504 (rcpt_param cfg (bs "ORCPT") (bs "rfc822;a@b") ro_zero))
  && Bool.eqb (has "RRVS" l) (is_inl (rcpt_param cfg (bs "RRVS") (bs "2014-04-03T23:01:00Z") ro_zero))
  && Bool.eqb (negb (has "RRVS" l)) (is_504 (rcpt_param cfg (bs "RRVS") (bs "2014-04-03T23:01:00Z") ro_zero))
  (* REQUIRETLS is advertised only under TLS; when advertised it is accepted, when disabled it is refused *)
  && implb (has "REQUIRETLS" l) (is_inl (mail_param cfg (bs "REQUIRETLS") [] mo_zero false))
  && implb (negb (cf_requiretls cfg)) (is_504 (mail_param cfg (bs "REQUIRETLS") [] mo_zero false))
  && implb (has "REQUIRETLS" l) tls
  && Bool.eqb (has "STARTTLS" l) (cf_tls_config cfg && negb tls)
  && Bool.eqb (existsb (fun s => is_prefix (bs "AUTH ") s) l)
              ((tls || cf_insecure_auth cfg) && match cf_auth cfg with Some (_ :: _) => true | _ => false end)
  && has "PIPELINING" l && has "8BITMIME" l && has "ENHANCEDSTATUSCODES" l && has "CHUNKING" l
  && Bool.eqb (has "SIZE" l) (cf_max_bytes cfg <=? 0)%Z
  && Bool.eqb (has "SIZE 1000" l) (cf_max_bytes cfg =? 1000)%Z
  && Bool.eqb (has "LIMITS RCPTMAX=7" l) (cf_max_rcpt cfg =? 7)%N.

Theorem cfg_space_size : N.of_nat (List.length cfg_space) = 4096%N.
Proof. vm_compute. reflexivity. Qed.

(* The flags act independently, so the space need not be swept: [caps] is
   searched segment by segment, which shows each keyword listed exactly when
   its flag says so; each parameter's verdict depends on its own flag alone. *)

Lemma existsb_guard {A} (f : A -> bool) (b : bool) l :
  existsb f (if b then l else []) = existsb f l && b.
Proof. destruct b; cbn [existsb]; [rewrite andb_true_r|rewrite andb_false_r]; reflexivity. Qed.

Lemma existsb_caps f cfg c :
  existsb f (caps cfg c) =
  existsb f [bs "PIPELINING"; bs "8BITMIME"; bs "ENHANCEDSTATUSCODES"; bs "CHUNKING"]
  || (existsb f [bs "STARTTLS"] && (cf_tls_config cfg && negb (c_tls c))
  || (existsb f match cf_auth cfg with Some (m :: ms) => [auth_line (m :: ms)] | _ => [] end
      && auth_allowed cfg c
  || (existsb f [bs "SMTPUTF8"] && cf_utf8 cfg
  || (existsb f [bs "REQUIRETLS"] && (c_tls c && cf_requiretls cfg)
  || (existsb f [bs "BINARYMIME"] && cf_binarymime cfg
  || (existsb f [bs "DSN"] && cf_dsn cfg
  || ((if (0 <? cf_max_bytes cfg)%Z then existsb f [bs "SIZE " ++ dec_of_Z (cf_max_bytes cfg)]
       else existsb f [bs "SIZE"])
  || (existsb f [bs "LIMITS RCPTMAX=" ++ dec_of_N (cf_max_rcpt cfg)] && (0 <? cf_max_rcpt cfg)%N
  || existsb f [bs "RRVS"] && cf_rrvs cfg)))))))).
Proof. unfold caps. rewrite !existsb_app, !existsb_guard. destruct (0 <? cf_max_bytes cfg)%Z; reflexivity. Qed.

Lemma listed cfg c (l := caps cfg c) :
  In (cf_max_bytes cfg) [0; 1000]%Z -> In (cf_max_rcpt cfg) [0; 7]%N ->
  has "SMTPUTF8" l = cf_utf8 cfg /\ has "BINARYMIME" l = cf_binarymime cfg /\
  has "DSN" l = cf_dsn cfg /\ has "RRVS" l = cf_rrvs cfg /\
  has "REQUIRETLS" l = c_tls c && cf_requiretls cfg /\
  has "STARTTLS" l = cf_tls_config cfg && negb (c_tls c) /\
  existsb (fun s => is_prefix (bs "AUTH ") s) l
    = auth_allowed cfg c && match cf_auth cfg with Some (_ :: _) => true | _ => false end /\
  has "PIPELINING" l = true /\ has "8BITMIME" l = true /\ has "ENHANCEDSTATUSCODES" l = true /\
  has "CHUNKING" l = true /\
  has "SIZE" l = (cf_max_bytes cfg <=? 0)%Z /\ has "SIZE 1000" l = (cf_max_bytes cfg =? 1000)%Z /\
  has "LIMITS RCPTMAX=7" l = (cf_max_rcpt cfg =? 7)%N.
Proof.
  intros Hb Hr. subst l. unfold has. repeat apply conj; rewrite existsb_caps.
  (* a keyword without a value differs from the SIZE and LIMITS lines before their value is reached *)
  1-11: generalize (dec_of_Z (cf_max_bytes cfg)), (dec_of_N (cf_max_rcpt cfg)); intros dz dn.
  12-14: destruct Hb as [<-|[<-|[]]], Hr as [<-|[<-|[]]].
  all: cbn; destruct (cf_auth cfg) as [[|m ms]|], (0 <? cf_max_bytes cfg)%Z; cbn;
    rewrite ?andb_true_r, ?andb_false_r, ?orb_false_r; reflexivity.
Qed.

Lemma verdicts cfg :
  is_inl (mail_param cfg (bs "SMTPUTF8") [] mo_zero false) = cf_utf8 cfg /\
  is_504 (mail_param cfg (bs "SMTPUTF8") [] mo_zero false) = negb (cf_utf8 cfg) /\
  is_inl (mail_param cfg (bs "BODY") (bs "BINARYMIME") mo_zero false) = cf_binarymime cfg /\
  is_504 (mail_param cfg (bs "BODY") (bs "BINARYMIME") mo_zero false) = negb (cf_binarymime cfg) /\
  is_inl (mail_param cfg (bs "RET") (bs "FULL") mo_zero false) = cf_dsn cfg /\
  is_504 (mail_param cfg (bs "ENVID") (bs "x") mo_zero false) = negb (cf_dsn cfg) /\
  is_inl (rcpt_param cfg (bs "NOTIFY") (bs "DELAY") ro_zero) = cf_dsn cfg /\
  is_504 (rcpt_param cfg (bs "ORCPT") (bs "rfc822;a@b") ro_zero) = negb (cf_dsn cfg) /\
  is_inl (rcpt_param cfg (bs "RRVS") (bs "2014-04-03T23:01:00Z") ro_zero) = cf_rrvs cfg /\
  is_504 (rcpt_param cfg (bs "RRVS") (bs "2014-04-03T23:01:00Z") ro_zero) = negb (cf_rrvs cfg) /\
  is_inl (mail_param cfg (bs "REQUIRETLS") [] mo_zero false) = cf_requiretls cfg /\
  is_504 (mail_param cfg (bs "REQUIRETLS") [] mo_zero false) = negb (cf_requiretls cfg).
Proof.
  unfold mail_param, rcpt_param. cbn -[parse_rfc3339]. repeat apply conj.
  1,2: destruct (cf_utf8 cfg); reflexivity.
  1,2: destruct (cf_binarymime cfg); reflexivity.
  1-4: destruct (cf_dsn cfg); reflexivity.
  1,2: destruct (cf_rrvs cfg); vm_compute; reflexivity.
  1,2: destruct (cf_requiretls cfg); reflexivity.
Qed.

Theorem consistent cfg tls :
  In (cf_max_bytes cfg) [0; 1000]%Z -> In (cf_max_rcpt cfg) [0; 7]%N -> cfg_consistent (cfg, tls) = true.
Proof.
  intros Hb Hr. unfold cfg_consistent.
  destruct (listed cfg (mk_conn cfg tls) Hb Hr) as (-> & -> & -> & -> & -> & -> & -> & -> & -> & -> & -> & -> & -> & ->).
  destruct (verdicts cfg) as (-> & -> & -> & -> & -> & -> & -> & -> & -> & -> & -> & ->).
  rewrite !eqb_reflx. cbn [mk_conn c_tls auth_allowed].
  destruct tls, (cf_requiretls cfg); reflexivity.
Qed.

Theorem cfg_space_consistent p : In p cfg_space -> cfg_consistent p = true.
Proof.
  unfold cfg_space. intros H.
  do 9 apply in_flat_map in H as (? & _ & H).
  apply in_flat_map in H as (mb & Hb & H). apply in_flat_map in H as (mr & Hr & H).
  apply in_map_iff in H as (au & <- & _). apply consistent; assumption.
Qed.
