(* C19, backend side: if no data plan of the backend script panics (and, for an
   LMTP backend with per-recipient statuses, makes no SetStatus call that
   could violate the statusCollector contract), no delivery event of the model
   reports a panic.  Together with the monitor (a recovered panic needs a
   panicking delivery) this gives: the model never recovers a panic. *)
From Smtp Require Import Bytes Lmtp Conn
  ConnProofs TraceProps BdatProofs HandlerOutcomes.

Definition plan_ok (cfg : config) (p : data_plan) : Prop :=
  dp_panic p = false /\ (cf_lmtp cfg && cf_lmtp_session cfg = true -> dp_status p = []).

Definition backend_ok (cfg : config) (be : backend) : Prop := Forall (plan_ok cfg) (be_data be).

Definition calm (e : event) : Prop := is_panicking e = false.

Section NoPanic.
Variable cfg : config.

Definition K (c : conn) : Prop :=
  Forall (plan_ok cfg) (be_data (c_be c))
  /\ match c_bdat c with Some b => bd_panics b = false | None => True end.

Definition KGood (r : hres) : Prop := K (fst r) /\ Forall calm (snd r).

Lemma pop_plan_ok l : Forall (plan_ok cfg) l ->
  plan_ok cfg (fst (pop dp_default l)) /\ Forall (plan_ok cfg) (snd (pop dp_default l)).
Proof.
  intros H. destruct H as [|p l Hp Hl]; cbn; [split; [split; reflexivity|constructor]|split; assumption].
Qed.

Lemma plain_calm e : plain_ev e = true -> calm e.
Proof. destruct e; (discriminate || reflexivity). Qed.

Lemma abort_calm bd :
  match bd with Some b => bd_panics b = false | None => True end -> Forall calm (abort_ev bd).
Proof. intros H. apply Forall_abort_ev. intros b -> _. exact H. Qed.

Lemma plain_KGood c r : K c -> Plain calm c r -> KGood r.
Proof.
  intros [H1 H2] (Hbe & Hbd & Hev). split; [split|exact Hev].
  - rewrite Hbe. exact H1.
  - destruct Hbd as [[-> _]|[-> _]]; [exact H2|exact I].
Qed.

Lemma protocol_error_calm c code ec msg : K c -> KGood (protocol_error c code ec msg).
Proof.
  intros HK. apply (plain_KGood c _ HK), protocol_error_plain; [exact plain_calm|apply abort_calm, HK].
Qed.

Lemma ended_K cm c' tail : K cm -> ended cm c' tail -> K c' /\ Forall calm tail.
Proof.
  intros [Hp Hb] (Hev & Hbe & Hbd & _). split; [split; [rewrite Hbe; exact Hp|rewrite Hbd; exact I]|].
  destruct Hev as [-> | ->]; [apply Forall_reset_ev|apply Forall_close_ev]; try reflexivity; apply abort_calm, Hb.
Qed.

Lemma handle_data_calm c arg : K c -> KGood (handle_data cfg c arg).
Proof.
  intros HK.
  destruct (handle_data_outcome cfg c arg)
    as [code ec msg _|_ _|p rest got term code ec msg cm c' tail Ep Hbe _ Hbd _ _ Hend
       |p rest got term cm c' tail Ep Hbe _ Hbd _ _ _ Hend
       |p rest got term sts pk cm c' tail Ep Hbe _ Hbd Hl Hls Est Hend
       |p rest got term cm Ep _ _ _ Hpan _].
  1,2: split; [exact HK|repeat constructor].
  all: destruct (pop_plan_ok _ (proj1 HK)) as [[Hpp Hps] Hrest]; rewrite Ep in Hpp, Hps, Hrest; cbn [fst snd] in *.
  4: congruence.   (* it does not panic *)
  all: assert (HKm : K cm) by (split; [rewrite Hbe; exact Hrest|rewrite Hbd; exact I]).
  all: destruct (ended_K _ _ _ HKm Hend) as [HK' Ht]; split; [exact HK'|]; cbn [snd].
  - apply Forall_app. split; [repeat constructor|exact Ht].
  - apply Forall_app. split; [repeat constructor|]. apply Forall_app. split; [|exact Ht].
    apply Forall_wires; [reflexivity|apply (forallb_map_status_reply (fun _ => _))].
  - (* with per-recipient statuses it sets none: the statuses are those of its return value *)
    rewrite Hps, Hpp in Est by (rewrite Hl, Hls; reflexivity).
    unfold lmtp_statuses in Est. cbn in Est. injection Est as _ <-.
    apply Forall_app. split; [repeat constructor|]. apply Forall_app. split; [|exact Ht].
    apply Forall_wires; [reflexivity|apply forallb_map_status_reply2].
Qed.

Lemma bd_end_calm b term :
  bd_panics b = false ->
  bd_panics (fst (bd_end b term)) = false /\ Forall calm (snd (bd_end b term)).
Proof. intros H. destruct (bd_end_cases b term) as [->|[_ ->]]; repeat constructor; exact H. Qed.

Lemma bd_feed_calm b chunk :
  bd_panics b = false ->
  bd_panics (fst (fst (bd_feed b chunk))) = false /\ Forall calm (snd (fst (bd_feed b chunk))).
Proof.
  intros H. destruct (bd_feed_cases b chunk) as [->|(_ & a & _ & [->| ->])]; repeat constructor; exact H.
Qed.

Lemma bd_new_calm p rc :
  dp_panic p = false ->
  bd_panics (fst (bd_new p rc false)) = false /\ Forall calm (snd (bd_new p rc false)).
Proof.
  intros H. destruct (bd_new_cases p rc false) as [->| ->]; cbn; rewrite H; repeat constructor.
Qed.

Lemma bdat_start_calm c b0 ev0 c0 :
  K c -> bdat_start cfg c = (b0, ev0, c0) ->
  bd_panics b0 = false /\ Forall calm ev0 /\ Forall (plan_ok cfg) (be_data (c_be c0)).
Proof.
  intros [Hp Hb]. unfold bdat_start, pop_data. destruct (c_bdat c) as [b|]; [intros [= <- <- <-]; auto|].
  destruct (pop_plan_ok _ Hp) as [[Hpp Hps] Hrest]. destruct (pop dp_default _) as [p rest]. cbn [fst snd] in *.
  assert (Hsp : forall rc, cf_lmtp cfg && cf_lmtp_session cfg
                           && snd (run_statuses (dp_status p) (mk_collector rc)) = false).
  { intros rc. destruct (cf_lmtp cfg && cf_lmtp_session cfg); [rewrite (Hps eq_refl)|]; reflexivity. }
  rewrite Hsp. match goal with |- context [bd_new p ?rc false] =>
    destruct (bd_new_calm p rc Hpp) as [Hn1 Hn2]; destruct (bd_new p rc false) end.
  intros [= <- <- <-]. auto.
Qed.

Lemma handle_bdat_calm c arg : K c -> KGood (handle_bdat cfg c arg).
Proof.
  intros HK.
  destruct (handle_bdat_some_outcome cfg c arg)
    as [last [code ec msg c' tail _ Hset|_ _|chunk b0 ev0 c0 b1 ev1 c' E0 E1 _ Hbe _ Hbd
             |chunk cerr b0 ev0 c0 b1 ev1 werr e b2 ev2 cm c' tail E0 E1 Hend _ Hset Hbe _ Hbd]].
  all: unfold KGood; cbn [fst snd].
  1: destruct Hset as [(-> & Hbe & Hbd & _)|Hset].
  - split; [split; [rewrite Hbe|rewrite Hbd]; apply HK|repeat constructor].
  - destruct (ended_K _ _ _ HK Hset) as [HK' Ht]. split; [exact HK'|constructor; [reflexivity|exact Ht]].
  - split; [exact HK|repeat constructor].
  - destruct (bdat_start_calm _ _ _ _ HK E0) as (Hb0 & Hev0 & Hp0).
    destruct (bd_feed_calm b0 chunk Hb0) as [Hb1 Hev1]. rewrite E1 in Hb1, Hev1. cbn [fst snd] in *.
    split; [split; [rewrite Hbe; exact Hp0|rewrite Hbd; exact Hb1]|].
    repeat (apply Forall_app; split); try assumption. repeat constructor.
  - destruct (bdat_start_calm _ _ _ _ HK E0) as (Hb0 & Hev0 & Hp0).
    destruct (bd_feed_calm b0 chunk Hb0) as [Hb1 Hev1]. rewrite E1 in Hb1, Hev1. cbn [fst snd] in *.
    assert (H2 : bd_panics b2 = false /\ Forall calm ev2).
    { destruct (fed_end_pipe _ _ _ _ _ _ _ _ Hend) as [[= -> ->]|[pe E]]; [split; [exact Hb1|constructor]|].
      pose proof (bd_end_calm b1 pe Hb1) as H. rewrite E in H. exact H. }
    assert (HKm : K cm) by (split; [rewrite Hbe; exact Hp0|rewrite Hbd; apply H2]).
    destruct (ended_K _ _ _ HKm Hset) as [HK' Ht]. split; [exact HK'|].
    repeat (apply Forall_app; split); try assumption; try apply H2.
    apply Forall_wires; [reflexivity|apply fed_replies_wires].
Qed.

Lemma handle_calm c cmd arg : K c -> KGood (handle cfg c cmd arg).
Proof.
  intros HK. apply (handle_cases_plain cfg c cmd arg calm).
  - exact plain_calm.
  - apply abort_calm, HK.
  - intros r. exact (plain_KGood c r HK).
  - apply handle_bdat_calm, HK.
  - apply handle_data_calm, HK.
Qed.

Lemma K_upd_t c t : K c -> K (upd_t c t).
Proof. intros H. exact H. Qed.

Lemma serve_loop_calm fuel c : K c -> Forall calm (serve_loop fuel cfg c).
Proof.
  apply (serve_loop_Forall cfg K calm); try reflexivity.
  - exact K_upd_t.
  - intros c1 cmd arg HK _. apply handle_calm, HK.
  - intros c1 code ec msg HK _. apply protocol_error_calm, HK.
  - intros c1 HK. apply Forall_close_ev; [apply abort_calm, HK|reflexivity..].
  - intros e. apply Forall_wires; [reflexivity|apply read_failure_reply_wires].
Qed.

End NoPanic.

Theorem serve_calm fuel cfg be phases :
  backend_ok cfg be -> forall e, In e (serve fuel cfg be phases) -> is_panicking e = false.
Proof.
  intros Hbe. apply Forall_forall. constructor; [reflexivity|].
  apply serve_loop_calm. unfold init_conn. destruct phases; (split; [exact Hbe|exact I]).
Qed.

(* C19: the model never recovers a panic unless the backend panics *)
Theorem serve_no_panic fuel cfg be phases :
  backend_ok cfg be -> ~ In EPanic (serve fuel cfg be phases).
Proof.
  intros Hbe. apply C19_no_panic_from.
  - apply (accepted_C19_panic_only_from_backend cfg). apply serve_accepted_strict.
  - apply serve_calm, Hbe.
Qed.
Print Assumptions serve_no_panic.
