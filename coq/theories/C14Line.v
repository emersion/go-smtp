(* C14: the server's line-level parsing (parseCmd, TrimSpace, cutPrefixFold,
   the path parser, strings.Fields, parseArgs) applied to a line of the shape
   the client writes:
       VERB SP "FROM:<" addr ">" { SP token }
   where no token contains white space in the sense of Go's unicode.IsSpace
   ([ws_free]). *)
From Smtp Require Import Bytes GoStrings Utf8 Parse XtextProofs ReplyProofs.
From Coq Require Import Lia.
Local Open Scope char_scope.

(* no Unicode white space starts at any position of s *)
Fixpoint ws_free (s : bytes) : bool :=
  match s with
  | [] => true
  | _ :: t => (space_len s =? 0)%nat && ws_free t
  end.

Lemma find_ext_in {A} (f g : A -> bool) l :
  (forall x, In x l -> f x = g x) -> find f l = find g l.
Proof.
  induction l as [|x l IH]; intros H; [reflexivity|]. cbn [find].
  rewrite (H x) by now left. rewrite IH; [reflexivity|]. intros y Hy. apply H. now right.
Qed.

Lemma find_none {A} (f : A -> bool) l : (forall x, In x l -> f x = false) -> find f l = None.
Proof.
  induction l as [|x l IH]; intros H; [reflexivity|]. cbn [find].
  rewrite (H x) by now left. apply IH. intros y Hy. apply H. now right.
Qed.

Lemma is_prefix_app_stop u : forall a c r,
  mem_byte c u = false -> is_prefix u (a ++ c :: r) = is_prefix u a.
Proof.
  induction u as [|x u IH]; intros a c r H; [reflexivity|].
  cbn [mem_byte] in H. apply orb_false_iff in H as [H1 H2].
  destruct a as [|y a]; cbn [app is_prefix].
  - rewrite Ascii.eqb_sym, H1. reflexivity.
  - rewrite IH by exact H2. reflexivity.
Qed.

Lemma is_prefix_split u : forall s, is_prefix u s = true -> s = u ++ skipn (List.length u) s.
Proof.
  induction u as [|x u IH]; intros s H; [reflexivity|].
  destruct s as [|y s]; [discriminate|]. cbn [is_prefix] in H.
  apply andb_true_iff in H as [H1 H2]. apply Ascii.eqb_eq in H1. subst y.
  cbn [app List.length skipn]. f_equal. now apply IH.
Qed.

Lemma is_prefix_refl_app u r : is_prefix u (u ++ r) = true.
Proof. exact (is_prefix_app u r). Qed.

(* the table of non-ASCII white space, by computation: each entry counts as
   white space, consists of octets from 0x80 up and begins with an octet that
   is not a continuation octet *)
Definition all_high (u : bytes) : bool := forallb (fun c => (128 <=? byte_n c)%N) u.

Lemma uni_space_facts u :
  In u uni_spaces ->
  all_high u = true /\ space_len u <> 0%nat
  /\ exists c t, u = c :: t /\ is_cont c = false /\ (128 <= byte_n c)%N.
Proof.
  assert (C : forallb (fun u => all_high u && negb (space_len u =? 0)%nat
                                && match u with c :: _ => negb (is_cont c) | [] => false end)
                      uni_spaces = true) by (vm_compute; reflexivity).
  rewrite forallb_forall in C. intros H. specialize (C u H).
  apply andb_true_iff in C as [C C3]. apply andb_true_iff in C as [C1 C2].
  split; [exact C1|]. split.
  { apply negb_true_iff in C2. apply Nat.eqb_neq in C2. exact C2. }
  destruct u as [|c t]; [discriminate|]. exists c, t. split; [reflexivity|].
  split; [now apply negb_true_iff in C3|].
  unfold all_high in C1. cbn [forallb] in C1. apply andb_true_iff in C1 as [C1 _]. lia.
Qed.

Lemma all_high_not_mem u c : all_high u = true -> is_ascii7 c = true -> mem_byte c u = false.
Proof.
  intros H Hc. eapply forallb_not_mem; [exact H|]. cbv beta. unfold is_ascii7 in Hc. lia.
Qed.

(* a 7-bit or continuation octet is not the lead octet of a white-space rune:
   unless it is ASCII white space it starts no white space, whatever follows *)
Lemma space_len_nolead c t :
  is_ascii_space c = false -> is_ascii7 c = true \/ is_cont c = true -> space_len (c :: t) = 0%nat.
Proof.
  intros Hs Hc. unfold space_len. rewrite Hs, find_none; [reflexivity|].
  intros u Hu. destruct (uni_space_facts u Hu) as (_ & _ & x & r & -> & Hx & Hh).
  cbn [is_prefix]. destruct (Ascii.eqb x c) eqn:E; [|reflexivity]. apply Ascii.eqb_eq in E. subst x.
  unfold is_ascii7 in Hc. destruct Hc as [Hc|Hc]; [lia|congruence].
Qed.

Definition tokch (c : ascii) : bool := is_ascii7 c && negb (is_ascii_space c).

Lemma space_len_ascii c t : tokch c = true -> space_len (c :: t) = 0%nat.
Proof.
  intros H. apply andb_true_iff in H as [H1 H2]. apply negb_true_iff in H2.
  apply space_len_nolead; [exact H2|now left].
Qed.

Lemma space_len_cont c t : is_cont c = true -> space_len (c :: t) = 0%nat.
Proof.
  intros H. apply space_len_nolead; [|now right].
  unfold is_cont, in_range in H. unfold is_ascii_space, in_range.
  destruct (Ascii.eqb c " ") eqn:E; [apply Ascii.eqb_eq in E; subst c; vm_compute in H; discriminate|].
  rewrite orb_false_r. lia.
Qed.

(* octets that start no white space may be put in front *)
Lemma ws_free_app_nolead (P : ascii -> bool) :
  (forall c t, P c = true -> space_len (c :: t) = 0%nat) ->
  forall a b, forallb P a = true -> ws_free b = true -> ws_free (a ++ b) = true.
Proof.
  intros HP a b. induction a as [|c a IH]; [intros _ H; exact H|]. cbn [forallb app ws_free]. intros H Hb.
  apply andb_true_iff in H as [H1 H2]. rewrite (HP c _ H1), (IH H2 Hb). reflexivity.
Qed.

Lemma ws_free_app_ascii a b : forallb tokch a = true -> ws_free b = true -> ws_free (a ++ b) = true.
Proof. exact (ws_free_app_nolead tokch space_len_ascii a b). Qed.

Lemma ws_free_ascii s : forallb tokch s = true -> ws_free s = true.
Proof. intros H. rewrite <- (app_nil_r s). now apply ws_free_app_ascii. Qed.

Lemma ws_free_suffix a : forall b, ws_free (a ++ b) = true -> ws_free b = true.
Proof.
  induction a as [|c a IH]; intros b H; [exact H|]. cbn [app ws_free] in H.
  apply andb_true_iff in H as [_ H]. now apply IH.
Qed.

Lemma ws_free_head c t : ws_free (c :: t) = true -> space_len (c :: t) = 0%nat.
Proof. cbn [ws_free]. intros H. apply andb_true_iff in H as [H _]. now apply Nat.eqb_eq in H. Qed.

(* what follows a token on the line (SP or the end) does not change space_len inside it *)
Lemma space_len_app_sp c a r : space_len ((c :: a) ++ " " :: r) = space_len (c :: a).
Proof.
  unfold space_len. cbn [app]. destruct (is_ascii_space c); [reflexivity|].
  rewrite (find_ext_in _ (fun u => is_prefix u (c :: a))); [reflexivity|].
  intros u Hu. change (c :: a ++ " " :: r) with ((c :: a) ++ " " :: r).
  apply is_prefix_app_stop. destruct (uni_space_facts u Hu) as (H & _).
  now apply all_high_not_mem.
Qed.

Definition sp_or_end (rest : bytes) : Prop := rest = [] \/ exists r, rest = " " :: r.

Lemma space_len_tok_rest c a rest :
  sp_or_end rest -> space_len ((c :: a) ++ rest) = space_len (c :: a).
Proof. intros [-> | [r ->]]; [now rewrite app_nil_r|apply space_len_app_sp]. Qed.

Definition render (ps : list bytes) : bytes := flat_map (fun p => " " :: p) ps.

Lemma render_sp_or_end ps : sp_or_end (render ps).
Proof. destruct ps as [|p ps]; [now left|right]. cbn [render flat_map app]. eauto. Qed.

Lemma fields_tok tok : forall cur rest k,
  ws_free tok = true -> sp_or_end rest ->
  fields_f (List.length tok + k) (tok ++ rest) cur = fields_f k rest (rev tok ++ cur).
Proof.
  induction tok as [|c t IH]; intros cur rest k Hw Hr; [reflexivity|].
  cbn [List.length Nat.add]. cbn [fields_f].
  change ((c :: t) ++ rest) with (c :: t ++ rest) at 1.
  change (c :: t ++ rest) with ((c :: t) ++ rest) at 1.
  rewrite (space_len_tok_rest c t rest Hr), (ws_free_head c t Hw).
  cbn [app]. cbn [ws_free] in Hw. apply andb_true_iff in Hw as [_ Hw].
  rewrite IH by assumption. cbn [rev]. rewrite <- app_assoc. reflexivity.
Qed.

Definition tok_ok (p : bytes) : Prop := ws_free p = true /\ p <> [].

Lemma fields_render ps : forall cur k,
  Forall tok_ok ps -> (List.length (render ps) <= k)%nat ->
  fields_f k (render ps) cur = (match cur with [] => [] | _ => [rev cur] end) ++ ps.
Proof.
  induction ps as [|p ps IH]; intros cur k Hp Hk.
  - cbn [render flat_map]. rewrite app_nil_r. destruct k; reflexivity.
  - inversion Hp as [|? ? [Hw Hne] Hps]; subst.
    cbn [render flat_map] in *. fold (render ps) in *.
    cbn [app List.length] in Hk. rewrite app_length in Hk.
    destruct k as [|k]; [lia|]. cbn [fields_f app].
    change (space_len (" " :: p ++ render ps)) with 1%nat. cbv iota. cbn [skipn].
    replace k with (List.length p + (k - List.length p))%nat by lia.
    assert (E : fields_f (List.length p + (k - List.length p)) (p ++ render ps) [] = p :: ps).
    { rewrite fields_tok by (assumption || apply render_sp_or_end).
      rewrite IH by (assumption || lia). rewrite app_nil_r.
      destruct (rev p) eqn:R.
      - apply (f_equal (@rev ascii)) in R. rewrite rev_involutive in R. cbn in R. congruence.
      - rewrite <- R, rev_involutive. reflexivity. }
    rewrite E. destruct cur; reflexivity.
Qed.

Theorem fields_render_all ps : Forall tok_ok ps -> fields (render ps) = ps.
Proof. intros H. unfold fields. rewrite fields_render by (assumption || lia). reflexivity. Qed.

Lemma trim_left_id c t : space_len (c :: t) = 0%nat -> trim_left_space (c :: t) = c :: t.
Proof. intros H. unfold trim_left_space. cbn [List.length trim_left_f]. now rewrite H. Qed.

Lemma trim_right_id s : space_len_rev (rev s) = 0%nat -> trim_right_space s = s.
Proof.
  intros H. unfold trim_right_space. destruct (List.length s); cbn [trim_right_f].
  - apply rev_involutive.
  - rewrite H. apply rev_involutive.
Qed.

Lemma is_prefix_rev_suffix u s : is_prefix (rev u) (rev s) = true -> exists s1, s = s1 ++ u.
Proof.
  intros H. apply is_prefix_split in H.
  exists (rev (skipn (List.length (rev u)) (rev s))).
  apply (f_equal (@rev ascii)) in H. rewrite rev_involutive, rev_app_distr, rev_involutive in H.
  exact H.
Qed.

(* if a suffix u of pre ++ c :: tok does not contain c, it is a suffix of tok *)
Lemma suffix_in_tok (s1 u pre tok : bytes) c :
  s1 ++ u = pre ++ c :: tok -> mem_byte c u = false -> exists t1, tok = t1 ++ u.
Proof.
  intros E Hc. change (pre ++ c :: tok) with (pre ++ [c] ++ tok) in E. rewrite app_assoc in E.
  apply app_eq_app in E as [l [[E1 E2]|[E1 E2]]].
  - (* s1 = (pre ++ [c]) ++ l, tok = l ++ u *) now exists l.
  - (* pre ++ [c] = s1 ++ l, u = l ++ tok *)
    destruct l as [|x l] using rev_ind.
    + cbn in E2. exists []. now subst.
    + exfalso. rewrite app_assoc in E1. apply app_inj_tail in E1 as [_ <-].
      subst u. rewrite <- app_assoc in Hc. rewrite mem_byte_app in Hc. apply orb_false_iff in Hc as [_ Hc].
      cbn [app mem_byte] in Hc. rewrite Ascii.eqb_refl in Hc. discriminate.
Qed.

Lemma space_len_at_suffix t1 u : ws_free (t1 ++ u) = true -> u <> [] -> space_len u = 0%nat.
Proof.
  intros H Hu. apply ws_free_suffix in H. destruct u as [|c u]; [congruence|]. now apply ws_free_head.
Qed.

(* the end of a line  pre c tok  (c a 7-bit octet, tok white-space free, and
   c not white space when tok is empty) is not white space *)
Lemma space_len_rev_tail pre c tok :
  is_ascii7 c = true -> ws_free tok = true -> (tok = [] -> is_ascii_space c = false) ->
  space_len_rev (rev (pre ++ c :: tok)) = 0%nat.
Proof.
  intros Hc Hw Hne. set (s := pre ++ c :: tok).
  destruct (rev s) as [|x r] eqn:R; [reflexivity|].
  assert (Hx : exists s0, s = s0 ++ [x]).
  { exists (rev r). apply (f_equal (@rev ascii)) in R. rewrite rev_involutive in R. exact R. }
  destruct Hx as [s0 Hx].
  unfold space_len_rev.
  destruct (is_ascii_space x) eqn:Sx.
  - exfalso. destruct tok as [|y tok] using rev_ind.
    + subst s. apply app_inj_tail in Hx as [_ <-]. rewrite (Hne eq_refl) in Sx. discriminate.
    + clear IHtok. subst s. change (pre ++ c :: tok ++ [y]) with (pre ++ (c :: tok) ++ [y]) in Hx.
      rewrite app_assoc in Hx. apply app_inj_tail in Hx as [_ <-].
      pose proof (space_len_at_suffix tok [y] Hw ltac:(discriminate)) as Z.
      unfold space_len in Z. rewrite Sx in Z. discriminate.
  - rewrite find_none; [reflexivity|].
    intros u Hu. destruct (is_prefix (rev u) (x :: r)) eqn:P; [|reflexivity]. exfalso.
    rewrite <- R in P. apply is_prefix_rev_suffix in P as [s1 P].
    destruct (uni_space_facts u Hu) as (Hh & Hsl & ? & ? & Eu & _).
    subst s. symmetry in P.
    destruct (suffix_in_tok s1 u pre tok c P (all_high_not_mem u c Hh Hc)) as [t1 ->].
    apply Hsl, (space_len_at_suffix t1 u Hw). rewrite Eu. discriminate.
Qed.

Theorem trim_space_id c t pre d tok :
  space_len (c :: t) = 0%nat -> c :: t = pre ++ d :: tok ->
  is_ascii7 d = true -> ws_free tok = true -> (tok = [] -> is_ascii_space d = false) ->
  trim_space (c :: t) = c :: t.
Proof.
  intros H0 E Hd Hw Hne. unfold trim_space. rewrite trim_left_id by exact H0.
  apply trim_right_id. rewrite E. now apply space_len_rev_tail.
Qed.

(* strings.TrimRight(s, "\r\n") *)
Lemma trim_right_crlf_id s : mem_byte CR s = false -> mem_byte LF s = false -> trim_right_crlf s = s.
Proof.
  intros Hc Hl. unfold trim_right_crlf.
  enough (E : trim_right_crlf_rev (rev s) = rev s) by (rewrite E; apply rev_involutive).
  destruct (rev s) as [|x r] eqn:R; [reflexivity|].
  assert (Hin : In x s) by (apply in_rev; rewrite R; now left).
  apply mem_false_forallb in Hc, Hl. rewrite forallb_forall in Hc, Hl.
  specialize (Hc x Hin). specialize (Hl x Hin). apply negb_true_iff in Hc, Hl.
  cbn [trim_right_crlf_rev]. now rewrite Ascii.eqb_sym, Hc, Ascii.eqb_sym, Hl.
Qed.

Lemma render_app a b : render (a ++ b) = render a ++ render b.
Proof. unfold render. apply flat_map_app. Qed.

(* head addr ">" tokens  ends in a way TrimSpace leaves alone *)
Lemma line_tail (head : bytes) ps :
  Forall tok_ok ps ->
  exists pre d tok, head ++ ">" :: render ps = pre ++ d :: tok
    /\ is_ascii7 d = true /\ ws_free tok = true /\ (tok = [] -> is_ascii_space d = false).
Proof.
  intros H. destruct ps as [|p ps] using rev_ind.
  - exists head, ">", []. repeat split; reflexivity.
  - clear IHps. apply Forall_app in H as [_ H]. inversion H as [|? ? [Hw Hne] _]; subst.
    rewrite render_app. cbn [render flat_map]. rewrite app_nil_r.
    exists (head ++ ">" :: flat_map (fun p => " " :: p) ps), " ", p.
    split; [|split; [reflexivity|split; [exact Hw|intros ->; congruence]]].
    fold (render ps). rewrite <- app_assoc. reflexivity.
Qed.

Definition clean (l : bytes) : Prop := mem_byte CR l = false /\ mem_byte LF l = false.

(* parseCmd on "VERB" SP arg: a four-letter verb that does not begin like STARTTLS *)
Lemma parse_cmd_verb (v0 v1 v2 v3 : ascii) c t :
  (forall r, to_upper (v0 :: v1 :: r) = up1 v0 :: to_upper (v1 :: r)) ->
  Ascii.eqb "S" (up1 v0) = false ->
  clean (v0 :: v1 :: v2 :: v3 :: " " :: c :: t) ->
  trim_space (c :: t) = c :: t ->
  parse_cmd (v0 :: v1 :: v2 :: v3 :: " " :: c :: t) = Some (to_upper [v0; v1; v2; v3], c :: t).
Proof.
  intros Hu Hs [Hc Hl] Ht. unfold parse_cmd. rewrite trim_right_crlf_id by assumption.
  unfold has_prefix. rewrite Hu. cbn [bs list_ascii_of_string is_prefix]. rewrite Hs. cbn [andb].
  cbn [List.length Nat.eqb Nat.ltb Nat.leb nth firstn skipn]. cbn [Ascii.eqb Bool.eqb andb negb].
  rewrite Ht. reflexivity.
Qed.

Lemma parse_cmd_envelope verb c t :
  verb = bs "MAIL" \/ verb = bs "RCPT" -> clean (c :: t) -> trim_space (c :: t) = c :: t ->
  parse_cmd (verb ++ " " :: c :: t) = Some (verb, c :: t).
Proof.
  intros [-> | ->] Hc Ht;
    [apply (parse_cmd_verb "M" "A" "I" "L")|apply (parse_cmd_verb "R" "C" "P" "T")];
    try reflexivity; assumption.
Qed.

Lemma cut_prefix_from rest : cut_prefix_fold (bs "FROM:" ++ rest) (bs "FROM:") = Some rest.
Proof. reflexivity. Qed.
Lemma cut_prefix_to rest : cut_prefix_fold (bs "TO:" ++ rest) (bs "TO:") = Some rest.
Proof. reflexivity. Qed.

Definition lp_ok (c : ascii) : bool := negb (Ascii.eqb c "@") && negb (dot_string_special c).
Definition dom_ok (c : ascii) : bool :=
  negb (Ascii.eqb c " " || Ascii.eqb c HT || Ascii.eqb c ">").

Lemma dot_string_go_app lp : forall acc rest,
  forallb lp_ok lp = true ->
  dot_string_go (lp ++ "@" :: rest) acc = Some (rev acc ++ lp, "@" :: rest).
Proof.
  induction lp as [|c lp IH]; intros acc rest H.
  - cbn [app dot_string_go]. cbn [Ascii.eqb Bool.eqb andb]. now rewrite app_nil_r.
  - cbn [forallb] in H. apply andb_true_iff in H as [H1 H2]. unfold lp_ok in H1.
    apply andb_true_iff in H1 as [A B]. apply negb_true_iff in A, B.
    cbn [app dot_string_go]. rewrite A, B, IH by exact H2. cbn [rev]. now rewrite <- app_assoc.
Qed.

Definition tail_stop (tail : bytes) : Prop :=
  tail = [] \/ exists c r, tail = c :: r /\ dom_ok c = false.

Lemma domain_go_app dom : forall acc tail,
  forallb dom_ok dom = true -> tail_stop tail ->
  domain_go (dom ++ tail) acc = (rev acc ++ dom, tail).
Proof.
  induction dom as [|c dom IH]; intros acc tail H Ht.
  - cbn [app]. rewrite app_nil_r. destruct Ht as [->|(c & r & -> & Hc)]; [reflexivity|].
    cbn [domain_go]. unfold dom_ok in Hc. apply negb_false_iff in Hc. now rewrite Hc.
  - cbn [forallb] in H. apply andb_true_iff in H as [H1 H2]. unfold dom_ok in H1.
    apply negb_true_iff in H1. cbn [app domain_go]. rewrite H1, IH by assumption.
    cbn [rev]. now rewrite <- app_assoc.
Qed.

Definition mbox_ok (lp dom : bytes) : Prop :=
  lp <> [] /\ forallb lp_ok lp = true /\ forallb dom_ok dom = true
  /\ has_suffix (lp ++ "@" :: dom) (bs "@") = false.

(* the local part begins with an octet that opens neither a quoted string nor
   a domain nor "<>" *)
Lemma mbox_first lp dom :
  mbox_ok lp dom ->
  exists c t, lp = c :: t /\ Ascii.eqb c """" = false /\ Ascii.eqb ">" c = false /\ Ascii.eqb c "@" = false.
Proof.
  intros (Hne & Hlp & _). destruct lp as [|c t]; [congruence|]. exists c, t. split; [reflexivity|].
  cbn [forallb] in Hlp. apply andb_true_iff in Hlp as [Hc _].
  pose proof (byte_enum (fun c => implb (lp_ok c) (negb (Ascii.eqb c """") && negb (Ascii.eqb ">" c)
                                                   && negb (Ascii.eqb c "@")))
                        ltac:(vm_compute; reflexivity) c) as E.
  cbv beta in E. rewrite Hc in E. apply andb_true_iff in E as [E E3]. apply andb_true_iff in E as [E1 E2].
  now apply negb_true_iff in E1, E2, E3.
Qed.

Theorem parse_mailbox_ok lp dom tail :
  mbox_ok lp dom -> tail_stop tail ->
  parse_mailbox (lp ++ "@" :: dom ++ tail) = Some (lp ++ "@" :: dom, tail).
Proof.
  intros H Ht. destruct (mbox_first lp dom H) as (c & t & -> & Hq & _).
  destruct H as (_ & Hlp & Hdom & Hsuf). unfold parse_mailbox, parse_local_part.
  cbn [app]. rewrite Hq.
  change (c :: t ++ "@" :: dom ++ tail) with ((c :: t) ++ "@" :: dom ++ tail).
  rewrite dot_string_go_app by exact Hlp. cbn [rev app].
  cbn [Ascii.eqb Bool.eqb andb]. rewrite domain_go_app by assumption. cbn [rev app].
  cbn [app] in Hsuf. rewrite Hsuf. reflexivity.
Qed.

(* "<addr>" rest *)
Theorem parse_path_ok lp dom rest :
  mbox_ok lp dom ->
  parse_path ("<" :: (lp ++ "@" :: dom) ++ ">" :: rest) = Some (lp ++ "@" :: dom, rest).
Proof.
  intros H. destruct (mbox_first lp dom H) as (c & t & -> & _ & _ & Hat).
  unfold parse_path. cbn [Ascii.eqb Bool.eqb andb app]. rewrite Hat.
  replace (c :: (t ++ "@" :: dom) ++ ">" :: rest) with ((c :: t) ++ "@" :: dom ++ ">" :: rest)
    by (cbn [app]; now rewrite <- app_assoc).
  rewrite parse_mailbox_ok; [|exact H|right; exists ">", rest; split; reflexivity].
  cbn [Ascii.eqb Bool.eqb andb]. reflexivity.
Qed.

Theorem parse_reverse_path_ok lp dom rest :
  mbox_ok lp dom ->
  parse_reverse_path ("<" :: (lp ++ "@" :: dom) ++ ">" :: rest) = Some (lp ++ "@" :: dom, rest).
Proof.
  intros H. destruct (mbox_first lp dom H) as (c & t & E & _ & Hgt & _).
  unfold parse_reverse_path, has_prefix.
  (* not the null path *)
  replace (is_prefix (bs "<>") _) with false
    by (rewrite E; cbn [app bs list_ascii_of_string is_prefix]; now rewrite Hgt).
  now apply parse_path_ok.
Qed.

Lemma parse_reverse_path_null rest : parse_reverse_path ("<" :: ">" :: rest) = Some ([], rest).
Proof. reflexivity. Qed.

(* the token p is "K=v" with a non-empty v, or "K", with an upper-case key
   free of '=' *)
Definition tok_kv (p k v : bytes) : Prop :=
  mem_byte "=" k = false /\ to_upper_ascii k = k
  /\ ((mem_byte "=" v = false /\ v <> [] /\ p = k ++ "=" :: v) \/ (v = [] /\ p = k)).

(* a key seen for the first time goes to the end of the association list *)
Lemma assoc_set_fresh k v m : ~ In k (map fst m) -> assoc_set k v m = m ++ [(k, v)].
Proof.
  induction m as [|[k' v'] m IH]; cbn [assoc_set map fst In app]; intros H; [reflexivity|].
  destruct (bytes_eqb k k') eqn:E; [apply bytes_eqb_eq in E; subst; tauto|].
  rewrite IH by tauto. reflexivity.
Qed.

(* parseArgs collects the tokens of distinct keys in the order written *)
Lemma parse_args_go_toks ps : forall kvs m0,
  Forall2 (fun p kv => tok_kv p (fst kv) (snd kv)) ps kvs -> NoDup (map fst (m0 ++ kvs)) ->
  parse_args_go ps m0 = Some (m0 ++ kvs).
Proof.
  induction ps as [|p ps IH]; intros kvs m0 H N; inversion H as [|? [k v] ? kvs' Hp Hr]; subst.
  { now rewrite app_nil_r. }
  assert (E : assoc_set k v m0 = m0 ++ [(k, v)]).
  { apply assoc_set_fresh. rewrite map_app in N. apply NoDup_remove_2 in N.
    intros Hk. apply N, in_or_app. now left. }
  change (m0 ++ (k, v) :: kvs') with (m0 ++ [(k, v)] ++ kvs') in *. rewrite app_assoc in *.
  cbn [fst snd] in Hp. destruct Hp as (Hk & Hu & [(Hv & Hne & ->)|[-> ->]]); cbn [parse_args_go].
  - rewrite split_byte_app by exact Hk. rewrite split_byte_single by exact Hv.
    destruct v as [|v0 v]; [congruence|]. rewrite Hu, E. now apply IH.
  - rewrite split_byte_single by exact Hk. rewrite Hu, E. now apply IH.
Qed.

Theorem parse_args_render ps kvs :
  Forall tok_ok ps -> Forall2 (fun p kv => tok_kv p (fst kv) (snd kv)) ps kvs ->
  NoDup (map fst kvs) -> parse_args (render ps) = Some kvs.
Proof.
  intros Hok H N. unfold parse_args. rewrite fields_render_all by exact Hok.
  now apply (parse_args_go_toks ps kvs []).
Qed.
