(* C14 - envelope and options survive the client-to-server trip.

   Composition of the client's rendering (Client.v: mail_params / rcpt_params
   / mail_line / rcpt_line) with the server's parsing (Parse.v, Conn.v:
   parse_cmd, handle_mail, handle_rcpt):

   [C14_mail_trip], [C14_rcpt_trip]: for every sender / recipient in
   [addr_ok] (or the null sender), every option record of the stated domain
   for which the client returns no local error, a client whose extension map
   holds the keys of the options used and a server with the extensions
   enabled: the line the client writes is parsed by the server into the MAIL /
   RCPT event carrying the SAME address and the SAME options, MailOptions.Body
   included ([C14_body]: each of 7BIT / 8BITMIME / BINARYMIME x every server
   configuration; an unset Body arrives as the documented default "8BITMIME").

   Outside the domain, with witnesses: F25 (addresses that are not
   addr_simple), [C14_addr_special_refused] (addr_simple but refused by the
   server's path parser), [C14_auth_brackets_refuted] (Auth = "<>").
   ORCPT=UTF-8 holds for every text over U+0020..U+007F and the non-ASCII
   scalar values in BOTH forms: the unitext form embeds the non-ASCII
   White_Space code points ([C14_orcpt_unicode_space_ex]; sending them raw
   was finding F29).

   How the trip theorems go.  The parameters of a command are a table
   ([mail_rows], [rcpt_rows]) with one row per key: is it sent, its key and
   its value.  A row that is sent makes one token that parseArgs takes apart
   again ([wire_ok]), and the server's handler for it copies one field of the
   record the backend is to see ([sets_mail], [sets_rcpt]).  The keys of a
   table are distinct, so parseArgs returns the rows sent in the order written
   ([params_trip]); copying fields gives the same record in any order
   ([mo_merge], [ro_merge]), in particular in the sorted order the server
   uses; and a field whose row is not sent has the value it has in the zero
   record ([mail_rows_full], [rcpt_rows_full]). *)
From Smtp Require Import Bytes GoStrings Utf8 Xtext Parse Reply Rfc3339 Conn
                         XtextProofs ReplyProofs C14Rfc3339 C14Param C14Line C14Unitext.
From Smtp Require Client ClientReply ClientProofs CheckTrip.
From Coq Require Import Lia.
Local Open Scope char_scope.

(* handleMail / handleRcpt visit the parameters in sorted key order (sort_kv) *)
Lemma insert_kv_in kv l x : In x (insert_kv kv l) <-> kv = x \/ In x l.
Proof.
  induction l as [|y l IH]; cbn [insert_kv In]; [tauto|].
  destruct (bytes_ltb (fst kv) (fst y)); cbn [In]; [tauto|]. rewrite IH. tauto.
Qed.

Lemma sort_kv_in l x : In x (sort_kv l) <-> In x l.
Proof.
  induction l as [|y l IH]; cbn [sort_kv fold_right In]; [reflexivity|].
  fold (sort_kv l). rewrite insert_kv_in, IH. reflexivity.
Qed.

Lemma existsb_sorted f l : existsb f (sort_kv l) = existsb f l.
Proof.
  apply eq_iff_eq_true. rewrite !existsb_exists.
  split; intros (x & Hx & F); exists x; (split; [apply sort_kv_in, Hx|exact F]).
Qed.

Definition has_key (k : bytes) (ks : list bytes) : bool := existsb (bytes_eqb k) ks.

Lemma has_key_in k ks : has_key k ks = true <-> In k ks.
Proof.
  unfold has_key. rewrite existsb_exists. split.
  - intros (x & Hx & E). apply bytes_eqb_eq in E. now subst.
  - intros H. exists k. split; [exact H|apply bytes_eqb_refl].
Qed.

Lemma has_key_cons k k0 ks : has_key k (k0 :: ks) = bytes_eqb k k0 || has_key k ks.
Proof. reflexivity. Qed.

Lemma has_key_sorted K l : has_key K (map fst (sort_kv l)) = has_key K (map fst l).
Proof.
  apply eq_iff_eq_true. rewrite !has_key_in, !in_map_iff.
  split; intros (x & E & Hx); exists x; (split; [exact E|apply sort_kv_in, Hx]).
Qed.

(* the fields of e named by the keys ks, the others from o *)
Definition mo_merge (ks : list bytes) (e o : mail_opts) : mail_opts :=
  mkMO (if has_key (bs "BODY") ks then mo_body e else mo_body o)
       (if has_key (bs "SIZE") ks then mo_size e else mo_size o)
       (if has_key (bs "REQUIRETLS") ks then mo_requiretls e else mo_requiretls o)
       (if has_key (bs "SMTPUTF8") ks then mo_utf8 e else mo_utf8 o)
       (if has_key (bs "RET") ks then mo_ret e else mo_ret o)
       (if has_key (bs "ENVID") ks then mo_envid e else mo_envid o)
       (if has_key (bs "AUTH") ks then mo_auth e else mo_auth o).

(* BODY=BINARYMIME raises the connection's binarymime flag *)
Definition bin_kv (kv : bytes * bytes) : bool :=
  bytes_eqb (fst kv) (bs "BODY") && is_binarymime (snd kv).

(* the server's handler for the parameter k=v copies the field k of e *)
Definition sets_mail (cfg : config) (e : mail_opts) (k v : bytes) : Prop :=
  forall o bm, mail_param cfg k v o bm = inl (mo_merge [k] e o, bin_kv (k, v) || bm).

Lemma merge_field {A} K k ks (x y : A) :
  (if has_key K ks then x else if has_key K [k] then x else y)
  = if has_key K (k :: ks) then x else y.
Proof.
  unfold has_key. cbn [existsb]. rewrite orb_false_r.
  destruct (bytes_eqb K k), (existsb (bytes_eqb K) ks); reflexivity.
Qed.

Lemma mo_merge_cons k ks e o : mo_merge ks e (mo_merge [k] e o) = mo_merge (k :: ks) e o.
Proof.
  unfold mo_merge. cbn [mo_body mo_size mo_requiretls mo_utf8 mo_ret mo_envid mo_auth].
  rewrite !merge_field. reflexivity.
Qed.

Lemma mail_params_merge cfg e l :
  (forall kv, In kv l -> sets_mail cfg e (fst kv) (snd kv)) ->
  forall o bm, Conn.mail_params cfg l o bm
               = inl (mo_merge (map fst l) e o, existsb bin_kv l || bm).
Proof.
  induction l as [|[k v] l IH]; intros H o bm.
  - unfold mo_merge, has_key. destruct o; reflexivity.
  - cbn [Conn.mail_params map fst existsb]. rewrite (H (k, v) (or_introl eq_refl)).
    rewrite IH by (intros kv Hin; apply H; now right).
    now rewrite mo_merge_cons, orb_assoc, (orb_comm (existsb _ _)).
Qed.

(* has_key and existsb do not see the order in which sort_kv presents the parameters *)
Lemma mail_params_sorted cfg e l o :
  (forall kv, In kv l -> sets_mail cfg e (fst kv) (snd kv)) ->
  Conn.mail_params cfg (sort_kv l) o false = inl (mo_merge (map fst l) e o, existsb bin_kv l).
Proof.
  intros H. rewrite (mail_params_merge cfg e) by (intros kv Hin; apply H, sort_kv_in, Hin).
  unfold mo_merge. rewrite !has_key_sorted, existsb_sorted, orb_false_r. reflexivity.
Qed.

Definition ro_merge (ks : list bytes) (e o : rcpt_opts) : rcpt_opts :=
  mkRO (if has_key (bs "NOTIFY") ks then ro_notify e else ro_notify o)
       (if has_key (bs "ORCPT") ks then ro_orcpt_type e else ro_orcpt_type o)
       (if has_key (bs "ORCPT") ks then ro_orcpt e else ro_orcpt o)
       (if has_key (bs "RRVS") ks then ro_rrvs e else ro_rrvs o).

Definition sets_rcpt (cfg : config) (e : rcpt_opts) (k v : bytes) : Prop :=
  forall o, rcpt_param cfg k v o = inl (ro_merge [k] e o).

Lemma ro_merge_cons k ks e o : ro_merge ks e (ro_merge [k] e o) = ro_merge (k :: ks) e o.
Proof.
  unfold ro_merge. cbn [ro_notify ro_orcpt_type ro_orcpt ro_rrvs].
  rewrite !merge_field. reflexivity.
Qed.

Lemma rcpt_params_merge cfg e l :
  (forall kv, In kv l -> sets_rcpt cfg e (fst kv) (snd kv)) ->
  forall o, Conn.rcpt_params cfg l o = inl (ro_merge (map fst l) e o).
Proof.
  induction l as [|[k v] l IH]; intros H o.
  - cbn [Conn.rcpt_params map]. unfold ro_merge, has_key. cbn [existsb]. destruct o; reflexivity.
  - cbn [Conn.rcpt_params map fst]. rewrite (H (k, v) (or_introl eq_refl)).
    rewrite IH by (intros kv Hin; apply H; now right). now rewrite ro_merge_cons.
Qed.

Lemma rcpt_params_sorted cfg e l o :
  (forall kv, In kv l -> sets_rcpt cfg e (fst kv) (snd kv)) ->
  Conn.rcpt_params cfg (sort_kv l) o = inl (ro_merge (map fst l) e o).
Proof.
  intros H. rewrite (rcpt_params_merge cfg e) by (intros kv Hin; apply H, sort_kv_in, Hin).
  unfold ro_merge. rewrite !has_key_sorted. reflexivity.
Qed.

(* The parameters of a command are described by a table with one row per
   key: whether the parameter is sent, and the pair of key and value.  What
   the client writes, what parseArgs returns and which fields the server sets
   are all read off the rows that are sent. *)
Fixpoint sent {A} (rows : list (bool * A)) : list A :=
  match rows with
  | [] => []
  | r :: rest => (if fst r then [snd r] else []) ++ sent rest
  end.

Lemma in_sent {A} (x : A) rows : In x (sent rows) <-> In (true, x) rows.
Proof.
  induction rows as [|[[|] y] rows IH]; cbn [sent fst snd app In]; [tauto| |]; rewrite IH.
  - split; (intros [H|H]; [left; congruence|now right]).
  - split; [now right|intros [H|H]; [discriminate H|exact H]].
Qed.

Lemma sent_forall {A} (P : A -> Prop) rows :
  Forall (fun r => fst r = true -> P (snd r)) rows -> forall x, In x (sent rows) -> P x.
Proof. intros F x Hin. apply in_sent in Hin. rewrite Forall_forall in F. exact (F _ Hin eq_refl). Qed.

Lemma existsb_sent {A} (f : A -> bool) rows :
  existsb f (sent rows) = existsb (fun r => f (snd r) && fst r) rows.
Proof.
  induction rows as [|[[|] y] rows IH]; cbn [sent fst snd app existsb]; [reflexivity| |];
    rewrite IH; [now rewrite andb_true_r|now rewrite andb_false_r].
Qed.

Lemma has_key_sent K (rows : list (bool * (bytes * bytes))) :
  has_key K (map fst (sent rows)) = existsb (fun r => bytes_eqb K (fst (snd r)) && fst r) rows.
Proof.
  unfold has_key. induction rows as [|[[|] y] rows IH]; cbn [sent fst snd app map existsb]; [reflexivity| |];
    rewrite IH; [now rewrite andb_true_r|now rewrite andb_false_r].
Qed.

Lemma NoDup_sent (rows : list (bool * (bytes * bytes))) :
  NoDup (map (fun r => fst (snd r)) rows) -> NoDup (map fst (sent rows)).
Proof.
  induction rows as [|[c y] rows IH]; cbn [sent map fst snd]; intros N; [constructor|].
  inversion N as [|? ? Hk N']; subst. specialize (IH N').
  destruct c; cbn [app map]; [constructor|]; [|exact IH..].
  intros Hin. apply Hk. apply in_map_iff in Hin as (z & E & Hin). apply in_sent in Hin.
  apply in_map_iff. exists (true, z). split; [exact E|exact Hin].
Qed.

Definition nonnil {A} (l : list A) : bool := match l with [] => false | _ :: _ => true end.

(* the shapes in which the definitions write "this parameter, if it is used" *)
Lemma opt_nonnil {A B} (l : list A) (x : B) :
  match l with [] => [] | _ :: _ => [x] end = if nonnil l then [x] else [].
Proof. now destruct l. Qed.

Lemma opt_negb {A} (c : bool) (x : A) : (if c then [] else [x]) = if negb c then [x] else [].
Proof. now destruct c. Qed.

Lemma app_opt {A} (c : bool) (p : list A) x : (if c then p ++ [x] else p) = p ++ (if c then [x] else []).
Proof. destruct c; [reflexivity|now rewrite app_nil_r]. Qed.

Lemma map_opt {A B} (f : A -> B) (c : bool) x : map f (if c then [x] else []) = if c then [f x] else [].
Proof. now destruct c. Qed.

Lemma ws_free_clean s : ws_free s = true -> clean s.
Proof.
  induction s as [|c s IH]; [intros _; split; reflexivity|].
  intros H. pose proof (ws_free_head c s H) as Z. cbn [ws_free] in H.
  apply andb_true_iff in H as [_ H]. destruct (IH H) as [A B].
  unfold space_len in Z. destruct (is_ascii_space c) eqn:S; [discriminate|].
  split; cbn [mem_byte]; [rewrite A|rewrite B]; rewrite orb_false_r;
    (destruct (Ascii.eqb _ c) eqn:E; [apply Ascii.eqb_eq in E; subst c; vm_compute in S; discriminate|reflexivity]).
Qed.

Lemma render_clean ps : Forall tok_ok ps -> clean (render ps).
Proof.
  induction 1 as [|p ps [Hw _] _ IH]; [split; reflexivity|].
  cbn [render flat_map]. fold (render ps). apply (ClientProofs.clean_app (" " :: p)); [|exact IH].
  apply (ClientProofs.clean_app [" "] p); [split; reflexivity|now apply ws_free_clean].
Qed.

(* flags are written bare, everything else as KEY=value *)
Definition is_flag (k : bytes) : bool :=
  bytes_eqb k (bs "REQUIRETLS") || bytes_eqb k (bs "SMTPUTF8").
Definition tok_of (kv : bytes * bytes) : bytes :=
  if is_flag (fst kv) then fst kv else fst kv ++ "=" :: snd kv.

(* a key and a value that make one token, which parseArgs takes apart again *)
Definition key_ok (k : bytes) : bool :=
  forallb tokch k && negb (mem_byte "=" k) && bytes_eqb (to_upper_ascii k) k && nonnil k.
Definition val_ok (v : bytes) : Prop := v <> [] /\ mem_byte "=" v = false /\ ws_free v = true.
Definition wire_ok (kv : bytes * bytes) : Prop :=
  tok_kv (tok_of kv) (fst kv) (snd kv) /\ tok_ok (tok_of kv).

Lemma key_ok_facts k :
  key_ok k = true ->
  forallb tokch k = true /\ mem_byte "=" k = false /\ to_upper_ascii k = k /\ k <> [].
Proof.
  unfold key_ok. intros K. apply andb_true_iff in K as [K K4]. apply andb_true_iff in K as [K K3].
  apply andb_true_iff in K as [K1 K2]. apply negb_true_iff in K2. apply bytes_eqb_eq in K3.
  repeat split; try assumption. intros ->. discriminate K4.
Qed.

Lemma wire_ok_value k v : key_ok k = true -> is_flag k = false -> val_ok v -> wire_ok (k, v).
Proof.
  intros K F (Hne & He & Hw). apply key_ok_facts in K as (K1 & K2 & K3 & _).
  unfold wire_ok, tok_of. cbn [fst snd]. rewrite F. split.
  - split; [exact K2|]. split; [exact K3|]. left. auto.
  - split; [|destruct k; discriminate].
    change (k ++ "=" :: v) with (k ++ ["="] ++ v). rewrite app_assoc.
    apply ws_free_app_ascii; [|exact Hw]. rewrite forallb_app, K1. reflexivity.
Qed.

Lemma wire_ok_flag k : key_ok k = true -> is_flag k = true -> wire_ok (k, []).
Proof.
  intros K F. apply key_ok_facts in K as (K1 & K2 & K3 & K4).
  unfold wire_ok, tok_of. cbn [fst snd]. rewrite F. split.
  - split; [exact K2|]. split; [exact K3|]. right. split; reflexivity.
  - split; [apply ws_free_ascii, K1|exact K4].
Qed.

(* the line: tokens of distinct keys come back from parseArgs as written *)
Lemma params_trip kvs :
  (forall kv, In kv kvs -> wire_ok kv) -> NoDup (map fst kvs) ->
  Forall tok_ok (map tok_of kvs) /\ parse_args (render (map tok_of kvs)) = Some kvs.
Proof.
  intros H N.
  assert (Hok : Forall tok_ok (map tok_of kvs)).
  { apply Forall_forall. intros p Hp. apply in_map_iff in Hp as (kv & <- & Hkv). now apply H. }
  split; [exact Hok|]. apply parse_args_render; [exact Hok| |exact N].
  clear N Hok. induction kvs as [|kv kvs IH]; cbn [map]; constructor.
  - apply H. now left.
  - apply IH. intros x Hx. apply H. now right.
Qed.

(* values over 7-bit octets other than white space and '=' *)
Definition valch (c : ascii) : bool := tokch c && negb (Ascii.eqb c "=").

Lemma valch_ok v : forallb valch v = true -> mem_byte "=" v = false /\ ws_free v = true.
Proof.
  intros H. split.
  - eapply forallb_not_mem; [exact H|reflexivity].
  - apply ws_free_ascii. eapply forallb_impl; [|exact H].
    intros c Hc. now apply andb_true_iff in Hc as [Hc _].
Qed.

Lemma valch_of (P : ascii -> bool) :
  forallb (fun n => implb (P (n_byte n)) (valch (n_byte n))) (map N.of_nat (seq 0 256)) = true ->
  forall s, forallb P s = true -> forallb valch s = true.
Proof.
  intros H s Hs. eapply forallb_impl; [|exact Hs].
  intros c Hc. pose proof (byte_enum (fun c => implb (P c) (valch c)) H c) as I.
  cbv beta in I. rewrite Hc in I. exact I.
Qed.

Definition xtch (c : ascii) : bool := xtext_plain c || Ascii.eqb c "+".

Lemma encode_xtext_xtch s : forallb xtch (encode_xtext s) = true.
Proof.
  apply forallb_forall. intros c Hc. apply encode_xtext_clean in Hc as [H| ->]; unfold xtch.
  - now rewrite H.
  - apply orb_true_r.
Qed.

Lemma xtch_valch s : forallb xtch s = true -> forallb valch s = true.
Proof. apply valch_of. vm_compute. reflexivity. Qed.

Lemma zch_valch s : forallb zch s = true -> forallb valch s = true.
Proof. apply valch_of. vm_compute. reflexivity. Qed.

Lemma timech_valch s : forallb ClientProofs.timech s = true -> forallb valch s = true.
Proof. apply valch_of. vm_compute. reflexivity. Qed.

Lemma val_ok_app pre v :
  forallb valch pre = true -> pre ++ v <> [] -> mem_byte "=" v = false -> ws_free v = true ->
  val_ok (pre ++ v).
Proof.
  intros Hp Hne He Hw. destruct (valch_ok pre Hp) as [Pe _]. split; [exact Hne|]. split.
  - now rewrite mem_byte_app, Pe, He.
  - apply ws_free_app_ascii; [|exact Hw]. eapply forallb_impl; [|exact Hp].
    intros c Hc. now apply andb_true_iff in Hc as [Hc _].
Qed.

Lemma xtext_val_ok (pre s : bytes) :
  forallb valch pre = true -> forallb is_ascii7 s = true -> s <> [] -> val_ok (pre ++ encode_xtext s).
Proof.
  intros Hp Ha Hs. split.
  - intros E. apply app_eq_nil in E as [_ E]. now apply (encode_xtext_nonempty s Ha Hs).
  - apply valch_ok. rewrite forallb_app, Hp. apply xtch_valch, encode_xtext_xtch.
Qed.

(* Body as the backend sees it: the value given; an unset Body is sent as
   BODY=8BITMIME whenever the server offers 8BITMIME (the documented default of
   Client.Mail), and not at all otherwise *)
Definition seen_body (ext : option Client.extmap) (o : mail_opts) : bytes :=
  match mo_body o with
  | [] => if Client.has_ext ext (bs "8BITMIME") then bs "8BITMIME" else []
  | _ :: _ => mo_body o
  end.

(* what the backend sees for the options o: o itself when Body is set *)
Definition seen_mail (ext : option Client.extmap) (o : mail_opts) : mail_opts :=
  set_body o (seen_body ext o).

Lemma seen_mail_id ext o : mo_body o <> [] -> seen_mail ext o = o.
Proof.
  intros H. unfold seen_mail, seen_body, set_body. destruct o as [b s r u rt ev au].
  cbn [mo_body mo_size mo_requiretls mo_utf8 mo_ret mo_envid mo_auth] in *.
  destruct b; [congruence|reflexivity].
Qed.

Definition body_kvs (ext : option Client.extmap) (o : mail_opts) : list (bytes * bytes) :=
  match seen_body ext o with [] => [] | _ :: _ => [(bs "BODY", seen_body ext o)] end.

Definition mail_kvs (ext : option Client.extmap) (o : mail_opts) : list (bytes * bytes) :=
  body_kvs ext o
  ++ (if (mo_size o =? 0)%Z then [] else [(bs "SIZE", dec_of_Z (mo_size o))])
  ++ (if mo_requiretls o then [(bs "REQUIRETLS", [])] else [])
  ++ (if mo_utf8 o then [(bs "SMTPUTF8", [])] else [])
  ++ (match mo_ret o with [] => [] | _ :: _ => [(bs "RET", mo_ret o)] end)
  ++ (match mo_envid o with [] => [] | _ :: _ => [(bs "ENVID", encode_xtext (mo_envid o))] end)
  ++ (match mo_auth o with None => [] | Some a => [(bs "AUTH", Client.auth_value a)] end).

Definition mail_toks ext (o : mail_opts) : list bytes := map tok_of (mail_kvs ext o).

(* the options the theorem speaks about *)
Definition mail_dom (cfg : config) (o : mail_opts) : Prop :=
  (mo_body o = [] \/ body_value (mo_body o))
  /\ (0 <= mo_size o < 2 ^ 63)%Z
  /\ (cf_max_bytes cfg <= 0 \/ mo_size o <= cf_max_bytes cfg)%Z
  /\ (mo_ret o = [] \/ mo_ret o = bs "FULL" \/ mo_ret o = bs "HDRS")
  /\ is_printable_ascii (mo_envid o) = true
  /\ match mo_auth o with
     | Some ((_ :: _) as a) => forallb is_ascii7 a = true /\ parse_mailbox a = Some (a, [])
     | _ => True
     end.

(* the server has the extensions the options need *)
Definition mail_srv (cfg : config) (o : mail_opts) : Prop :=
  (mo_body o = bs "BINARYMIME" -> cf_binarymime cfg = true)
  /\ (mo_requiretls o = true -> cf_requiretls cfg = true)
  /\ (mo_utf8 o = true -> cf_utf8 cfg = true)
  /\ (mo_ret o <> [] \/ mo_envid o <> [] -> cf_dsn cfg = true).

(* ... and the client has learnt them from EHLO *)
Definition mail_ext (ext : option Client.extmap) (o : mail_opts) : Prop :=
  (mo_body o = bs "7BIT" \/ mo_body o = bs "8BITMIME" -> Client.has_ext ext (bs "8BITMIME") = true)
  /\ (mo_body o = bs "BINARYMIME" -> Client.has_ext ext (bs "BINARYMIME") = true)
  /\ (mo_size o <> 0%Z -> Client.has_ext ext (bs "SIZE") = true)
  /\ (mo_requiretls o = true -> Client.has_ext ext (bs "REQUIRETLS") = true)
  /\ (mo_utf8 o = true -> Client.has_ext ext (bs "SMTPUTF8") = true)
  /\ (mo_ret o <> [] \/ mo_envid o <> [] -> Client.has_ext ext (bs "DSN") = true)
  /\ (mo_auth o <> None -> Client.has_ext ext (bs "AUTH") = true).

Definition mail_rows (ext : option Client.extmap) (o : mail_opts) : list (bool * (bytes * bytes)) :=
  [ (nonnil (seen_body ext o), (bs "BODY", seen_body ext o));
    (negb (mo_size o =? 0)%Z, (bs "SIZE", dec_of_Z (mo_size o)));
    (mo_requiretls o, (bs "REQUIRETLS", []));
    (mo_utf8 o, (bs "SMTPUTF8", []));
    (nonnil (mo_ret o), (bs "RET", mo_ret o));
    (nonnil (mo_envid o), (bs "ENVID", encode_xtext (mo_envid o)));
    (match mo_auth o with Some _ => true | None => false end,
     (bs "AUTH", match mo_auth o with Some a => Client.auth_value a | None => [] end)) ].

Lemma mail_kvs_rows ext o : mail_kvs ext o = sent (mail_rows ext o).
Proof.
  unfold mail_kvs, body_kvs, mail_rows. cbn [sent fst snd].
  rewrite !opt_nonnil, opt_negb, app_nil_r. now destruct (mo_auth o).
Qed.

(* every field of seen_mail ext o whose parameter is not sent has the value it has in mo_zero *)
Lemma mail_rows_full ext o :
  mo_merge (map fst (sent (mail_rows ext o))) (seen_mail ext o) mo_zero = seen_mail ext o.
Proof.
  unfold mo_merge. rewrite !has_key_sent. unfold seen_mail, set_body, mail_rows.
  generalize (seen_body ext o). intros sb. destruct o as [b s r u rt ev au].
  cbn [existsb fst snd mo_body mo_size mo_requiretls mo_utf8 mo_ret mo_envid mo_auth mo_zero].
  keys. cbn [andb orb]. rewrite !orb_false_r.
  f_equal; [destruct sb|destruct (Z.eqb_spec s 0); [subst|]|destruct r|destruct u|destruct rt
           |destruct ev|destruct au]; reflexivity.
Qed.

Lemma seen_body_bin ext o :
  is_binarymime (seen_body ext o) = is_binarymime (mo_body o).
Proof.
  unfold seen_body. destruct (mo_body o); [|reflexivity].
  destruct (Client.has_ext ext (bs "8BITMIME")); reflexivity.
Qed.

Lemma mail_rows_bin ext o :
  existsb bin_kv (sent (mail_rows ext o)) = is_binarymime (mo_body o).
Proof.
  rewrite existsb_sent, <- (seen_body_bin ext o). unfold mail_rows, bin_kv.
  cbn [existsb fst snd]. keys. cbn [andb orb]. rewrite orb_false_r.
  destruct (seen_body ext o); [reflexivity|apply andb_true_r].
Qed.

Lemma client_body_toks ext opts :
  let o := match opts with Some o => o | None => mo_zero end in
  (mo_body o = [] \/ body_value (mo_body o)) -> mail_ext ext o ->
  Client.mail_body_param ext opts
  = inl (map tok_of (sent [(nonnil (seen_body ext o), (bs "BODY", seen_body ext o))])).
Proof.
  intros o Hb (H8 & Hbin & _). unfold Client.mail_body_param, seen_body, Client.key.
  destruct opts as [o'|].
  - subst o. destruct Hb as [E|[E|[E|E]]]; rewrite E in *.
    + destruct (Client.has_ext ext (bs "8BITMIME")); reflexivity.
    + rewrite (H8 (or_introl eq_refl)). reflexivity.
    + rewrite (H8 (or_intror eq_refl)). reflexivity.
    + rewrite (Hbin eq_refl). reflexivity.
  - subst o. cbn [mo_body mo_zero]. destruct (Client.has_ext ext (bs "8BITMIME")); reflexivity.
Qed.

Lemma client_mail_toks cfg ext o :
  mail_dom cfg o -> mail_ext ext o ->
  Client.mail_params ext (Some o) = inl (map tok_of (sent (mail_rows ext o))).
Proof.
  intros Hdom Hext.
  pose proof (client_body_toks ext (Some o) (proj1 Hdom) Hext) as Hbt. cbv zeta in Hbt.
  destruct Hdom as (_ & _ & _ & Hret & Hp & _). destruct Hext as (_ & _ & Hs & Hr & Hu & Hd & Ha).
  unfold Client.mail_params. rewrite Hbt. clear Hbt.
  unfold mail_rows. generalize (seen_body ext o). intros sb.
  destruct o as [body size rtls utf8 ret envid auth].
  cbn [mo_body mo_size mo_requiretls mo_utf8 mo_ret mo_envid mo_auth] in *.
  unfold Client.key.
  (* each block of Client.Mail in turn: its extension is there when the option is used *)
  replace (Client.has_ext ext (bs "SIZE") && negb (size =? 0)%Z) with (negb (size =? 0)%Z)
    by (destruct (Z.eqb_spec size 0); [now rewrite andb_false_r|now rewrite Hs]).
  replace (rtls && negb (Client.has_ext ext (bs "REQUIRETLS"))) with false
    by (destruct rtls; [now rewrite Hr|reflexivity]).
  replace (utf8 && negb (Client.has_ext ext (bs "SMTPUTF8"))) with false
    by (destruct utf8; [now rewrite Hu|reflexivity]).
  assert (Hdsn : (if Client.has_ext ext (bs "DSN")
                  then Client.mail_dsn_params (mkMO body size rtls utf8 ret envid auth) else inl [])
                 = inl (map tok_of ((if nonnil ret then [(bs "RET", ret)] else [])
                                    ++ (if nonnil envid then [(bs "ENVID", encode_xtext envid)] else [])))).
  { destruct (Client.has_ext ext (bs "DSN")).
    - unfold Client.mail_dsn_params. cbn [mo_ret mo_envid].
      destruct Hret as [->|[->| ->]]; (destruct envid; [|rewrite Hp]); reflexivity.
    - destruct ret; [|discriminate Hd; left; discriminate].
      destruct envid; [reflexivity|discriminate Hd; right; discriminate]. }
  rewrite Hdsn. clear Hdsn. cbv zeta.
  destruct auth as [a|]; [rewrite Ha by discriminate|];
    cbn [sent fst snd]; rewrite !app_opt, !map_app, !map_opt, <- !app_assoc, ?app_nil_r; reflexivity.
Qed.

Lemma seen_body_value cfg ext o :
  mail_dom cfg o -> mail_srv cfg o ->
  seen_body ext o = [] \/ (body_value (seen_body ext o)
                          /\ (seen_body ext o = bs "BINARYMIME" -> cf_binarymime cfg = true)).
Proof.
  intros (Hb & _) (Sb & _). unfold seen_body.
  destruct Hb as [E|Hv].
  - rewrite E. destruct (Client.has_ext ext (bs "8BITMIME")); [right|left; reflexivity].
    split; [right; left; reflexivity|discriminate].
  - right. destruct (mo_body o) as [|b0 bt] eqn:E.
    + destruct Hv as [H|[H|H]]; discriminate H.
    + split; [exact Hv|exact Sb].
Qed.

Lemma mail_rows_facts cfg ext o :
  mail_dom cfg o -> mail_srv cfg o ->
  forall kv, In kv (sent (mail_rows ext o)) ->
             wire_ok kv /\ sets_mail cfg (seen_mail ext o) (fst kv) (snd kv).
Proof.
  intros Hdom Hsrv. pose proof (seen_body_value cfg ext o Hdom Hsrv) as Hsb.
  destruct Hdom as (_ & Hsz & Hmax & Hret & Hp & Hauth). destruct Hsrv as (_ & Sr & Su & Sd).
  apply sent_forall. unfold mail_rows, seen_mail, set_body.
  revert Hsb. generalize (seen_body ext o). intros sb Hsb. destruct o as [b s r u rt ev au].
  cbn [mo_body mo_size mo_requiretls mo_utf8 mo_ret mo_envid mo_auth] in *.
  repeat apply Forall_cons; try apply Forall_nil; cbn [fst snd]; intros C.
  - (* BODY *)
    destruct Hsb as [->|[Hv Hbin]]; [discriminate C|]. split.
    + destruct Hv as [-> | [-> | ->]]; (apply wire_ok_value; repeat split; (reflexivity || discriminate)).
    + intros o' bm. rewrite (C14_body_param cfg sb o' bm Hv Hbin), orb_comm. reflexivity.
  - (* SIZE *)
    split.
    + apply wire_ok_value; [reflexivity..|]. split; [|apply valch_ok, zch_valch, dec_of_Z_zch].
      unfold Reply.dec_of_Z. destruct (s <? 0)%Z; [discriminate|apply dec_of_N_nonempty].
    + intros o' bm. now rewrite C14_size_Z.
  - (* REQUIRETLS *)
    subst r. split; [now apply wire_ok_flag|]. intros o' bm. now rewrite C14_requiretls by auto.
  - (* SMTPUTF8 *)
    subst u. split; [now apply wire_ok_flag|]. intros o' bm. now rewrite C14_smtputf8 by auto.
  - (* RET *)
    assert (Hv : rt = bs "FULL" \/ rt = bs "HDRS") by (destruct Hret as [->|?]; [discriminate C|assumption]).
    split.
    + destruct Hv as [-> | ->]; (apply wire_ok_value; repeat split; (reflexivity || discriminate)).
    + intros o' bm. rewrite C14_ret; [reflexivity|apply Sd; left; intros ->; discriminate C|exact Hv].
  - (* ENVID *)
    assert (Hne : ev <> []) by (intros ->; discriminate C). split.
    + apply wire_ok_value; [reflexivity..|].
      apply (xtext_val_ok []); [reflexivity|apply printable_ascii7, Hp|exact Hne].
    + intros o' bm. now rewrite C14_envid by auto.
  - (* AUTH *)
    destruct au as [[|a0 a]|]; [| |discriminate C].
    + split; [apply wire_ok_value; repeat split; (reflexivity || discriminate)|].
      intros o' bm. now rewrite C14_auth_empty.
    + destruct Hauth as [Ha Hm]. split.
      * apply wire_ok_value; [reflexivity..|]. now apply (xtext_val_ok []).
      * intros o' bm. cbn [Client.auth_value]. now rewrite C14_auth_mailbox.
Qed.

(* the addresses the theorem speaks about: CheckTrip.addr_simple (no SP / HT /
   '<' / '>' / CR / LF, not starting with DQUOTE or '@', non-empty local part and
   domain) and, in addition, what the server's path parser insists on: none of
   ( ) < > [ ] : ; \ , DQUOTE in the local part, and the address does not end in
   '@'.  (addr_simple addresses outside addr_ok are REFUSED by the server with
   501 - see C14_addr_special_refused - they never reach the backend.) *)
Definition addr_ok (a : bytes) : bool :=
  CheckTrip.addr_simple a
  && match cut_byte "@" a with
     | Some (lp, _) => forallb (fun c => negb (dot_string_special c)) lp
     | None => false
     end
  && negb (has_suffix a (bs "@")).

Lemma cut_byte_inv c : forall s a b,
  cut_byte c s = Some (a, b) -> s = a ++ c :: b /\ mem_byte c a = false.
Proof.
  induction s as [|x s IH]; intros a b H; [discriminate|]. cbn [cut_byte] in H.
  destruct (Ascii.eqb c x) eqn:E.
  - injection H as <- <-. apply Ascii.eqb_eq in E. subst x. split; reflexivity.
  - destruct (cut_byte c s) as [[a' b']|]; [|discriminate]. injection H as <- <-.
    destruct (IH a' b' eq_refl) as [-> M]. split; [reflexivity|]. cbn [mem_byte]. now rewrite E, M.
Qed.

Definition bad_addr_ch (c : ascii) : bool :=
  Ascii.eqb c " " || Ascii.eqb c HT || Ascii.eqb c "<" || Ascii.eqb c ">"
  || Ascii.eqb c CR || Ascii.eqb c LF.

Lemma bad_dom_ok c : bad_addr_ch c = false -> dom_ok c = true.
Proof.
  intros H.
  assert (E : (bad_addr_ch c || dom_ok c) = true).
  { apply (byte_enum (fun c => bad_addr_ch c || dom_ok c)). vm_compute. reflexivity. }
  now rewrite H in E.
Qed.

Lemma addr_ok_mbox a :
  addr_ok a = true -> exists lp dom, a = lp ++ "@" :: dom /\ mbox_ok lp dom /\ clean a.
Proof.
  unfold addr_ok, CheckTrip.addr_simple. intros H.
  apply andb_true_iff in H as [H H3]. apply andb_true_iff in H as [H H2].
  apply andb_true_iff in H as [H H1]. apply andb_true_iff in H as [H0 _].
  apply negb_true_iff in H0, H3.
  destruct (cut_byte "@" a) as [[lp dom]|] eqn:E; [|discriminate].
  destruct (cut_byte_inv _ _ _ _ E) as [-> M].
  assert (Hall : forall x, In x (lp ++ "@" :: dom) -> bad_addr_ch x = false).
  { intros x Hx. destruct (bad_addr_ch x) eqn:B; [|reflexivity].
    assert (X : existsb bad_addr_ch (lp ++ "@" :: dom) = true) by (apply existsb_exists; eauto).
    unfold bad_addr_ch in X. rewrite X in H0. discriminate. }
  exists lp, dom. split; [reflexivity|]. split; [|split].
  - destruct lp as [|l0 lp]; [discriminate|]. split; [discriminate|]. split; [|split].
    + apply forallb_forall. intros x Hx. unfold lp_ok.
      rewrite forallb_forall in H2. rewrite (H2 x Hx), andb_true_r.
      apply mem_false_forallb in M. rewrite forallb_forall in M. specialize (M x Hx).
      now rewrite Ascii.eqb_sym.
    + apply forallb_forall. intros x Hx. apply bad_dom_ok, Hall, in_or_app. right. now right.
    + exact H3.
  - destruct (mem_byte CR (lp ++ "@" :: dom)) eqn:C; [|reflexivity].
    apply mem_byte_In, Hall in C. vm_compute in C. discriminate.
  - destruct (mem_byte LF (lp ++ "@" :: dom)) eqn:C; [|reflexivity].
    apply mem_byte_In, Hall in C. vm_compute in C. discriminate.
Qed.

Lemma pop_mail_binarymime c b :
  pop_mail (upd_binarymime c b) = (fst (pop_mail c), upd_binarymime (snd (pop_mail c)) b).
Proof.
  unfold pop_mail. change (c_be (upd_binarymime c b)) with (c_be c).
  destruct (pop BNil (be_mail (c_be c))). reflexivity.
Qed.

Definition mail_state_ok (c : conn) : Prop :=
  c_helo c <> [] /\ c_bdat c = None /\ c_session c = true.

Lemma handle_mail_eq cfg c arg : handle cfg c (bs "MAIL") arg = handle_mail cfg c arg.
Proof. reflexivity. Qed.
Lemma handle_rcpt_eq cfg c arg : handle cfg c (bs "RCPT") arg = handle_rcpt cfg c arg.
Proof. reflexivity. Qed.

(* the envelope command line  VERB SP kw "<" addr ">" tokens  through parseCmd,
   TrimSpace and parseArgs *)
Lemma envelope_line (verb kw addr : bytes) kvs :
  verb = bs "MAIL" \/ verb = bs "RCPT" -> kw <> [] -> forallb tokch kw = true -> clean addr ->
  (forall kv, In kv kvs -> wire_ok kv) -> NoDup (map fst kvs) ->
  let rest := "<" :: addr ++ ">" :: render (map tok_of kvs) in
  parse_cmd (verb ++ " " :: kw ++ rest) = Some (verb, kw ++ rest)
  /\ trim_space rest = rest /\ parse_args (render (map tok_of kvs)) = Some kvs.
Proof.
  intros Hv Hne Hkw Ha Hw N rest. destruct kw as [|k0 kt]; [congruence|].
  destruct (params_trip kvs Hw N) as [Hps Hargs].
  assert (Hc : clean rest).
  { apply (ClientProofs.clean_app ["<"]); [split; reflexivity|]. apply ClientProofs.clean_app; [exact Ha|].
    apply (ClientProofs.clean_app [">"]); [split; reflexivity|now apply render_clean]. }
  split; [|split; [|exact Hargs]].
  - apply parse_cmd_envelope; [exact Hv|apply (ClientProofs.clean_app (k0 :: kt)); [|exact Hc]|].
    + apply ws_free_clean, ws_free_ascii, Hkw.
    + destruct (line_tail ((k0 :: kt) ++ "<" :: addr) _ Hps) as (pre & d & tok & E & Hd & Hw' & Hn).
      apply (trim_space_id k0 _ pre d tok); try assumption.
      * apply space_len_ascii. cbn [forallb] in Hkw. now apply andb_true_iff in Hkw as [Hkw _].
      * rewrite <- E. subst rest. cbn [app]. rewrite <- app_assoc. reflexivity.
  - destruct (line_tail ("<" :: addr) _ Hps) as (pre & d & tok & E & Hd & Hw' & Hn).
    apply (trim_space_id "<" _ pre d tok); try assumption.
    apply space_len_ascii. reflexivity.
Qed.

Theorem C14_mail_trip cfg ext c from opts :
  let o := match opts with Some o => o | None => mo_zero end in
  let ps := mail_toks ext o in
  (from = [] \/ addr_ok from = true) ->
  mail_dom cfg o -> mail_srv cfg o -> mail_ext ext o -> mail_state_ok c ->
  (* the client returns no local error and writes exactly this line ... *)
  Client.mail_params ext opts = inl ps
  /\ exists arg,
       parse_cmd (Client.mail_line from ps) = Some (bs "MAIL", arg)
       (* ... which the server turns into this backend call: the options given,
          Body included (seen_mail ext o = o when Body is set: seen_mail_id) *)
       /\ exists c' w,
            handle cfg c (bs "MAIL") arg
            = (c', [EMail from (seen_mail ext o) (fst (pop_mail c)); w])
            (* ... and DATA is refused from then on iff Body is BINARYMIME *)
            /\ c_binarymime c' = is_binarymime (mo_body o).
Proof.
  intros o ps Hfrom Hdom Hsrv Hext (Hhelo & Hbdat & Hsess).
  unfold ps, mail_toks. rewrite mail_kvs_rows. clear ps. set (kvs := sent (mail_rows ext o)).
  split.
  { destruct opts as [o'|]; [exact (client_mail_toks cfg ext o' Hdom Hext)|].
    unfold Client.mail_params. rewrite (client_body_toks ext None (proj1 Hdom) Hext). reflexivity. }
  pose proof (mail_rows_facts cfg ext o Hdom Hsrv) as Hfacts. fold kvs in Hfacts.
  assert (Hca : clean from).
  { destruct Hfrom as [->|Ha]; [split; reflexivity|]. now destruct (addr_ok_mbox _ Ha) as (? & ? & _ & _ & ?). }
  destruct (envelope_line (bs "MAIL") (bs "FROM:") from kvs) as (Hcmd & Trest & Hargs);
    [now left|discriminate|reflexivity|exact Hca|intros kv Hin; apply Hfacts, Hin|apply NoDup_sent, nodupb_NoDup; reflexivity|].
  set (rest := "<" :: from ++ ">" :: render (map tok_of kvs)) in *.
  exists (bs "FROM:" ++ rest). split; [exact Hcmd|].
  rewrite handle_mail_eq. unfold handle_mail.
  destruct (c_helo c) as [|h0 ht] eqn:Eh; [congruence|]. rewrite Hbdat, cut_prefix_from, Trest.
  assert (Hpath : parse_reverse_path rest = Some (from, render (map tok_of kvs))).
  { destruct Hfrom as [->|Ha]; [reflexivity|].
    destruct (addr_ok_mbox _ Ha) as (lp & dom & -> & Hm & _). now apply parse_reverse_path_ok. }
  rewrite Hpath, Hargs.
  rewrite (mail_params_sorted cfg (seen_mail ext o)) by (intros kv Hin; apply Hfacts, Hin).
  subst kvs. rewrite mail_rows_full, mail_rows_bin.
  change (c_session (upd_binarymime c (is_binarymime (mo_body o)))) with (c_session c).
  rewrite Hsess, pop_mail_binarymime. cbn [negb].
  destruct (pop_mail c) as [r c2]. cbn [fst snd].
  destruct r; eexists; eexists; (split; reflexivity).
Qed.

Print Assumptions C14_mail_trip.

(* RequireRecipientValidSince: the zero Time is "absent"; any other instant
   arrives to the second with its zone offset *)
Definition rrvs_seen (r : option rtime) : option rtime :=
  match r with
  | Some t => if Client.rt_is_zero t then None else Some (mkRT (rt_unix t) 0 (rt_off t))
  | None => None
  end.

(* what the backend sees for the options o (OriginalRecipientType is only
   transmitted together with a non-empty OriginalRecipient) *)
Definition seen_rcpt (o : rcpt_opts) : rcpt_opts :=
  mkRO (ro_notify o) (match ro_orcpt o with [] => [] | _ :: _ => ro_orcpt_type o end)
       (ro_orcpt o) (rrvs_seen (ro_rrvs o)).

Definition orcpt_value (ext : option Client.extmap) (o : rcpt_opts) : bytes :=
  if bytes_eqb (ro_orcpt_type o) (bs "RFC822") then bs "RFC822;" ++ encode_xtext (ro_orcpt o)
  else bs "UTF-8;" ++ (if Client.has_ext ext (bs "SMTPUTF8")
                       then encode_utf8_addr_unitext (ro_orcpt o)
                       else encode_utf8_addr_xtext (ro_orcpt o)).

Definition rcpt_kvs (ext : option Client.extmap) (o : rcpt_opts) : list (bytes * bytes) :=
  (match ro_notify o with [] => [] | _ :: _ => [(bs "NOTIFY", join (bs ",") (ro_notify o))] end)
  ++ (match ro_orcpt o with [] => [] | _ :: _ => [(bs "ORCPT", orcpt_value ext o)] end)
  ++ (match ro_rrvs o with
      | Some t => if Client.rt_is_zero t then [] else [(bs "RRVS", Client.format_rfc3339 t)]
      | None => []
      end).

Definition rcpt_toks ext o : list bytes := map tok_of (rcpt_kvs ext o).

Definition rrvs_set (o : rcpt_opts) : Prop :=
  match ro_rrvs o with Some t => Client.rt_is_zero t = false | None => False end.

Definition rcpt_dom (o : rcpt_opts) : Prop :=
  (ro_notify o = [] \/ notify_ok (ro_notify o) = true)
  /\ (ro_orcpt o = []
      \/ (ro_orcpt_type o = bs "RFC822" /\ is_printable_ascii (ro_orcpt o) = true)
      \/ (ro_orcpt_type o = bs "UTF-8"
          /\ exists cs, ro_orcpt o = utf8_of_runes cs /\ forallb addr_cp cs = true))
  /\ match ro_rrvs o with
     | Some t => Client.rt_is_zero t = true \/ rt_dom t
     | None => True
     end.

Definition rcpt_srv (cfg : config) (o : rcpt_opts) : Prop :=
  (ro_notify o <> [] \/ ro_orcpt o <> [] -> cf_dsn cfg = true)
  /\ (rrvs_set o -> cf_rrvs cfg = true).

Definition rcpt_ext (ext : option Client.extmap) (o : rcpt_opts) : Prop :=
  (ro_notify o <> [] \/ ro_orcpt o <> [] -> Client.has_ext ext (bs "DSN") = true)
  /\ (rrvs_set o -> Client.has_ext ext (bs "RRVS") = true).

Definition rcpt_rows (ext : option Client.extmap) (o : rcpt_opts) : list (bool * (bytes * bytes)) :=
  [ (nonnil (ro_notify o), (bs "NOTIFY", join (bs ",") (ro_notify o)));
    (nonnil (ro_orcpt o), (bs "ORCPT", orcpt_value ext o));
    (match ro_rrvs o with Some t => negb (Client.rt_is_zero t) | None => false end,
     (bs "RRVS", match ro_rrvs o with Some t => Client.format_rfc3339 t | None => [] end)) ].

Lemma rcpt_kvs_rows ext o : rcpt_kvs ext o = sent (rcpt_rows ext o).
Proof.
  unfold rcpt_kvs, rcpt_rows. cbn [sent fst snd]. rewrite !opt_nonnil, app_nil_r.
  destruct (ro_rrvs o) as [t|]; [apply f_equal, f_equal, opt_negb|reflexivity].
Qed.

Lemma rcpt_rows_full ext o :
  ro_merge (map fst (sent (rcpt_rows ext o))) (seen_rcpt o) ro_zero = seen_rcpt o.
Proof.
  unfold ro_merge. rewrite !has_key_sent. unfold seen_rcpt, rrvs_seen, rcpt_rows.
  destruct o as [n ty a [t|]];
    cbn [existsb fst snd ro_notify ro_orcpt_type ro_orcpt ro_rrvs ro_zero];
    keys; cbn [andb orb]; rewrite ?orb_false_r;
    destruct n, a; try destruct (Client.rt_is_zero t); reflexivity.
Qed.

Lemma client_rcpt_toks ext o :
  rcpt_dom o -> rcpt_ext ext o ->
  Client.rcpt_params ext (Some o) = inl (map tok_of (sent (rcpt_rows ext o))).
Proof.
  intros (Hn & Ho & _) (Hd & Hv). unfold rrvs_set in Hv.
  unfold Client.rcpt_params, rcpt_rows, Client.key. destruct o as [notify ty orcpt rrvs].
  cbn [ro_notify ro_orcpt_type ro_orcpt ro_rrvs] in *.
  assert (Hdsn : (if Client.has_ext ext (bs "DSN")
                  then Client.rcpt_dsn_params ext (mkRO notify ty orcpt rrvs) else inl [])
                 = inl (map tok_of ((if nonnil notify then [(bs "NOTIFY", join (bs ",") notify)] else [])
                                    ++ (if nonnil orcpt
                                        then [(bs "ORCPT", orcpt_value ext (mkRO notify ty orcpt rrvs))]
                                        else [])))).
  { destruct (Client.has_ext ext (bs "DSN")).
    - unfold Client.rcpt_dsn_params, orcpt_value, Client.key.
      cbn [ro_notify ro_orcpt_type ro_orcpt].
      destruct notify; [|destruct Hn as [Hn|Hn]; [discriminate Hn|rewrite Hn]];
        (destruct Ho as [->|[[-> Hp]|[-> _]]]; [|destruct orcpt; [|rewrite Hp]|destruct orcpt]);
        reflexivity.
    - destruct notify; [|discriminate Hd; left; discriminate].
      destruct orcpt; [reflexivity|discriminate Hd; right; discriminate]. }
  rewrite Hdsn. clear Hdsn.
  destruct rrvs as [t|]; [destruct (Client.rt_is_zero t) eqn:Z; [rewrite andb_false_r|rewrite (Hv eq_refl)]|];
    try generalize (Client.format_rfc3339 t); intros;
    cbn [sent fst snd negb andb]; rewrite ?map_app, <- ?app_assoc; cbn [map]; rewrite ?app_nil_r;
    reflexivity.
Qed.

(* the sixteen NOTIFY values as tokens *)
Lemma notify_val_chk :
  forallb (fun vals => forallb valch (join (bs ",") vals) && nonnil (join (bs ",") vals))
          notify_sets = true.
Proof. vm_compute. reflexivity. Qed.

Definition u8xch (c : ascii) : bool :=
  qchar c || Ascii.eqb c "\" || Ascii.eqb c "x" || Ascii.eqb c "{" || Ascii.eqb c "}" || is_hexU c.

Lemma utf8_xtext_u8xch s : forallb u8xch (encode_utf8_addr_xtext s) = true.
Proof.
  apply forallb_forall. intros c Hc. apply encode_utf8_addr_xtext_clean in Hc. unfold u8xch.
  destruct Hc as [H|[->|[->|[->|[->|H]]]]]; try reflexivity; rewrite H; rewrite ?orb_true_r; reflexivity.
Qed.

Lemma u8xch_valch s : forallb u8xch s = true -> forallb valch s = true.
Proof. apply valch_of. vm_compute. reflexivity. Qed.

Lemma unitext_no_eq s : mem_byte "=" (encode_utf8_addr_unitext s) = false.
Proof.
  apply mem_byte_false. intros Hin. apply encode_utf8_addr_unitext_clean in Hin.
  repeat (destruct Hin as [Hin|Hin]); try (vm_compute in Hin; discriminate Hin).
  apply N.leb_le in Hin. vm_compute in Hin. discriminate Hin.
Qed.

Lemma rcpt_rows_facts cfg ext o :
  rcpt_dom o -> rcpt_srv cfg o ->
  forall kv, In kv (sent (rcpt_rows ext o)) ->
             wire_ok kv /\ sets_rcpt cfg (seen_rcpt o) (fst kv) (snd kv).
Proof.
  intros (Hn & Ho & Hr) (Sd & Sr). unfold rrvs_set in Sr. apply sent_forall.
  unfold rcpt_rows, seen_rcpt, rrvs_seen, orcpt_value. destruct o as [n ty a rr].
  cbn [ro_notify ro_orcpt_type ro_orcpt ro_rrvs] in *.
  repeat apply Forall_cons; try apply Forall_nil; [| |destruct rr as [t|]]; cbn [fst snd]; intros C.
  - (* NOTIFY *)
    assert (Hne : n <> []) by (intros ->; discriminate C).
    destruct Hn as [Hn|Hn]; [contradiction|]. split.
    + pose proof notify_val_chk as V. rewrite forallb_forall in V.
      specialize (V n (proj1 (notify_sets_complete n) Hn)). apply andb_true_iff in V as [V1 V2].
      apply wire_ok_value; [reflexivity..|]. split; [intros E; now rewrite E in V2|now apply valch_ok].
    + intros o'. rewrite C14_notify_ok by (assumption || apply Sd; now left).
      destruct n; [contradiction|reflexivity].
  - (* ORCPT *)
    assert (Hne : a <> []) by (intros ->; discriminate C).
    assert (Hd : cf_dsn cfg = true) by (apply Sd; now right).
    destruct Ho as [Ho|[[-> Hp]|(-> & cs & -> & Ha)]]; [contradiction| |].
    + change (bytes_eqb (bs "RFC822") (bs "RFC822")) with true. cbv iota. split.
      * apply wire_ok_value; [reflexivity..|].
        apply xtext_val_ok; [reflexivity|apply printable_ascii7, Hp|exact Hne].
      * intros o'. rewrite C14_orcpt_rfc822 by assumption. destruct a; [contradiction|reflexivity].
    + change (bytes_eqb (bs "UTF-8") (bs "RFC822")) with false. cbv iota.
      assert (Hcs : cs <> []) by (intros ->; now apply Hne).
      destruct (Client.has_ext ext (bs "SMTPUTF8")); split.
      * apply wire_ok_value; [reflexivity..|].
        apply val_ok_app; [reflexivity|discriminate|apply unitext_no_eq|now apply unitext_ws_free].
      * intros o'. rewrite C14_orcpt_utf8_unitext by assumption.
        destruct (utf8_of_runes cs); [contradiction|reflexivity].
      * apply wire_ok_value; [reflexivity..|].
        apply val_ok_app; [reflexivity|discriminate|..]; apply valch_ok, u8xch_valch, utf8_xtext_u8xch.
      * intros o'. rewrite C14_orcpt_utf8_xtext by assumption.
        destruct (utf8_of_runes cs); [contradiction|reflexivity].
  - (* RRVS *)
    apply negb_true_iff in C. destruct Hr as [Hr|Hr]; [congruence|]. split.
    + apply wire_ok_value; [reflexivity..|].
      split; [|apply valch_ok, timech_valch, ClientProofs.format_rfc3339_timech].
      unfold Client.format_rfc3339. destruct (Client.civil_from_days _) as [[y m] d].
      intros E. apply app_eq_nil in E as [_ E]. discriminate E.
    + intros o'. rewrite C14_rrvs by auto. rewrite C. reflexivity.
  - discriminate C.
Qed.

Definition rcpt_state_ok (cfg : config) (c : conn) : Prop :=
  c_from c = true /\ c_bdat c = None /\ c_session c = true
  /\ ((0 <? cf_max_rcpt cfg)%N && (cf_max_rcpt cfg <=? N.of_nat (List.length (c_rcpts c)))%N) = false.

Theorem C14_rcpt_trip cfg ext c to opts :
  let o := match opts with Some o => o | None => ro_zero end in
  let ps := rcpt_toks ext o in
  addr_ok to = true ->
  rcpt_dom o -> rcpt_srv cfg o -> rcpt_ext ext o -> rcpt_state_ok cfg c ->
  (* the client returns no local error and writes exactly this line ... *)
  Client.rcpt_params ext opts = inl ps
  /\ exists arg,
       parse_cmd (Client.rcpt_line to ps) = Some (bs "RCPT", arg)
       (* ... which the server turns into this backend call *)
       /\ exists c' w,
            handle cfg c (bs "RCPT") arg
            = (c', [ERcpt to (seen_rcpt o) (fst (pop_rcpt c)); w]).
Proof.
  intros o ps Hto Hdom Hsrv Hext (Hfrom & Hbdat & Hsess & Hmax).
  unfold ps, rcpt_toks. rewrite rcpt_kvs_rows. clear ps. set (kvs := sent (rcpt_rows ext o)).
  split; [destruct opts as [o'|]; [exact (client_rcpt_toks ext o' Hdom Hext)|reflexivity]|].
  pose proof (rcpt_rows_facts cfg ext o Hdom Hsrv) as Hfacts. fold kvs in Hfacts.
  destruct (addr_ok_mbox _ Hto) as (lp & dom & -> & Hm & Hca).
  destruct (envelope_line (bs "RCPT") (bs "TO:") (lp ++ "@" :: dom) kvs) as (Hcmd & Trest & Hargs);
    [now right|discriminate|reflexivity|exact Hca|intros kv Hin; apply Hfacts, Hin|apply NoDup_sent, nodupb_NoDup; reflexivity|].
  set (rest := "<" :: (lp ++ "@" :: dom) ++ ">" :: render (map tok_of kvs)) in *.
  exists (bs "TO:" ++ rest). split; [exact Hcmd|].
  rewrite handle_rcpt_eq. unfold handle_rcpt.
  rewrite Hfrom, Hbdat, cut_prefix_to, Trest. cbn [negb].
  subst rest. rewrite (parse_path_ok lp dom _ Hm), Hmax, Hargs.
  rewrite (rcpt_params_sorted cfg (seen_rcpt o)) by (intros kv Hin; apply Hfacts, Hin).
  subst kvs. rewrite rcpt_rows_full, Hsess. cbn [negb].
  destruct (pop_rcpt c) as [r c2]. cbn [fst].
  destruct r; eexists; eexists; reflexivity.
Qed.

Print Assumptions C14_rcpt_trip.

(* the line of the trip theorems really is what Client.Mail / Client.Rcpt write *)
Theorem C14_client_writes_mail c from opts ps e rest :
  ClientProofs.io_ready c -> Client.mail_params (Client.c_ext c) opts = inl ps ->
  ClientProofs.reads (Client.c_in c) 250 e rest ->
  Client.c_out (snd (Client.c_mail_step from opts c))
  = Client.c_out c ++ Client.mail_line from ps ++ crlf
  /\ fst (Client.c_mail_step from opts c) = Client.res_of_cerr e.
Proof.
  intros R Hp Hr. unfold Client.c_mail_step.
  change (Client.c_ext (Client.set_rcpts c [])) with (Client.c_ext c). rewrite Hp.
  assert (R' : ClientProofs.io_ready (Client.set_rcpts c [])) by exact R.
  rewrite (ClientProofs.cmd_err_ready _ _ _ e rest R') by exact Hr. split; reflexivity.
Qed.

Theorem C14_client_writes_rcpt c to opts ps e rest :
  ClientProofs.io_ready c -> clean to -> Client.rcpt_params (Client.c_ext c) opts = inl ps ->
  ClientProofs.reads (Client.c_in c) 25 e rest ->
  Client.c_out (snd (Client.c_rcpt c to opts))
  = Client.c_out c ++ Client.rcpt_line to ps ++ crlf
  /\ fst (Client.c_rcpt c to opts) = Client.res_of_cerr e.
Proof.
  intros R C Hp Hr. unfold Client.c_rcpt.
  assert (V : Client.valid_line to = true) by (apply ClientProofs.valid_line_clean; exact C).
  rewrite V, Hp. cbn [negb].
  rewrite (ClientProofs.cmd_err_ready _ _ _ e rest R) by exact Hr.
  destruct e; split; reflexivity.
Qed.

Lemma split_join texts :
  texts <> [] -> Forall (fun t => mem_byte LF t = false) texts ->
  split_byte LF (join [LF] texts) = texts.
Proof.
  induction texts as [|t texts IH]; [congruence|]. intros _ H.
  inversion H as [|? ? Ht Hr]; subst. destruct texts as [|t' r].
  - cbn [join]. now apply split_byte_single.
  - rewrite join_cons2. cbn [app]. rewrite split_byte_app by exact Ht.
    rewrite IH by (discriminate || assumption). reflexivity.
Qed.

(* the keys the client holds after reading the 250 reply handle_greet writes
   for EHLO / LHLO are exactly the first words of the advertised lines *)
Theorem C14_ehlo_bridge cfg c domain expect rest k :
  mem_byte LF domain = false ->
  Forall (fun t => mem_byte LF t = false) (caps cfg c) ->
  exists msg e,
    ClientReply.client_read_response expect
      (write_response 250 no_ec ((bs "Hello " ++ domain) :: caps cfg c) ++ rest)
    = ((250%Z, msg, e), rest)
    /\ (ClientReply.expect_mismatch expect 250 = false -> e = ClientReply.CNil)
    /\ (Client.has_ext (Some (Client.parse_ext msg)) k = true
        <-> In k (map ClientProofs.ext_key (caps cfg c))).
Proof.
  intros Hd Hc.
  assert (Hall : Forall (fun t => mem_byte LF t = false) ((bs "Hello " ++ domain) :: caps cfg c)).
  { constructor; [|exact Hc]. rewrite mem_byte_app, Hd. reflexivity. }
  rewrite client_read_rendered by lia. change (default_ec 250 no_ec) with no_ec.
  rewrite split_join, wire_msg_no_ec by (discriminate || exact Hall).
  eexists; eexists; split; [reflexivity|]. split.
  - intros ->. reflexivity.
  - rewrite ClientProofs.has_ext_parse_ext. unfold ClientProofs.ext_lines.
    rewrite split_join by (discriminate || exact Hall). reflexivity.
Qed.

(* which keys that gives: the first word of every capability line *)
Lemma caps_keys cfg c :
  map ClientProofs.ext_key (caps cfg c)
  = [bs "PIPELINING"; bs "8BITMIME"; bs "ENHANCEDSTATUSCODES"; bs "CHUNKING"]
    ++ sent [ (cf_tls_config cfg && negb (c_tls c), bs "STARTTLS");
             (auth_allowed cfg c && match cf_auth cfg with Some (_ :: _) => true | _ => false end,
              bs "AUTH");
             (cf_utf8 cfg, bs "SMTPUTF8");
             (c_tls c && cf_requiretls cfg, bs "REQUIRETLS");
             (cf_binarymime cfg, bs "BINARYMIME");
             (cf_dsn cfg, bs "DSN");
             (true, bs "SIZE");
             ((0 <? cf_max_rcpt cfg)%N, bs "LIMITS");
             (cf_rrvs cfg, bs "RRVS") ].
Proof.
  unfold caps. rewrite !map_app. cbn [sent fst snd]. rewrite app_nil_r.
  repeat apply (f_equal2 (@app _)); try reflexivity;
    try (now destruct (_ : bool)).
  destruct (auth_allowed cfg c); [|reflexivity]. now destruct (cf_auth cfg) as [[|m ms]|].
Qed.

Theorem C14_caps_keys cfg c :
  let ks := map ClientProofs.ext_key (caps cfg c) in
  In (bs "8BITMIME") ks /\ In (bs "SIZE") ks
  /\ (cf_utf8 cfg = true -> In (bs "SMTPUTF8") ks)
  /\ (c_tls c = true -> cf_requiretls cfg = true -> In (bs "REQUIRETLS") ks)
  /\ (cf_dsn cfg = true -> In (bs "DSN") ks)
  /\ (cf_rrvs cfg = true -> In (bs "RRVS") ks)
  /\ (auth_allowed cfg c = true -> (exists m ms, cf_auth cfg = Some (m :: ms)) -> In (bs "AUTH") ks)
  /\ (In (bs "BINARYMIME") ks <-> cf_binarymime cfg = true).
Proof.
  (* a key of the table is there when the condition of its row holds *)
  assert (S : forall on (k : bytes) l rows, In (on, k) rows -> on = true -> In k (l ++ sent rows)).
  { intros on k l rows H ->. apply in_or_app. right. apply in_sent, H. }
  cbv zeta. rewrite caps_keys. repeat split.
  - apply in_or_app; left; auto with datatypes.
  - apply (S true); auto 15 with datatypes.
  - apply S. auto 15 with datatypes.
  - intros H1 H2. apply (S (c_tls c && cf_requiretls cfg)); [auto 15 with datatypes|now rewrite H1, H2].
  - apply S. auto 15 with datatypes.
  - apply S. auto 15 with datatypes.
  - intros H (m & ms & E). eapply S; [eauto 15 with datatypes|now rewrite H, E].
  - (* no other capability line has the key BINARYMIME *)
    intros H. apply in_app_or in H as [H|H]; [|apply in_sent in H];
      cbn [In] in H; repeat destruct H as [H|H]; try discriminate H; try contradiction.
    now injection H.
  - apply S. auto 15 with datatypes.
Qed.

(* [ext] holds exactly the keys of THIS server's EHLO reply (C14_ehlo_bridge).
   A server without EnableBINARYMIME does not offer BINARYMIME and the client
   refuses Body = BINARYMIME locally (nothing is sent); in every other case the
   backend sees exactly the Body the caller gave, and the connection's
   binarymime flag is raised iff it was BINARYMIME. *)
Theorem C14_body cfg ext c from b :
  body_value b ->
  (from = [] \/ addr_ok from = true) -> mail_state_ok c ->
  (forall k, Client.has_ext ext k = true <-> In k (map ClientProofs.ext_key (caps cfg c))) ->
  let o := set_body mo_zero b in
  if is_binarymime b && negb (cf_binarymime cfg)
  then Client.mail_params ext (Some o) = inr Client.err_binarymime
  else exists ps arg c' w,
         Client.mail_params ext (Some o) = inl ps
         /\ parse_cmd (Client.mail_line from ps) = Some (bs "MAIL", arg)
         /\ handle cfg c (bs "MAIL") arg = (c', [EMail from o (fst (pop_mail c)); w])
         /\ c_binarymime c' = is_binarymime b.
Proof.
  intros Hv Hfrom Hst Hext o.
  destruct (C14_caps_keys cfg c) as (K8 & _ & _ & _ & _ & _ & _ & Kb).
  apply Hext in K8. rewrite <- Hext in Kb.
  assert (Hne : b <> []) by (destruct Hv as [-> | [-> | ->]]; discriminate).
  destruct (is_binarymime b && negb (cf_binarymime cfg)) eqn:Eref.
  - (* the server does not offer BINARYMIME: refused by the client *)
    apply andb_true_iff in Eref as [Eb Ec]. apply bytes_eqb_eq in Eb. apply negb_true_iff in Ec.
    assert (Hx : Client.has_ext ext (bs "BINARYMIME") = false).
    { destruct (Client.has_ext ext (bs "BINARYMIME")); [|reflexivity].
      rewrite (proj1 Kb eq_refl) in Ec. discriminate Ec. }
    subst b o. unfold Client.mail_params, Client.mail_body_param, Client.key.
    cbn [mo_body set_body]. keys. cbn [orb]. rewrite Hx. reflexivity.
  - (* otherwise an instance of the trip theorem *)
    assert (Hcf : b = bs "BINARYMIME" -> cf_binarymime cfg = true).
    { intros ->. destruct (cf_binarymime cfg); [reflexivity|discriminate Eref]. }
    (* o has Body and nothing else: only the Body clauses of the three domains say anything *)
    assert (Hdom : mail_dom cfg o).
    { split; [right; exact Hv|]. cbn. repeat split; auto; lia. }
    assert (Hsrv : mail_srv cfg o).
    { split; [exact Hcf|]. cbn. repeat split; intros; try discriminate; tauto. }
    assert (Hx : mail_ext ext o).
    { split; [intros _; exact K8|]. split; [intros E; apply Kb, Hcf, E|].
      cbn. repeat split; intros; try discriminate; tauto. }
    destruct (C14_mail_trip cfg ext c from (Some o) Hfrom Hdom Hsrv Hx Hst)
      as (Hps & arg & Hparse & c' & w & Hh & Hflag).
    rewrite (seen_mail_id ext o Hne) in Hh.
    exists (mail_toks ext o), arg, c', w. repeat split; assumption.
Qed.

(* after BODY=BINARYMIME the server refuses DATA (the message has to be sent
   with BDAT, which the client does not implement): the transaction of a
   caller who asked for BINARYMIME ends there instead of delivering a message
   that was not labelled as the caller wanted *)
Theorem C14_binarymime_data_refused cfg c :
  c_binarymime c = true -> c_bdat c = None ->
  handle cfg c (bs "DATA") []
  = (c, [reply 502 (5, 5, 1)%Z (bs "DATA not allowed for BINARYMIME messages")]).
Proof.
  intros Hb Hd. change (handle cfg c (bs "DATA") []) with (handle_data cfg c []).
  unfold handle_data. rewrite Hd, Hb. reflexivity.
Qed.

(* CheckTrip's oracle accepts exactly the values the trip theorems say arrive *)
Lemma optb_eqb_refl a : CheckTrip.optb_eqb a a = true.
Proof. destruct a; [apply bytes_eqb_refl|reflexivity]. Qed.

Theorem C14_oracle_mail ext o :
  CheckTrip.mo_matches o (seen_mail ext o) = true.
Proof.
  unfold CheckTrip.mo_matches, CheckTrip.body_matches, seen_mail, seen_body, set_body.
  cbn [mo_body mo_size mo_requiretls mo_utf8 mo_ret mo_envid mo_auth].
  rewrite Z.eqb_refl, !Bool.eqb_reflx, !bytes_eqb_refl, optb_eqb_refl, !andb_true_r.
  destruct (mo_body o) as [|b0 bt]; [|apply bytes_eqb_refl].
  destruct (Client.has_ext ext (bs "8BITMIME")); reflexivity.
Qed.

Lemma list_bytes_eqb_refl l : CheckOracle.list_bytes_eqb l l = true.
Proof. induction l as [|x l IH]; [reflexivity|]. cbn. now rewrite bytes_eqb_refl, IH. Qed.

Theorem C14_oracle_rcpt o :
  match ro_rrvs o with Some t => Client.rt_is_zero t = false | None => True end ->
  CheckTrip.ro_matches o (seen_rcpt o) = true.
Proof.
  intros H. destruct o as [n ty a rr]. unfold CheckTrip.ro_matches, seen_rcpt, rrvs_seen.
  cbn [ro_notify ro_orcpt_type ro_orcpt ro_rrvs] in *. rewrite list_bytes_eqb_refl.
  destruct a; [|rewrite !bytes_eqb_refl];
    (destruct rr as [t|]; [rewrite H; apply Z.eqb_refl|reflexivity]).
Qed.

(* a server with every extension enabled, a TLS session ready for MAIL / RCPT *)
Definition cfg_all : config :=
  mkCfg false false (bs "srv") 0 0 2000 true true true true true true false (Some [bs "PLAIN"]) true.
Definition c_ready : conn :=
  mkC (Transport.mkT [] [] 0 2000 false) [] (mkBE [] [] [] [] []) (bs "h") true 0 false true []
      false false true None 0.
(* the extension map a client parses from THIS server's EHLO reply text *)
Definition ext_all : option Client.extmap :=
  Some (Client.parse_ext (join [LF] ((bs "Hello h") :: caps cfg_all c_ready))).
(* the same server without SMTPUTF8: ORCPT=UTF-8 travels in the xtext form *)
Definition cfg_noutf8 : config :=
  mkCfg false false (bs "srv") 0 0 2000 true false true true true true false (Some [bs "PLAIN"]) true.
Definition ext_noutf8 : option Client.extmap :=
  Some (Client.parse_ext (join [LF] ((bs "Hello h") :: caps cfg_noutf8 c_ready))).
(* the same server without BINARYMIME *)
Definition cfg_nobin : config :=
  mkCfg false false (bs "srv") 0 0 2000 true true true false true true false (Some [bs "PLAIN"]) true.
Definition ext_nobin : option Client.extmap :=
  Some (Client.parse_ext (join [LF] ((bs "Hello h") :: caps cfg_nobin c_ready))).

(* the model composition: client renders, server parses and handles *)
Definition trip_mail cfg ext c from opts : option (list event) :=
  match Client.mail_params ext opts with
  | inl ps => match parse_cmd (Client.mail_line from ps) with
              | Some (cmd, arg) => Some (snd (handle cfg c cmd arg))
              | None => None
              end
  | inr _ => None
  end.
Definition trip_rcpt cfg ext c to opts : option (list event) :=
  match Client.rcpt_params ext opts with
  | inl ps => match parse_cmd (Client.rcpt_line to ps) with
              | Some (cmd, arg) => Some (snd (handle cfg c cmd arg))
              | None => None
              end
  | inr _ => None
  end.
Definition mails (evs : list event) : list (bytes * mail_opts) :=
  flat_map (fun e => match e with EMail f o _ => [(f, o)] | _ => [] end) evs.
Definition rcpts (evs : list event) : list (bytes * rcpt_opts) :=
  flat_map (fun e => match e with ERcpt f o _ => [(f, o)] | _ => [] end) evs.

(* non-vacuity of the parameter-level theorems *)

Example C14_envid_ex :
  cf_dsn cfg_all = true /\ bs "id 1+=~" <> [] /\ is_printable_ascii (bs "id 1+=~") = true
  /\ encode_xtext (bs "id 1+=~") = bs "id+201+2B+3D~".
Proof. repeat split; try reflexivity; discriminate. Qed.

Example C14_auth_mailbox_ex :
  forallb is_ascii7 (bs "a+b=c@d.e") = true
  /\ parse_mailbox (bs "a+b=c@d.e") = Some (bs "a+b=c@d.e", [])
  /\ encode_xtext (bs "a+b=c@d.e") = bs "a+2Bb+3Dc@d.e".
Proof. repeat split; reflexivity. Qed.

Example C14_size_ex :
  (9223372036854775807 < 2 ^ 63)%N
  /\ (cf_max_bytes cfg_all <= 0 \/ Z.of_N 9223372036854775807 <= cf_max_bytes cfg_all)%Z
  /\ mail_param cfg_all (bs "SIZE") (dec_of_N 9223372036854775807) mo_zero false
     = inl (set_size mo_zero 9223372036854775807, false).
Proof. split; [reflexivity|]. split; [left; reflexivity|]. vm_compute. reflexivity. Qed.

Example C14_orcpt_rfc822_ex :
  cf_dsn cfg_all = true /\ bs "o p@q" <> [] /\ is_printable_ascii (bs "o p@q") = true.
Proof. repeat split; try reflexivity; discriminate. Qed.

Example C14_orcpt_utf8_ex :
  let cs := [233; 32; 92; 43; 61; 127; 128512; 64; 8364; 160]%N in
  cs <> [] /\ forallb addr_cp cs = true
  /\ encode_utf8_addr_xtext (utf8_of_runes cs) = bs "\x{E9}\x{20}\x{5C}\x{2B}\x{3D}\x{7F}\x{1F600}@\x{20AC}\x{A0}".
Proof. cbv zeta. split; [discriminate|]. split; vm_compute; reflexivity. Qed.

Example C14_notify_ex : In [bs "FAILURE"; bs "DELAY"] notify_sets /\ List.length notify_sets = 16%nat.
Proof. split; [cbn; tauto|reflexivity]. Qed.

Example C14_rrvs_ex :
  cf_rrvs cfg_all = true /\ rt_dom (mkRT 1700000000 5 (-12600))
  /\ Client.format_rfc3339 (mkRT 1700000000 5 (-12600)) = bs "2023-11-14T18:43:20-03:30".
Proof. unfold rt_dom. cbn [rt_unix rt_off]. repeat split; try lia; reflexivity. Qed.

(* non-vacuity of the trip theorems: every option at once *)

Definition mo_ex : mail_opts :=
  mkMO [] 123456789012 true true (bs "HDRS") (bs "id 1+=") (Some (bs "a+b@c.d")).
Definition from_ex : bytes := [b 195; b 169] ++ bs ".x@" ++ [b 195; b 169] ++ bs ".example".

Example C14_mail_trip_ex :
  addr_ok from_ex = true /\ mail_dom cfg_all mo_ex /\ mail_srv cfg_all mo_ex
  /\ mail_ext ext_all mo_ex /\ mail_state_ok c_ready
  /\ option_map mails (trip_mail cfg_all ext_all c_ready from_ex (Some mo_ex))
     = Some [(from_ex, seen_mail ext_all mo_ex)]
  (* the same options with Body = BINARYMIME: they arrive unchanged *)
  /\ (let o := set_body mo_ex (bs "BINARYMIME") in
      mail_dom cfg_all o /\ mail_srv cfg_all o /\ mail_ext ext_all o /\ seen_mail ext_all o = o
      /\ option_map mails (trip_mail cfg_all ext_all c_ready from_ex (Some o)) = Some [(from_ex, o)]).
Proof.
  assert (D : forall b, b = [] \/ body_value b -> mail_dom cfg_all (set_body mo_ex b)).
  { intros b Hb. unfold mail_dom.
    cbn [set_body mo_body mo_size mo_ret mo_envid mo_auth mo_ex cfg_all cf_max_bytes].
    split; [exact Hb|]. split; [lia|]. split; [left; lia|]. split; [right; right; reflexivity|].
    split; [reflexivity|]. split; reflexivity. }
  split; [reflexivity|]. split; [exact (D [] (or_introl eq_refl))|].
  split. { repeat split; intros _; reflexivity. }
  split. { repeat split; intros _; vm_compute; reflexivity. }
  split. { repeat split; try reflexivity. discriminate. }
  split; [vm_compute; reflexivity|]. cbv zeta.
  split; [apply D; right; right; right; reflexivity|].
  split. { repeat split; intros _; reflexivity. }
  split. { repeat split; intros _; vm_compute; reflexivity. }
  split; [apply seen_mail_id; discriminate|]. vm_compute. reflexivity.
Qed.

Definition ro_ex : rcpt_opts :=
  mkRO [bs "SUCCESS"; bs "DELAY"] (bs "UTF-8") (utf8_of_runes [8232; 233; 32; 92; 8195; 64; 8364; 160]%N)
       (Some (mkRT 1700000000 7 3600)).

Example C14_rcpt_trip_ex :
  addr_ok from_ex = true /\ rcpt_dom ro_ex /\ rcpt_srv cfg_all ro_ex
  /\ rcpt_ext ext_all ro_ex /\ rcpt_state_ok cfg_all c_ready
  /\ rcpt_ext ext_noutf8 ro_ex /\ rcpt_srv cfg_noutf8 ro_ex
  (* unitext form *)
  /\ option_map rcpts (trip_rcpt cfg_all ext_all c_ready from_ex (Some ro_ex))
     = Some [(from_ex, seen_rcpt ro_ex)]
  (* xtext form *)
  /\ option_map rcpts (trip_rcpt cfg_noutf8 ext_noutf8 c_ready from_ex (Some ro_ex))
     = Some [(from_ex, seen_rcpt ro_ex)]
  /\ Client.rcpt_params ext_all (Some ro_ex) <> Client.rcpt_params ext_noutf8 (Some ro_ex).
Proof.
  assert (D : rcpt_dom ro_ex).
  { split; [right; reflexivity|]. split.
    - right. right. split; [reflexivity|].
      exists [8232; 233; 32; 92; 8195; 64; 8364; 160]%N. split; reflexivity.
    - right. unfold rt_dom. cbn [rt_unix rt_off]. repeat split; try lia; reflexivity. }
  split; [reflexivity|]. split; [exact D|].
  split. { split; intros _; reflexivity. }
  split. { split; intros _; vm_compute; reflexivity. }
  split. { repeat split; reflexivity. }
  split. { split; intros _; vm_compute; reflexivity. }
  split. { split; intros _; reflexivity. }
  split; [vm_compute; reflexivity|]. split; [vm_compute; reflexivity|].
  vm_compute. discriminate.
Qed.

Example C14_ehlo_bridge_ex :
  mem_byte LF (bs "h") = false
  /\ Forall (fun t => mem_byte LF t = false) (caps cfg_all c_ready)
  /\ map ClientProofs.ext_key (caps cfg_all c_ready)
     = [bs "PIPELINING"; bs "8BITMIME"; bs "ENHANCEDSTATUSCODES"; bs "CHUNKING"; bs "AUTH";
        bs "SMTPUTF8"; bs "REQUIRETLS"; bs "BINARYMIME"; bs "DSN"; bs "SIZE"; bs "RRVS"].
Proof.
  split; [reflexivity|]. split; [|vm_compute; reflexivity].
  apply Forall_forall. intros t Ht.
  assert (C : forallb (fun t => negb (mem_byte LF t)) (caps cfg_all c_ready) = true) by (vm_compute; reflexivity).
  rewrite forallb_forall in C. apply negb_true_iff. now apply C.
Qed.

(* the hypothesis of C14_body about [ext] holds for the map parsed from the
   server's own EHLO reply *)
Example C14_body_ext_ex :
  (forall k, Client.has_ext ext_all k = true
             <-> In k (map ClientProofs.ext_key (caps cfg_all c_ready)))
  /\ (forall k, Client.has_ext ext_nobin k = true
                <-> In k (map ClientProofs.ext_key (caps cfg_nobin c_ready))).
Proof.
  split; intros k; unfold ext_all, ext_nobin; rewrite ClientProofs.has_ext_parse_ext.
  - assert (E : ClientProofs.ext_lines (join [LF] (bs "Hello h" :: caps cfg_all c_ready))
                = caps cfg_all c_ready) by (vm_compute; reflexivity).
    rewrite E. reflexivity.
  - assert (E : ClientProofs.ext_lines (join [LF] (bs "Hello h" :: caps cfg_nobin c_ready))
                = caps cfg_nobin c_ready) by (vm_compute; reflexivity).
    rewrite E. reflexivity.
Qed.

(* the three values through the model composition, on the fully enabled server
   and on the one without BINARYMIME; an unset Body; DATA after BINARYMIME *)
Example C14_body_ex :
  let body b := mkMO b 0 false false [] [] None in
  let trip cfg ext b := option_map mails (trip_mail cfg ext c_ready (bs "a@b") (Some (body b))) in
  trip cfg_all ext_all (bs "7BIT") = Some [(bs "a@b", body (bs "7BIT"))]
  /\ trip cfg_all ext_all (bs "8BITMIME") = Some [(bs "a@b", body (bs "8BITMIME"))]
  /\ trip cfg_all ext_all (bs "BINARYMIME") = Some [(bs "a@b", body (bs "BINARYMIME"))]
  /\ trip cfg_nobin ext_nobin (bs "7BIT") = Some [(bs "a@b", body (bs "7BIT"))]
  /\ trip cfg_nobin ext_nobin (bs "8BITMIME") = Some [(bs "a@b", body (bs "8BITMIME"))]
  /\ Client.mail_params ext_nobin (Some (body (bs "BINARYMIME"))) = inr Client.err_binarymime
  /\ Client.mail_params ext_all (Some (body (bs "binarymime"))) = inr Client.err_body
  /\ trip cfg_all ext_all [] = Some [(bs "a@b", body (bs "8BITMIME"))]
  /\ option_map mails (trip_mail cfg_all ext_all c_ready (bs "a@b") None)
     = Some [(bs "a@b", body (bs "8BITMIME"))].
Proof. vm_compute. repeat split. Qed.

Example C14_binarymime_data_ex :
  match Client.mail_params ext_all (Some (mkMO (bs "BINARYMIME") 0 false false [] [] None)) with
  | inl ps =>
      match parse_cmd (Client.mail_line (bs "a@b") ps) with
      | Some (cmd, arg) =>
          let c' := fst (handle cfg_all c_ready cmd arg) in
          c_binarymime c' = true /\ c_bdat c' = None
          /\ snd (handle cfg_all c' (bs "DATA") [])
             = [reply 502 (5, 5, 1)%Z (bs "DATA not allowed for BINARYMIME messages")]
      | None => False
      end
  | inr _ => False
  end.
Proof. vm_compute. repeat split. Qed.

(* F25: an address that is not addr_simple injects parameters *)
Theorem C14_address_injection_refuted :
  CheckTrip.addr_simple (bs "a@b> AUTH=<") = false
  /\ Client.valid_line (bs "a@b> AUTH=<") = true
  /\ option_map mails (trip_mail cfg_all ext_all c_ready (bs "a@b> AUTH=<") None)
     = Some [(bs "a@b", mkMO (bs "8BITMIME") 0 false false [] [] (Some []))]
  /\ CheckTrip.addr_simple (bs "r@s> NOTIFY=NEVER ORCPT=rfc822;x") = false
  /\ option_map rcpts (trip_rcpt cfg_all ext_all c_ready (bs "r@s> NOTIFY=NEVER ORCPT=rfc822;x") None)
     = Some [(bs "r@s", mkRO [bs "NEVER"] (bs "RFC822") (bs "x>") None)].
Proof. vm_compute. repeat split. Qed.

(* addr_simple is not enough to be ACCEPTED: a dot-string special in the local
   part, or a trailing '@', passes the client and is refused by the server with
   501 - the backend sees nothing (so no different value is observed either) *)
Theorem C14_addr_special_refused :
  CheckTrip.addr_simple (bs "a(b@c") = true /\ addr_ok (bs "a(b@c") = false
  /\ trip_rcpt cfg_all ext_all c_ready (bs "a(b@c") None = Some [syntax_rcpt]
  /\ CheckTrip.addr_simple (bs "a@b@") = true /\ addr_ok (bs "a@b@") = false
  /\ trip_rcpt cfg_all ext_all c_ready (bs "a@b@") None = Some [syntax_rcpt]
  /\ trip_mail cfg_all ext_all c_ready (bs "a,b@c") None = Some [syntax_mail].
Proof. vm_compute. repeat split. Qed.

(* formerly finding F29 (fixed): with SMTPUTF8 negotiated the client wrote
   EVERY non-ASCII code point of an ORCPT=UTF-8 address raw (unitext form), and
   the server's strings.TrimSpace / strings.Fields took the non-ASCII
   White_Space code points for separators (a trailing U+00A0 was silently
   dropped; inside the address it made the server refuse the command with
   500).  They are embedded now: each of the nineteen code points, at the
   start, inside and at the end of the address, arrives unchanged in both
   forms - instances of C14_rcpt_trip, computed. *)
Example C14_orcpt_unicode_space_ex :
  let nbsp := [b 194; b 160] in
  Client.rcpt_params ext_all (Some (mkRO [] (bs "UTF-8") (bs "x@y" ++ nbsp) None))
  = inl [bs "ORCPT=UTF-8;x@y\x{A0}"]
  /\ option_map rcpts (trip_rcpt cfg_all ext_all c_ready (bs "r@s")
                         (Some (mkRO [] (bs "UTF-8") (bs "x@y" ++ nbsp) None)))
     = Some [(bs "r@s", mkRO [] (bs "UTF-8") (bs "x@y" ++ nbsp) None)]
  /\ option_map rcpts (trip_rcpt cfg_all ext_all c_ready (bs "r@s")
                         (Some (mkRO [] (bs "UTF-8") (bs "x" ++ nbsp ++ bs "y@z") None)))
     = Some [(bs "r@s", mkRO [] (bs "UTF-8") (bs "x" ++ nbsp ++ bs "y@z") None)]
  /\ option_map rcpts (trip_rcpt cfg_noutf8 ext_noutf8 c_ready (bs "r@s")
                         (Some (mkRO [] (bs "UTF-8") (bs "x@y" ++ nbsp) None)))
     = Some [(bs "r@s", mkRO [] (bs "UTF-8") (bs "x@y" ++ nbsp) None)]
  /\ forallb (fun cp =>
        let o := mkRO [] (bs "UTF-8") (utf8_of_runes [cp; 120; cp; 64; 121; cp]%N) None in
        let arrives cfg ext :=
          match option_map rcpts (trip_rcpt cfg ext c_ready (bs "r@s") (Some o)) with
          | Some [(to, o')] => bytes_eqb to (bs "r@s") && CheckTrip.ro_matches o o'
          | _ => false
          end in
        arrives cfg_all ext_all && arrives cfg_noutf8 ext_noutf8) uspace_cps = true.
Proof. vm_compute. repeat split. Qed.

(* MailOptions.Auth = "<>" (the two characters) is written as AUTH=<> and
   arrives as the empty string; "<>" is not a mailbox *)
Theorem C14_auth_brackets_refuted :
  parse_mailbox (bs "<>") = None
  /\ option_map mails (trip_mail cfg_all ext_all c_ready (bs "a@b")
                         (Some (mkMO [] 0 false false [] [] (Some (bs "<>")))))
     = Some [(bs "a@b", mkMO (bs "8BITMIME") 0 false false [] [] (Some []))].
Proof. vm_compute. repeat split. Qed.

(* a Size the client accepts but the server cannot: negative (int64) *)
Theorem C14_negative_size_refused :
  option_map mails (trip_mail cfg_all ext_all c_ready (bs "a@b")
                      (Some (mkMO [] (-1) false false [] [] None))) = Some [].
Proof. vm_compute. reflexivity. Qed.

Print Assumptions C14_client_writes_mail.
Print Assumptions C14_client_writes_rcpt.
Print Assumptions C14_ehlo_bridge.
Print Assumptions C14_caps_keys.
Print Assumptions C14_body.
Print Assumptions C14_binarymime_data_refused.
Print Assumptions C14_oracle_mail.
Print Assumptions C14_oracle_rcpt.
