(* Proofs about the xtext (RFC 3461) and utf-8-addr-xtext / unitext
   (RFC 6533) codecs of conn.go.
   - [xtext_roundtrip]: decode_xtext inverts encode_xtext on 7-bit strings.
   - [utf8_addr_xtext_roundtrip], [utf8_addr_unitext_roundtrip]:
     decode_utf8_addr_xtext inverts both utf-8-addr encoders on text made of
     the code points [addr_cp] (U+0020..U+007F and every non-ASCII scalar
     value).
   - The encoders never emit CR, LF or SP: [encode_xtext_clean],
     [encode_utf8_addr_xtext_clean], [encode_utf8_addr_unitext_clean] and the
     [..._no_crlf_sp] corollaries. *)
From Smtp Require Import Bytes GoStrings Utf8 Xtext Utf8Proofs.
From Coq Require Import Lia ZifyBool ZifyN ZifyNat.
Local Open Scope char_scope.

Local Ltac Zify.zify_post_hook ::= Z.div_mod_to_equations.

(* a boolean fact checked on 0..k-1 holds for every n < k *)
Lemma N_enum (P : N -> bool) (k : nat) :
  forallb P (map N.of_nat (seq 0 k)) = true ->
  forall n, (n < N.of_nat k)%N -> P n = true.
Proof.
  intros H n Hn. rewrite forallb_forall in H. apply H.
  apply in_map_iff. exists (N.to_nat n). split; [lia|].
  apply in_seq. lia.
Qed.

(* a boolean fact checked on the 256 octets holds for every octet *)
Lemma byte_enum (P : ascii -> bool) :
  forallb (fun n => P (n_byte n)) (map N.of_nat (seq 0 256)) = true ->
  forall c, P c = true.
Proof.
  intros H c. rewrite <- (n_byte_byte_n c).
  apply (N_enum (fun n => P (n_byte n)) 256 H). apply byte_n_lt.
Qed.

Lemma byte_implies (P Q : ascii -> bool) :
  forallb (fun n => implb (P (n_byte n)) (Q (n_byte n))) (map N.of_nat (seq 0 256)) = true ->
  forall c, P c = true -> Q c = true.
Proof.
  intros H c Hc. pose proof (byte_enum (fun c => implb (P c) (Q c)) H c) as I.
  cbv beta in I. rewrite Hc in I. exact I.
Qed.

Lemma mem_byte_false c l : ~ In c l -> mem_byte c l = false.
Proof.
  intros H. destruct (mem_byte c l) eqn:E; [|reflexivity].
  exfalso. apply H. now apply mem_byte_In.
Qed.

Definition hexdigit_ok (m : N) : bool :=
  match hexU (hexdigitU m) with Some v => N.eqb v m | None => false end.

Lemma hexU_hexdigitU m : (m < 16)%N -> hexU (hexdigitU m) = Some m.
Proof.
  intros H.
  assert (E : hexdigit_ok m = true).
  { apply (N_enum hexdigit_ok 16); [vm_compute; reflexivity|exact H]. }
  unfold hexdigit_ok in E. destruct (hexU (hexdigitU m)) as [v|]; [|discriminate].
  apply N.eqb_eq in E. now subst.
Qed.

Lemma is_hexU_hexdigitU m : (m < 16)%N -> is_hexU (hexdigitU m) = true.
Proof. intros H. unfold is_hexU. now rewrite hexU_hexdigitU. Qed.

Lemma hexU_of_pos_f_hex : forall fuel n acc,
  forallb is_hexU acc = true -> forallb is_hexU (hexU_of_pos_f fuel n acc) = true.
Proof.
  induction fuel as [|f IH]; intros n acc Hacc; cbn [hexU_of_pos_f]; [exact Hacc|].
  destruct (n =? 0)%N; [exact Hacc|].
  apply IH. cbn [forallb]. rewrite Hacc, is_hexU_hexdigitU; [reflexivity|].
  apply N.mod_lt. discriminate.
Qed.

Lemma hexU_of_N_hex n : forallb is_hexU (hexU_of_N n) = true.
Proof.
  unfold hexU_of_N. destruct (n =? 0)%N; [reflexivity|].
  now apply hexU_of_pos_f_hex.
Qed.

Lemma hex02_hex n : forallb is_hexU (hex02 n) = true.
Proof.
  unfold hex02. destruct (n <? 16)%N.
  - cbn [forallb]. now rewrite hexU_of_N_hex.
  - apply hexU_of_N_hex.
Qed.

Lemma hex02_In_hex n c : In c (hex02 n) -> is_hexU c = true.
Proof.
  intros H. pose proof (hex02_hex n) as Hh. rewrite forallb_forall in Hh. auto.
Qed.

Lemma hex_value_snoc d c v :
  hexU c = Some v -> hex_value (d ++ [c]) = (hex_value d * 16 + v)%N.
Proof.
  intros Hc. unfold hex_value. rewrite fold_left_app. cbn [fold_left].
  now rewrite Hc.
Qed.

Fixpoint pow16 (k : nat) : N :=
  match k with O => 1%N | S k => (16 * pow16 k)%N end.

Lemma pow16_pos k : (1 <= pow16 k)%N.
Proof. induction k as [|k IH]; cbn [pow16]; lia. Qed.

(* the digits produced for n: their value is n, and there are exactly as many
   as n needs (no leading zero) *)
Lemma hexU_of_pos_f_spec : forall fuel n acc,
  (n < pow16 fuel)%N ->
  exists d,
    hexU_of_pos_f fuel n acc = d ++ acc /\
    hex_value d = n /\
    (n = 0%N -> d = []) /\
    ((0 < n)%N -> (pow16 (List.length d) <= 16 * n)%N /\ (n < pow16 (List.length d))%N).
Proof.
  induction fuel as [|f IH]; intros n acc Hn; cbn [hexU_of_pos_f pow16] in *;
    [|destruct (N.eqb_spec n 0) as [Hz|Hz]].
  1,2: exists []; cbn; repeat split; (reflexivity || lia).
  destruct (IH (n / 16)%N (hexdigitU (n mod 16) :: acc)) as (d & E & Hv & Hd0 & Hlen); [lia|].
  assert (Hm : (n mod 16 < 16)%N) by (apply N.mod_lt; discriminate).
  exists (d ++ [hexdigitU (n mod 16)]).
  split; [rewrite E, <- app_assoc; reflexivity|].
  split.
  { rewrite (hex_value_snoc d _ (n mod 16)) by now apply hexU_hexdigitU.
    rewrite Hv. lia. }
  split; [lia|].
  intros _. rewrite app_length. cbn [List.length]. rewrite Nat.add_1_r.
  cbn [pow16].
  destruct (N.eqb_spec (n / 16) 0) as [Hq|Hq].
  - rewrite (Hd0 Hq). cbn [List.length pow16]. lia.
  - destruct Hlen as [Hl1 Hl2]; lia.
Qed.

Lemma hex02_spec cp :
  (16 <= cp < 4294967296)%N ->
  hex_value (hex02 cp) = cp /\
  (pow16 (List.length (hex02 cp)) <= 16 * cp)%N /\
  (cp < pow16 (List.length (hex02 cp)))%N.
Proof.
  intros H. unfold hex02, hexU_of_N.
  destruct (N.ltb_spec cp 16) as [?|_]; [lia|].
  destruct (N.eqb_spec cp 0) as [?|_]; [lia|].
  destruct (hexU_of_pos_f_spec 8 cp []) as (d & E & Hv & _ & Hlen).
  { cbn [pow16]. lia. }
  rewrite E, app_nil_r. destruct Hlen as [H1 H2]; [lia|]. auto.
Qed.

(* what the encoder emits for one 7-bit octet, as seen by the decoder *)
Definition xtext_octet_ok (n : N) : bool :=
  match encode_xtext_rune n with
  | [c] => Ascii.eqb c (n_byte n) && negb (Ascii.eqb c "+")
  | [p; h1; h2] =>
      Ascii.eqb p "+" &&
      match hexU h1, hexU h2 with
      | Some a, Some b => (a * 16 + b =? n)%N
      | _, _ => false
      end
  | _ => false
  end.

Lemma xtext_octet_ok_all n : (n < 128)%N -> xtext_octet_ok n = true.
Proof. apply (N_enum xtext_octet_ok 128). vm_compute. reflexivity. Qed.

Lemma decode_xtext_go_step n rest :
  (n < 128)%N ->
  decode_xtext_go (encode_xtext_rune n ++ rest) =
  option_map (cons (n_byte n)) (decode_xtext_go rest).
Proof.
  intros Hn. pose proof (xtext_octet_ok_all n Hn) as Hok.
  unfold xtext_octet_ok in Hok.
  destruct (encode_xtext_rune n) as [|c [|h1 [|h2 [|x l]]]]; try discriminate.
  - apply andb_true_iff in Hok as [H1 H2].
    apply Ascii.eqb_eq in H1. subst c.
    cbn [app decode_xtext_go].
    destruct (Ascii.eqb (n_byte n) "+"); [discriminate|reflexivity].
  - apply andb_true_iff in Hok as [H1 H2].
    apply Ascii.eqb_eq in H1. subst c.
    destruct (hexU h1) as [a|] eqn:Ea; [|discriminate].
    destruct (hexU h2) as [b|] eqn:Eb; [|discriminate].
    apply N.eqb_eq in H2.
    cbn [app decode_xtext_go]. rewrite Ascii.eqb_refl, Ea, Eb, H2.
    destruct (N.ltb_spec n 128) as [_|?]; [reflexivity|lia].
Qed.

Lemma decode_xtext_go_encode s :
  forallb is_ascii7 s = true ->
  decode_xtext_go (flat_map encode_xtext_rune (map byte_n s)) = Some s.
Proof.
  induction s as [|c s IH]; intros Ha; [reflexivity|].
  cbn [forallb] in Ha. apply andb_true_iff in Ha as [Hc Hs].
  cbn [map flat_map]. unfold is_ascii7 in Hc.
  rewrite decode_xtext_go_step by lia.
  rewrite (IH Hs), n_byte_byte_n. reflexivity.
Qed.

Lemma decode_xtext_go_noplus t :
  mem_byte "+" t = false -> decode_xtext_go t = Some t.
Proof.
  induction t as [|c t IH]; intros H; [reflexivity|].
  cbn [mem_byte] in H. apply orb_false_iff in H as [H1 H2].
  cbn [decode_xtext_go]. rewrite Ascii.eqb_sym, H1, (IH H2). reflexivity.
Qed.

Theorem xtext_roundtrip : forall s,
  forallb is_ascii7 s = true -> decode_xtext (encode_xtext s) = Some s.
Proof.
  intros s Ha. unfold encode_xtext. rewrite (runes_ascii s Ha).
  unfold decode_xtext, contains_byte.
  destruct (mem_byte "+" (flat_map encode_xtext_rune (map byte_n s))) eqn:E.
  - now apply decode_xtext_go_encode.
  - rewrite <- (decode_xtext_go_noplus _ E). now apply decode_xtext_go_encode.
Qed.

Print Assumptions xtext_roundtrip.

Definition addr_cp (cp : N) : bool :=
  ((32 <=? cp) && (cp <=? 127) || (128 <=? cp) && utf8_valid_cp cp)%N.

(* code points both encoders send as themselves *)
Definition addr_plain_cp (cp : N) : bool := (cp <? 128)%N && qchar (n_byte cp).

(* facts about single octets: by enumeration of the 256 *)
Lemma qchar_facts c :
  qchar c = true ->
  Ascii.eqb c "\" = false /\ disallowed c = false /\ xtext_plain c = true.
Proof.
  intros H.
  pose proof (byte_implies qchar
                (fun c => negb (Ascii.eqb c "\") && negb (disallowed c) && xtext_plain c)
                ltac:(vm_compute; reflexivity) c H) as E.
  cbv beta in E. apply andb_true_iff in E as [[E1 E2]%andb_true_iff E3].
  repeat split; try assumption; now apply negb_true_iff.
Qed.

Lemma high_facts c :
  (128 <= byte_n c)%N -> Ascii.eqb c "\" = false /\ disallowed c = false.
Proof.
  intros H%N.leb_le.
  pose proof (byte_implies (fun c => 128 <=? byte_n c)%N
                (fun c => negb (Ascii.eqb c "\") && negb (disallowed c))
                ltac:(vm_compute; reflexivity) c H) as E.
  cbv beta in E. apply andb_true_iff in E as [E1 E2]. split; now apply negb_true_iff.
Qed.

Lemma is_hexU_plain c : is_hexU c = true -> xtext_plain c = true.
Proof. exact (byte_implies is_hexU xtext_plain ltac:(vm_compute; reflexivity) c). Qed.

(* the 7-bit code points of the domain that are not sent as themselves *)
Definition special_chk (n : N) : bool :=
  (n <? 32)%N || addr_plain_cp n ||
  (n =? 32)%N || (n =? 43)%N || (n =? 61)%N || (n =? 92)%N || (n =? 127)%N.

Lemma addr_special_cp cp :
  (32 <= cp <= 127)%N -> addr_plain_cp cp = false ->
  cp = 32%N \/ cp = 43%N \/ cp = 61%N \/ cp = 92%N \/ cp = 127%N.
Proof.
  intros Hr Hp.
  assert (E : special_chk cp = true).
  { apply (N_enum special_chk 128); [vm_compute; reflexivity|lia]. }
  unfold special_chk in E. rewrite Hp in E. lia.
Qed.

(* [take_hex] stops at "}" because "}" is not a hex digit *)
Lemma take_hex_app d r :
  forallb is_hexU d = true -> take_hex (d ++ "}" :: r) = (d, "}" :: r).
Proof.
  induction d as [|c d IH]; intros H.
  - reflexivity.
  - cbn [forallb] in H. apply andb_true_iff in H as [Hc Hd].
    cbn [app take_hex]. rewrite Hc, (IH Hd). reflexivity.
Qed.

Lemma embedded_app cp rest :
  embedded cp ++ rest = "\" :: "x" :: "{" :: hex02 cp ++ "}" :: rest.
Proof. unfold embedded. rewrite <- !app_assoc. reflexivity. Qed.

Lemma embedded_length cp : (1 <= List.length (embedded cp))%nat.
Proof. unfold embedded. rewrite app_length. cbn. lia. Qed.

Lemma match_embedded_hex d r :
  d <> [] -> forallb is_hexU d = true ->
  match_embedded ("\" :: "x" :: "{" :: d ++ "}" :: r) = Some (d, r).
Proof.
  intros Hne Hh. unfold match_embedded.
  rewrite !Ascii.eqb_refl. cbn [andb]. rewrite (take_hex_app d r Hh).
  destruct d as [|x d]; [contradiction|]. rewrite Ascii.eqb_refl. reflexivity.
Qed.

Lemma match_embedded_plain c t :
  Ascii.eqb c "\" = false -> match_embedded (c :: t) = None.
Proof.
  intros H. unfold match_embedded.
  destruct t as [|c1 [|c2 t]]; try reflexivity. now rewrite H.
Qed.

(* the hexpoint of a code point of the domain that needs embedding: hex
   digits only, value cp, and accepted by the per-length range checks *)
Lemma hexpoint_ok_hex02 cp :
  addr_cp cp = true -> addr_plain_cp cp = false ->
  forallb is_hexU (hex02 cp) = true /\
  hex02 cp <> [] /\
  hex_value (hex02 cp) = cp /\
  ((List.length (hex02 cp) <=? 6)%nat && (cp <? 2097152)%N
     && hexpoint_ok (List.length (hex02 cp)) cp) = true.
Proof.
  intros Ha Hp. unfold addr_cp, utf8_valid_cp in Ha.
  destruct (hex02_spec cp) as (Hv & Hl1 & Hl2); [lia|].
  split; [apply hex02_hex|]. split.
  { intros E. rewrite E in Hl2. cbn in Hl2. lia. }
  split; [exact Hv|].
  assert (Hsp : (128 <= cp)%N \/ cp = 32%N \/ cp = 43%N \/ cp = 61%N \/ cp = 92%N \/ cp = 127%N).
  { destruct (N.le_gt_cases 128 cp) as [?|?]; [now left|right].
    apply addr_special_cp; [lia|exact Hp]. }
  remember (List.length (hex02 cp)) as len eqn:El. clear El Hv Hp.
  do 7 (destruct len as [|len]; [cbn [pow16] in Hl1, Hl2; cbn [hexpoint_ok Nat.leb]; lia|]).
  pose proof (pow16_pos len). cbn [pow16] in Hl1. lia.
Qed.

Lemma dec_nil fuel : decode_utf8_addr_f fuel [] = Some [].
Proof. destruct fuel; reflexivity. Qed.

(* an octet that is neither a backslash nor disallowed is copied *)
Lemma dec_plain f c t :
  Ascii.eqb c "\" = false -> disallowed c = false ->
  decode_utf8_addr_f (S f) (c :: t) = option_map (cons c) (decode_utf8_addr_f f t).
Proof.
  intros H1 H2. cbn [decode_utf8_addr_f].
  rewrite (match_embedded_plain c t H1), H2. reflexivity.
Qed.

(* a code point sent as itself comes back as its (one-octet) UTF-8 form *)
Lemma dec_plain_cp f cp rest :
  addr_plain_cp cp = true ->
  decode_utf8_addr_f (S f) (n_byte cp :: rest) =
  option_map (app (utf8_encode cp)) (decode_utf8_addr_f f rest).
Proof.
  intros Hp. unfold addr_plain_cp in Hp. apply andb_true_iff in Hp as [Hlt Hq].
  destruct (qchar_facts _ Hq) as (H1 & H2 & _).
  rewrite (dec_plain _ _ _ H1 H2). rewrite utf8_encode_small by lia.
  destruct (decode_utf8_addr_f f rest); reflexivity.
Qed.

(* octets >= 128 are copied *)
Lemma dec_high : forall l f rest,
  (forall c, In c l -> (128 <= byte_n c)%N) ->
  decode_utf8_addr_f (List.length l + f) (l ++ rest) =
  option_map (app l) (decode_utf8_addr_f f rest).
Proof.
  induction l as [|a l IH]; intros f rest H.
  - cbn. destruct (decode_utf8_addr_f f rest); reflexivity.
  - destruct (high_facts a) as [H1 H2]; [apply H; now left|].
    cbn [List.length app Nat.add]. rewrite (dec_plain _ _ _ H1 H2).
    rewrite IH by (intros c Hc; apply H; now right).
    destruct (decode_utf8_addr_f f rest); reflexivity.
Qed.

(* "\x{HEX}" of a code point of the domain comes back as its UTF-8 form *)
Lemma dec_emb cp f rest :
  addr_cp cp = true -> addr_plain_cp cp = false ->
  decode_utf8_addr_f (S f) (embedded cp ++ rest) =
  option_map (app (utf8_encode cp)) (decode_utf8_addr_f f rest).
Proof.
  intros Ha Hp.
  destruct (hexpoint_ok_hex02 cp Ha Hp) as (Hh & Hne & Hv & Hok).
  rewrite embedded_app. cbn [decode_utf8_addr_f].
  rewrite (match_embedded_hex _ _ Hne Hh). rewrite Hv, Hok. reflexivity.
Qed.

(* the encoding of one rune is decoded, in k >= 1 iterations, to the rune's
   UTF-8 form *)
Definition decodes_rune (enc : N -> bytes) (cp : N) : Prop :=
  exists k, (1 <= k <= List.length (enc cp))%nat /\
    forall f rest, decode_utf8_addr_f (k + f) (enc cp ++ rest) =
                   option_map (app (utf8_encode cp)) (decode_utf8_addr_f f rest).

(* ... which is all the decoding loop needs of a text encoded rune by rune *)
Lemma dec_runes (enc : N -> bytes) :
  (forall cp, addr_cp cp = true -> decodes_rune enc cp) ->
  forall cs fuel, forallb addr_cp cs = true ->
  (List.length (flat_map enc cs) < fuel)%nat ->
  decode_utf8_addr_f fuel (flat_map enc cs) = Some (utf8_of_runes cs).
Proof.
  intros Henc. induction cs as [|cp cs IH]; intros fuel Hd Hf.
  - apply dec_nil.
  - cbn [forallb] in Hd. apply andb_true_iff in Hd as [Hcp Hcs].
    cbn [flat_map] in *. rewrite app_length in Hf.
    destruct (Henc cp Hcp) as (k & Hk & Hstep).
    replace fuel with (k + (fuel - k))%nat by lia.
    rewrite Hstep, IH; [reflexivity|exact Hcs|lia].
Qed.

Lemma dec_xtext_rune cp : addr_cp cp = true -> decodes_rune encode_utf8_addr_xtext_rune cp.
Proof.
  intros Hcp. exists 1%nat. unfold encode_utf8_addr_xtext_rune. fold (addr_plain_cp cp).
  destruct (addr_plain_cp cp) eqn:Hp.
  - split; [cbn; lia|]. intros f rest. apply dec_plain_cp, Hp.
  - split; [pose proof (embedded_length cp); lia|]. intros f rest. apply dec_emb; assumption.
Qed.

Lemma dec_unitext_rune cp : addr_cp cp = true -> decodes_rune encode_utf8_addr_unitext_rune cp.
Proof.
  intros Hcp. unfold decodes_rune, encode_utf8_addr_unitext_rune.
  assert (Hpq : addr_plain_cp cp = (cp <? 128)%N && qchar (n_byte cp)) by reflexivity.
  destruct (N.ltb_spec cp 128) as [Hlt|Hge]; [destruct (qchar (n_byte cp))|destruct (uspace_cp cp)].
  - exists 1%nat. split; [cbn; lia|]. intros f rest. apply dec_plain_cp, Hpq.
  - exists 1%nat. split; [pose proof (embedded_length cp); lia|]. intros f rest. apply dec_emb; assumption.
  - exists 1%nat. split; [pose proof (embedded_length cp); lia|]. intros f rest. apply dec_emb; assumption.
  - exists (List.length (utf8_encode cp)). split; [pose proof (utf8_encode_length cp); lia|].
    intros f rest. apply dec_high. intros c Hc. now apply (utf8_encode_high cp).
Qed.

Lemma addr_cp_valid cs : forallb addr_cp cs = true -> forallb utf8_valid_cp cs = true.
Proof.
  intros H. rewrite forallb_forall in *. intros cp Hin. specialize (H cp Hin).
  unfold addr_cp, utf8_valid_cp in *. lia.
Qed.

Theorem utf8_addr_xtext_roundtrip : forall cs,
  forallb addr_cp cs = true ->
  decode_utf8_addr_xtext (encode_utf8_addr_xtext (utf8_of_runes cs)) = Some (utf8_of_runes cs).
Proof.
  intros cs Hd. unfold encode_utf8_addr_xtext.
  rewrite runes_utf8_of_runes by now apply addr_cp_valid.
  unfold decode_utf8_addr_xtext. apply (dec_runes _ dec_xtext_rune); [exact Hd|lia].
Qed.

Print Assumptions utf8_addr_xtext_roundtrip.

Theorem utf8_addr_unitext_roundtrip : forall cs,
  forallb addr_cp cs = true ->
  decode_utf8_addr_xtext (encode_utf8_addr_unitext (utf8_of_runes cs)) = Some (utf8_of_runes cs).
Proof.
  intros cs Hd. unfold encode_utf8_addr_unitext.
  rewrite runes_utf8_of_runes by now apply addr_cp_valid.
  unfold decode_utf8_addr_xtext. apply (dec_runes _ dec_unitext_rune); [exact Hd|lia].
Qed.

Print Assumptions utf8_addr_unitext_roundtrip.

Lemma encode_xtext_rune_clean cp c :
  In c (encode_xtext_rune cp) -> xtext_plain c = true \/ c = "+".
Proof.
  unfold encode_xtext_rune.
  destruct ((cp <? 128)%N && xtext_plain (n_byte cp)) eqn:E; intros Hin.
  - apply andb_true_iff in E as [_ E]. destruct Hin as [<-|[]]. now left.
  - destruct Hin as [<-|Hin]; [now right|]. left.
    now apply is_hexU_plain, (hex02_In_hex cp).
Qed.

Theorem encode_xtext_clean : forall s c,
  In c (encode_xtext s) -> xtext_plain c = true \/ c = "+".
Proof.
  intros s c Hin. unfold encode_xtext in Hin. apply in_flat_map in Hin as (cp & _ & Hin).
  now apply (encode_xtext_rune_clean cp).
Qed.

Print Assumptions encode_xtext_clean.

Lemma embedded_clean cp c :
  In c (embedded cp) ->
  c = "\" \/ c = "x" \/ c = "{" \/ c = "}" \/ is_hexU c = true.
Proof.
  unfold embedded. intros Hin. apply in_app_or in Hin as [Hin|Hin].
  - cbn in Hin. intuition.
  - apply in_app_or in Hin as [Hin|Hin].
    + do 4 right. now apply (hex02_In_hex cp).
    + cbn in Hin. intuition.
Qed.

Lemma encode_utf8_addr_xtext_rune_clean cp c :
  In c (encode_utf8_addr_xtext_rune cp) ->
  qchar c = true \/ c = "\" \/ c = "x" \/ c = "{" \/ c = "}" \/ is_hexU c = true.
Proof.
  unfold encode_utf8_addr_xtext_rune.
  destruct ((cp <? 128)%N && qchar (n_byte cp)) eqn:E; intros Hin.
  - apply andb_true_iff in E as [_ E]. destruct Hin as [<-|[]]. now left.
  - right. now apply (embedded_clean cp).
Qed.

Theorem encode_utf8_addr_xtext_clean : forall s c,
  In c (encode_utf8_addr_xtext s) ->
  qchar c = true \/ c = "\" \/ c = "x" \/ c = "{" \/ c = "}" \/ is_hexU c = true.
Proof.
  intros s c Hin. unfold encode_utf8_addr_xtext in Hin.
  apply in_flat_map in Hin as (cp & _ & Hin).
  now apply (encode_utf8_addr_xtext_rune_clean cp).
Qed.

Print Assumptions encode_utf8_addr_xtext_clean.

Lemma encode_utf8_addr_unitext_rune_clean cp c :
  In c (encode_utf8_addr_unitext_rune cp) ->
  qchar c = true \/ c = "\" \/ c = "x" \/ c = "{" \/ c = "}" \/ is_hexU c = true
  \/ (128 <= byte_n c)%N.
Proof.
  unfold encode_utf8_addr_unitext_rune.
  destruct (N.ltb_spec cp 128) as [Hlt|Hge]; intros Hin.
  - destruct (qchar (n_byte cp)) eqn:E.
    + destruct Hin as [<-|[]]. now left.
    + right. pose proof (embedded_clean cp c Hin). tauto.
  - destruct (uspace_cp cp).
    + right. pose proof (embedded_clean cp c Hin). tauto.
    + do 6 right. now apply (utf8_encode_high cp).
Qed.

Theorem encode_utf8_addr_unitext_clean : forall s c,
  In c (encode_utf8_addr_unitext s) ->
  qchar c = true \/ c = "\" \/ c = "x" \/ c = "{" \/ c = "}" \/ is_hexU c = true
  \/ (128 <= byte_n c)%N.
Proof.
  intros s c Hin. unfold encode_utf8_addr_unitext in Hin.
  apply in_flat_map in Hin as (cp & _ & Hin).
  now apply (encode_utf8_addr_unitext_rune_clean cp).
Qed.

Print Assumptions encode_utf8_addr_unitext_clean.

(* none of the permitted octets is CR, LF or SP *)
Ltac not_permitted H :=
  repeat (destruct H as [H|H]);
  solve [ vm_compute in H; discriminate H
        | apply N.leb_le in H; vm_compute in H; discriminate H ].

Corollary encode_xtext_no_crlf_sp : forall s,
  mem_byte CR (encode_xtext s) = false /\
  mem_byte LF (encode_xtext s) = false /\
  mem_byte " " (encode_xtext s) = false.
Proof.
  intros s. repeat split; apply mem_byte_false; intros Hin;
    apply encode_xtext_clean in Hin; not_permitted Hin.
Qed.

Corollary encode_utf8_addr_xtext_no_crlf_sp : forall s,
  mem_byte CR (encode_utf8_addr_xtext s) = false /\
  mem_byte LF (encode_utf8_addr_xtext s) = false /\
  mem_byte " " (encode_utf8_addr_xtext s) = false.
Proof.
  intros s. repeat split; apply mem_byte_false; intros Hin;
    apply encode_utf8_addr_xtext_clean in Hin; not_permitted Hin.
Qed.

Corollary encode_utf8_addr_unitext_no_crlf_sp : forall s,
  mem_byte CR (encode_utf8_addr_unitext s) = false /\
  mem_byte LF (encode_utf8_addr_unitext s) = false /\
  mem_byte " " (encode_utf8_addr_unitext s) = false.
Proof.
  intros s. repeat split; apply mem_byte_false; intros Hin;
    apply encode_utf8_addr_unitext_clean in Hin; not_permitted Hin.
Qed.

Print Assumptions encode_xtext_no_crlf_sp.
Print Assumptions encode_utf8_addr_xtext_no_crlf_sp.
Print Assumptions encode_utf8_addr_unitext_no_crlf_sp.
