(* Proofs about the UTF-8 model: decoding inverts encoding on valid scalar
   values, [runes] inverts [utf8_of_runes], and [runes] of a 7-bit string is
   the string of its octet values. *)
From Smtp Require Import Bytes Utf8.
From Coq Require Import Lia ZifyBool ZifyN ZifyNat.
Local Open Scope N_scope.

Lemma byte_n_n_byte n : n < 256 -> byte_n (n_byte n) = n.
Proof. intros H. unfold byte_n, n_byte. apply N_ascii_embedding. exact H. Qed.

Lemma n_byte_byte_n c : n_byte (byte_n c) = c.
Proof. unfold byte_n, n_byte. apply ascii_N_embedding. Qed.

Lemma byte_n_lt c : byte_n c < 256.
Proof. unfold byte_n. apply N_ascii_bounded. Qed.

Lemma byte_n_inj c d : byte_n c = byte_n d -> c = d.
Proof.
  intros H. rewrite <- (n_byte_byte_n c), <- (n_byte_byte_n d). now rewrite H.
Qed.

(* decides every boolean comparison of the goal; by cases where it is open *)
Ltac ncases :=
  repeat match goal with
  | |- context [N.eqb ?x ?y] =>
      first [rewrite (proj2 (N.eqb_neq x y)) by lia | destruct (N.eqb_spec x y)]
  | |- context [N.ltb ?x ?y] =>
      first [rewrite (proj2 (N.ltb_lt x y)) by lia | rewrite (proj2 (N.ltb_ge x y)) by lia]
  | |- context [N.leb ?x ?y] =>
      first [rewrite (proj2 (N.leb_le x y)) by lia | rewrite (proj2 (N.leb_gt x y)) by lia]
  end.

(* the decoder on each of the four shapes of an encoding *)
Lemma dec1 a n rest :
  a < 128 -> n = a -> utf8_decode1 (n_byte a :: rest) = Some (n, 1%nat).
Proof.
  intros Ha ->. unfold utf8_decode1. rewrite byte_n_n_byte by lia.
  ncases. reflexivity.
Qed.

Lemma dec2 a b n rest :
  194 <= a < 224 -> 128 <= b < 192 ->
  n = (a - 192) * 64 + (b - 128) ->
  utf8_decode1 (n_byte a :: n_byte b :: rest) = Some (n, 2%nat).
Proof.
  intros Ha Hb ->. unfold utf8_decode1, is_cont, in_range.
  rewrite !byte_n_n_byte by lia. ncases. reflexivity.
Qed.

Lemma dec3 a b c n rest :
  224 <= a < 240 -> 128 <= b < 192 -> 128 <= c < 192 ->
  (a = 224 -> 160 <= b) -> (a = 237 -> b <= 159) ->
  n = (a - 224) * 4096 + (b - 128) * 64 + (c - 128) ->
  utf8_decode1 (n_byte a :: n_byte b :: n_byte c :: rest) = Some (n, 3%nat).
Proof.
  intros Ha Hb Hc H1 H2 ->. unfold utf8_decode1, is_cont, in_range.
  rewrite !byte_n_n_byte by lia. ncases; reflexivity.
Qed.

Lemma dec4 a b c d n rest :
  240 <= a < 245 -> 128 <= b < 192 -> 128 <= c < 192 -> 128 <= d < 192 ->
  (a = 240 -> 144 <= b) -> (a = 244 -> b <= 143) ->
  n = (a - 240) * 262144 + (b - 128) * 4096 + (c - 128) * 64 + (d - 128) ->
  utf8_decode1 (n_byte a :: n_byte b :: n_byte c :: n_byte d :: rest) = Some (n, 4%nat).
Proof.
  intros Ha Hb Hc Hd H1 H2 ->. unfold utf8_decode1, is_cont, in_range.
  rewrite !byte_n_n_byte by lia. ncases; reflexivity.
Qed.

(* the encoder's quotients and remainders are base-64 digits: n / 4096 = n / 64 / 64 etc. *)
Lemma digit64 n : exists q r, n / 64 = q /\ n mod 64 = r /\ n = 64 * q + r /\ r < 64.
Proof.
  exists (n / 64), (n mod 64). repeat split; [apply N.div_mod'|apply N.mod_lt]; discriminate.
Qed.

Theorem utf8_decode_encode : forall cp rest, utf8_valid_cp cp = true ->
  utf8_decode1 (utf8_encode cp ++ rest) = Some (cp, List.length (utf8_encode cp)).
Proof.
  intros cp rest Hv. unfold utf8_encode. rewrite Hv.
  unfold utf8_valid_cp in Hv. unfold utf8_encode_raw.
  change 4096 with (64 * 64). change 262144 with (64 * 64 * 64). rewrite <- !N.div_div by discriminate.
  destruct (digit64 cp) as (q1 & r0 & -> & -> & E0 & B0), (digit64 q1) as (q2 & r1 & -> & -> & E1 & B1),
    (digit64 q2) as (q3 & r2 & -> & -> & E2 & B2).
  destruct (N.ltb_spec cp 128) as [H1|H1].
  { cbn [app List.length]. apply dec1; lia. }
  destruct (N.ltb_spec cp 2048) as [H2|H2].
  { cbn [app List.length]. apply dec2; lia. }
  destruct (N.ltb_spec cp 65536) as [H3|H3].
  { cbn [app List.length]. apply dec3; lia. }
  cbn [app List.length]. apply dec4; lia.
Qed.

Print Assumptions utf8_decode_encode.

Lemma utf8_encode_raw_length n :
  (1 <= List.length (utf8_encode_raw n) <= 4)%nat.
Proof.
  unfold utf8_encode_raw.
  destruct (n <? 128); [cbn; lia|].
  destruct (n <? 2048); [cbn; lia|].
  destruct (n <? 65536); cbn; lia.
Qed.

Lemma utf8_encode_length n : (1 <= List.length (utf8_encode n) <= 4)%nat.
Proof. unfold utf8_encode. destruct (utf8_valid_cp n); apply utf8_encode_raw_length. Qed.

Lemma utf8_encode_small n : n < 128 -> utf8_encode n = [n_byte n].
Proof.
  intros H. unfold utf8_encode, utf8_valid_cp, utf8_encode_raw.
  ncases. reflexivity.
Qed.

(* every octet of the encoding of a non-ASCII code point (valid or not) is
   at least 128 *)
Lemma utf8_encode_raw_high n c :
  128 <= n -> n <= 1114111 -> In c (utf8_encode_raw n) -> 128 <= byte_n c.
Proof.
  intros Hlo Hhi. revert c. apply Forall_forall. unfold utf8_encode_raw.
  change 4096 with (64 * 64). change 262144 with (64 * 64 * 64). rewrite <- !N.div_div by discriminate.
  destruct (digit64 n) as (q1 & r0 & -> & -> & E0 & B0), (digit64 q1) as (q2 & r1 & -> & -> & E1 & B1),
    (digit64 q2) as (q3 & r2 & -> & -> & E2 & B2).
  destruct (N.ltb_spec n 128); [lia|].
  destruct (N.ltb_spec n 2048); [|destruct (N.ltb_spec n 65536)];
    repeat constructor; rewrite byte_n_n_byte; lia.
Qed.

Lemma utf8_encode_high n c :
  128 <= n -> In c (utf8_encode n) -> 128 <= byte_n c.
Proof.
  intros Hlo Hin. unfold utf8_encode in Hin.
  destruct (utf8_valid_cp n) eqn:Hv.
  - apply (utf8_encode_raw_high n c); try assumption.
    unfold utf8_valid_cp in Hv. lia.
  - apply (utf8_encode_raw_high 65533 c); try assumption; lia.
Qed.

Lemma runes_f_nil fuel : runes_f fuel [] = [].
Proof. destruct fuel; reflexivity. Qed.

Lemma skipn_length_app {A} (l r : list A) : skipn (List.length l) (l ++ r) = r.
Proof. induction l as [|x l IH]; cbn; auto. Qed.

Lemma runes_f_utf8_of_runes : forall cs fuel,
  forallb utf8_valid_cp cs = true ->
  (List.length (utf8_of_runes cs) <= fuel)%nat ->
  runes_f fuel (utf8_of_runes cs) = cs.
Proof.
  induction cs as [|c cs IH]; intros fuel Hv Hf.
  - apply runes_f_nil.
  - cbn [forallb] in Hv. apply andb_true_iff in Hv as [Hc Hcs].
    unfold utf8_of_runes in *. cbn [flat_map] in *.
    rewrite app_length in Hf.
    pose proof (utf8_encode_length c) as Hl.
    destruct fuel as [|f]; [lia|].
    cbn [runes_f]. rewrite utf8_decode_encode by exact Hc.
    rewrite skipn_length_app. rewrite IH; [reflexivity|exact Hcs|lia].
Qed.

Theorem runes_utf8_of_runes : forall cs,
  forallb utf8_valid_cp cs = true -> runes (utf8_of_runes cs) = cs.
Proof.
  intros cs Hv. unfold runes. apply runes_f_utf8_of_runes; [exact Hv|lia].
Qed.

Print Assumptions runes_utf8_of_runes.

Lemma runes_f_ascii : forall s fuel,
  forallb is_ascii7 s = true -> (List.length s <= fuel)%nat ->
  runes_f fuel s = map byte_n s.
Proof.
  induction s as [|c s IH]; intros fuel Ha Hf.
  - apply runes_f_nil.
  - cbn [forallb] in Ha. apply andb_true_iff in Ha as [Hc Hs].
    cbn [List.length] in Hf. destruct fuel as [|f]; [lia|].
    cbn [runes_f map]. unfold is_ascii7 in Hc.
    unfold utf8_decode1. rewrite Hc. cbn [skipn].
    rewrite IH; [reflexivity|exact Hs|lia].
Qed.

Lemma runes_ascii : forall s, forallb is_ascii7 s = true -> runes s = map byte_n s.
Proof. intros s Ha. unfold runes. apply runes_f_ascii; [exact Ha|lia]. Qed.

Print Assumptions runes_ascii.
