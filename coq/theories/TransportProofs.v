(* Lemmas about the transport: on a schedule on which the line limiter stays
   quiet, the consumer sees exactly the concatenated stream. *)
From Smtp Require Import Bytes Transport.
Local Open Scope N_scope.

Lemma lim_ok_zero cur rs : lim_ok 0 cur rs = true.
Proof. destruct rs as [|[c d|e] r]; reflexivity. Qed.

Lemma lim_scan_bound limit cur c d cur' :
  lim_scan limit cur (c :: d) = (false, cur') -> cur' <= limit.
Proof.
  revert c cur; induction d as [|c1 r IH]; intros c cur H; cbn [lim_scan] in H;
    destruct (limit <? (if Ascii.eqb c LF then 0 else cur) + 1) eqn:E; try discriminate.
  - injection H as <-. apply N.ltb_ge, E.
  - exact (IH c1 _ H).
Qed.

Lemma too_long_b_false_iff limit cur :
  too_long_b limit cur = false <-> (limit = 0 \/ cur <= limit).
Proof. unfold too_long_b. rewrite andb_false_iff, !N.ltb_ge. lia. Qed.

Lemma tstream_set_buf t b : tstream (set_buf t b) = b ++ raws_bytes (t_raw t).
Proof. reflexivity. Qed.

Lemma transparent_b_spec t : transparent_b t = true <-> transparent t.
Proof.
  unfold transparent_b, transparent. rewrite !andb_true_iff, !negb_true_iff. tauto.
Qed.

(* [t'] is [t] further along the same quiet schedule: octets of the stream
   have been consumed (or one pushed back), nothing else has changed *)
Definition later (t t' : transport) : Prop :=
  transparent t' /\ tterm t' = tterm t /\ t_limit t' = t_limit t /\
  raws_after (t_raw t') = raws_after (t_raw t).

(* [t'] is [t] once the failure that ends its stream has been met: every
   octet before the failure and the failure itself are consumed *)
Definition spent (t t' : transport) : Prop :=
  t_limit t' = t_limit t /\ t_buf t' = [] /\ t_raw t' = raws_after (t_raw t) /\
  t_closed t' = false /\ too_long t' = false.

Lemma later_refl t : transparent t -> later t t.
Proof. intros H. repeat split; apply H. Qed.

Lemma later_trans t t1 t2 : later t t1 -> later t1 t2 -> later t t2.
Proof. intros (_ & A & B & C) (T & A' & B' & C'). split; [exact T|]. repeat split; congruence. Qed.

Lemma later_spent t t1 t2 : later t t1 -> spent t1 t2 -> spent t t2.
Proof. intros (_ & _ & B & C) (B' & E & C' & F & G). repeat split; congruence. Qed.

(* ReadByte on a transparent transport with a non-empty future stream *)
Lemma read_byte_cons t c s :
  transparent t -> tstream t = c :: s ->
  exists t', t_read_byte t = (inl c, t') /\ tstream t' = s /\ later t t'.
Proof.
  intros (Hcl & Htl & Hok) Hs. unfold t_read_byte, tstream in *.
  destruct (t_buf t) as [|x b] eqn:Eb; cbn in Hs.
  - destruct (t_raw t) as [|[c0 d|e] r] eqn:Er; try discriminate.
    injection Hs as -> <-.
    (* the limiter scans the chunk, stays quiet and leaves some count cur' *)
    assert (exists cur', raw_read t = (inl (c :: d), set_raw_cur t r cur') /\
              too_long_b (t_limit t) cur' = false /\ lim_ok (t_limit t) cur' r = true)
      as (cur' & -> & Htl' & Hok').
    { unfold raw_read. rewrite Htl, Hcl, Er. cbn [lim_ok] in Hok.
      destruct (t_limit t =? 0) eqn:El.
      - exists (t_cur t). apply N.eqb_eq in El. rewrite El, lim_ok_zero. auto.
      - destruct (lim_scan (t_limit t) (t_cur t) (c :: d)) as [[|] cur'] eqn:Esc; [discriminate|].
        exists cur'. split; [reflexivity|]. split; [|exact Hok].
        apply too_long_b_false_iff. right. exact (lim_scan_bound _ _ _ _ _ Esc). }
    eexists. split; [reflexivity|]. split; [reflexivity|].
    unfold later, transparent, tterm. rewrite Er. cbn. auto 6.
  - injection Hs as -> <-. eexists. split; [reflexivity|]. split; [reflexivity|].
    repeat split; assumption || reflexivity.
Qed.

(* ReadByte when the future stream is empty: the schedule's failure *)
Lemma read_byte_nil t :
  transparent t -> tstream t = [] ->
  exists t', t_read_byte t = (inr (tterm t), t') /\ spent t t'.
Proof.
  intros (Hcl & Htl & _) Hs. apply app_eq_nil in Hs as [Hb Hr].
  unfold t_read_byte, raw_read, tterm, spent. rewrite Hb, Htl, Hcl.
  destruct (t_raw t) as [|[c d|e] r] eqn:Er; [|discriminate|];
    (eexists; split; [reflexivity|]; cbn; auto 6).
Qed.

Lemma unread_stream c t : tstream (t_unread_byte c t) = c :: tstream t.
Proof. reflexivity. Qed.
