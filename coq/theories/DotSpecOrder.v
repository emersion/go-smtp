(* Spec-level facts about [unstuff] that say what dot-unstuffing may NOT do:
   the body is an (order-preserving) subsequence of the octets consumed, so
   no octet is invented, duplicated or reordered, and at least the three
   octets of the end marker are not part of it.  (Which octets are dropped is
   said by [unstuff] itself.) *)
From Smtp Require Import Bytes Transport DataReader DotSpec DataProofs DataProofs2.

Inductive subseq : bytes -> bytes -> Prop :=
| sub_nil l : subseq [] l
| sub_keep c a b : subseq a b -> subseq (c :: a) (c :: b)
| sub_skip c a b : subseq a b -> subseq a (c :: b).

Lemma subseq_refl l : subseq l l.
Proof. induction l as [|c l IH]; constructor; exact IH. Qed.

Lemma subseq_app_same l a b : subseq a b -> subseq (l ++ a) (l ++ b).
Proof. intros H. induction l as [|c l IH]; cbn; [exact H|]. constructor; exact IH. Qed.

Lemma subseq_app_l l a b : subseq a b -> subseq a (l ++ b).
Proof. intros H. induction l as [|c l IH]; cbn; [exact H|]. constructor; exact IH. Qed.

Lemma subseq_app_r a b x : subseq a b -> subseq a (b ++ x).
Proof. intros H. induction H; cbn; constructor; assumption. Qed.

Lemma subseq_length a b : subseq a b -> List.length a <= List.length b.
Proof. intros H. induction H; cbn; lia. Qed.

(* what one run of the specification may output, relative to its input *)
Definition ordered (s : bytes) (r : dres) : Prop :=
  match r with
  | Complete body rest =>
      exists m, s = m ++ rest /\ subseq body m /\ List.length body + 3 <= List.length m
  | Incomplete body => subseq body s
  end.

Lemma ordered_prepend l r' res :
  ordered r' res -> ordered (l ++ r') (prepend l res).
Proof.
  destruct res as [b rest|b]; cbn.
  - intros (m & Hs & Hsub & Hlen). exists (l ++ m). rewrite Hs, app_assoc.
    split; [reflexivity|]. split; [apply subseq_app_same; exact Hsub|].
    rewrite !app_length. lia.
  - intros H. apply subseq_app_same. exact H.
Qed.

Lemma ordered_skip c s res : ordered s res -> ordered (c :: s) res.
Proof.
  destruct res as [b rest|b]; cbn.
  - intros (m & Hs & Hsub & Hlen). exists (c :: m). rewrite Hs.
    split; [reflexivity|]. split; [constructor; exact Hsub|]. cbn. lia.
  - intros H. constructor. exact H.
Qed.

Lemma unstuff_f_ordered n : forall s, ordered s (unstuff_f n s).
Proof.
  induction n as [|n IH]; intros s; [cbn; constructor|].
  cbn [unstuff_f].
  destruct (is_marker s) as [rest|] eqn:Em.
  - apply is_marker_some in Em. subst. cbn.
    exists [DOT; CR; LF]. split; [reflexivity|]. split; [constructor|]. cbn. lia.
  - destruct (cut_crlf (strip_dot s)) as [[l r]|] eqn:Ec.
    + destruct (cut_crlf_line _ _ _ Ec) as [Hs _].
      pose proof (ordered_prepend l r _ (IH r)) as Ho. rewrite <- Hs in Ho.
      destruct (strip_dot_cases s) as [E|E].
      * rewrite E in Ho. exact Ho.
      * rewrite E. apply ordered_skip. exact Ho.
    + cbn. destruct (strip_dot_cases s) as [E|E].
      * rewrite E. apply subseq_refl.
      * rewrite E at 2. constructor. apply subseq_refl.
Qed.

(* no octet invented, duplicated or reordered: the body is a subsequence of
   the octets up to and including the end marker (of the whole stream when
   there is none), and at least the three marker octets are not part of it *)
Theorem unstuff_ordered s : ordered s (unstuff s).
Proof. apply unstuff_f_ordered. Qed.

Lemma subseq_prefix s : forall a w, subseq (a ++ w) s -> subseq a s.
Proof.
  induction s as [|c s IH]; intros a w H.
  - destruct a as [|x a]; [constructor|]. cbn in H. inversion H.
  - destruct a as [|x a]; [constructor|]. cbn in H. inversion H; subst.
    + constructor. eapply IH; eassumption.
    + constructor. apply (IH (x :: a) w). assumption.
Qed.

(* the same at the level of the reader model: whatever the schedule of raw
   reads and the backend's read sizes, what the backend has read is a
   subsequence of the octets of the stream; when it has seen io.EOF, of
   exactly the octets consumed from the transport, three of which at least
   (the end marker) are not delivered *)
Theorem data_no_octet_invented (t : transport) (sizes : list nat) :
  transparent t ->
  let '(out, e, d', t') := backend_reads sizes None (new_data_reader 0) t in
  subseq out (tstream t) /\
  (e = Some REOF ->
   exists m, tstream t = m ++ tstream t' /\ subseq out m /\
             List.length out + 3 <= List.length m).
Proof.
  intros Ht. pose proof (data_byte_exact t sizes Ht) as H.
  destruct (backend_reads sizes None (new_data_reader 0) t) as [[[out e] d'] t'].
  pose proof (unstuff_ordered (tstream t)) as Ho.
  destruct (unstuff (tstream t)) as [body rest|body].
  - destruct H as (Hout & _ & Hrest & _). subst out. cbn in Ho.
    destruct Ho as (m & Hs & Hsub & Hlen).
    split.
    + rewrite Hs. apply subseq_app_r. exact Hsub.
    + intros _. exists m. rewrite Hrest. auto.
  - destruct H as (He & w & Hb & _). cbn in Ho. split.
    + rewrite Hb in Ho. eapply subseq_prefix. exact Ho.
    + intros E. rewrite He in E. inversion E as [E']. exfalso.
      exact (rerr_of_terr_not_eof _ E').
Qed.
