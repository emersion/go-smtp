(* C04, verdict attribution (sequential part).

   In every trace of the server model:
   - a Data call of the DATA path ([EData got term ret panic]) is followed
     immediately by the final reply rendered from THAT return value
     ([serve_data_verdict]);
   - the reply to the LAST chunk of a chunked transfer is rendered from the
     value of the one delivery that ran since THIS transfer's [EBdatStart]
     ([serve_bdat_verdict]): the delivery of an earlier transfer - completed,
     or aborted by RSET / EHLO / STARTTLS / a failed chunk / the size limit,
     whose [EDelivery] comes with that command's reset - precedes the
     [EBdatStart] and can never supply the verdict.

   The model runs the delivery goroutine of a chunked transfer in lock step
   with the command loop (its EDelivery is emitted at the point where the
   backend's Data returns).  That the REAL goroutine, completing at an
   arbitrary later time, still reports to the transaction that started it is
   the subject of the interleaving model of C20 (finding F4: channel and
   collector captured in locals before "go"), not of this file. *)
From Smtp Require Import Bytes DataReader Parse Reply Conn.
From Smtp Require Import ConnProofs TraceProps BdatProofs HandlerOutcomes ReplyGroups.
Local Open Scope char_scope.

Definition is_data (e : event) : bool := match e with EData _ _ _ _ => true | _ => false end.
Definition is_start (e : event) : bool := match e with EBdatStart => true | _ => false end.
Definition is_deliv (e : event) : bool := match e with EDelivery _ _ _ _ => true | _ => false end.

Definition calm (e : event) : bool := negb (is_cmd e) && negb (is_data e) && negb (is_start e).
Definition plain (e : event) : bool := calm e && negb (is_deliv e).
Definition nocd (e : event) : bool := negb (is_cmd e) && negb (is_data e).

Definition no_wire (ev : list event) : Prop := forallb (fun e => negb (is_wire e)) ev = true.

Lemma plain_calm ev : forallb plain ev = true -> forallb calm ev = true.
Proof. apply ReplyProofs.forallb_impl. intros e H. apply andb_true_iff in H. apply H. Qed.

Lemma calm_nocd ev : forallb calm ev = true -> forallb nocd ev = true.
Proof. apply ReplyProofs.forallb_impl. intros e H. apply andb_true_iff in H. apply H. Qed.

Lemma nocd_no_cmd ev : forallb nocd ev = true -> forallb (fun e => negb (is_cmd e)) ev = true.
Proof. apply ReplyProofs.forallb_impl. intros e H. apply andb_true_iff in H. apply H. Qed.

Lemma nocd_no_data ev : forallb nocd ev = true -> forallb (fun e => negb (is_data e)) ev = true.
Proof. apply ReplyProofs.forallb_impl. intros e H. apply andb_true_iff in H. apply H. Qed.

Lemma nw_no_wire ev : nw ev -> no_wire ev.
Proof. apply ReplyProofs.forallb_impl. intros e H. apply andb_true_iff in H. apply H. Qed.

Lemma no_wire_app a b : no_wire a -> no_wire b -> no_wire (a ++ b).
Proof. unfold no_wire. intros Ha Hb. rewrite forallb_app, Ha, Hb. reflexivity. Qed.

Lemma app_split_elt {A} (l1 l2 pre : list A) x post :
  l1 ++ l2 = pre ++ x :: post ->
  (exists mid, l1 = pre ++ x :: mid /\ post = mid ++ l2)
  \/ (exists mid, pre = l1 ++ mid /\ l2 = mid ++ x :: post).
Proof.
  revert pre. induction l1 as [|a l1 IH]; intros pre H; cbn [app] in H.
  - right. exists pre. split; [reflexivity|exact H].
  - destruct pre as [|b pre]; cbn [app] in H.
    + inversion H; subst. left. exists l1. split; reflexivity.
    + inversion H; subst. destruct (IH pre H2) as [(mid & -> & ->)|(mid & -> & ->)].
      * left. exists mid. split; reflexivity.
      * right. exists mid. split; reflexivity.
Qed.

Lemma app_split_skip {A} (P : A -> bool) (l1 l2 pre : list A) x post :
  l1 ++ l2 = pre ++ x :: post -> forallb (fun e => negb (P e)) l1 = true -> P x = true ->
  exists mid, pre = l1 ++ mid /\ l2 = mid ++ x :: post.
Proof.
  intros H Hl Hx. destruct (app_split_elt l1 l2 pre x post H) as [(mid & -> & _)|Hr]; [|exact Hr].
  rewrite forallb_app in Hl. apply andb_true_iff in Hl as [_ Hl]. cbn [forallb] in Hl.
  rewrite Hx in Hl. discriminate.
Qed.

Definition data_reply (cfg : config) (ret : berr) (panic : bool) (post : list event) : Prop :=
  (cf_lmtp cfg = false -> panic = false ->
     exists code ec msg rest,
       data_error_to_status ret = (code, ec, msg) /\ post = reply code ec msg :: rest)
  /\ (cf_lmtp cfg = false -> panic = true ->
     exists a rest,
       post = a ++ reply 421 (4, 0, 0)%Z (bs "Internal server error") :: rest
       /\ forallb (fun e => negb (is_wire e)) a = true)
  /\ (cf_lmtp cfg = true -> cf_lmtp_session cfg = false -> panic = false ->
     exists rcpts rest, rcpts <> [] /\ post = map (fun a => status_reply a ret) rcpts ++ rest).

Definition data_adj (cfg : config) (ev : list event) : Prop :=
  forall pre got term ret panic post, ev = pre ++ EData got term ret panic :: post ->
    (cf_lmtp cfg = false -> panic = false ->
       exists code ec msg rest,
         data_error_to_status ret = (code, ec, msg) /\ post = reply code ec msg :: rest)
    /\ (cf_lmtp cfg = false -> panic = true ->
       exists a rest,
         post = a ++ reply 421 (4, 0, 0)%Z (bs "Internal server error") :: rest
         /\ forallb (fun e => negb (is_wire e)) a = true)
    /\ (cf_lmtp cfg = true -> cf_lmtp_session cfg = false -> panic = false ->
       exists rcpts rest, rcpts <> [] /\ post = map (fun a => status_reply a ret) rcpts ++ rest).

Lemma nodata_data_adj cfg ev : forallb (fun e => negb (is_data e)) ev = true -> data_adj cfg ev.
Proof.
  intros H pre got term ret panic post E. exfalso.
  assert (Hin : In (EData got term ret panic) ev) by (rewrite E; apply in_elt).
  rewrite forallb_forall in H. specialize (H _ Hin). discriminate.
Qed.

Lemma data_reply_app cfg ret panic post b : data_reply cfg ret panic post -> data_reply cfg ret panic (post ++ b).
Proof.
  intros (H1 & H2 & H3). repeat split.
  - intros L P. destruct (H1 L P) as (code & ec & msg & rest & Hs & ->).
    exists code, ec, msg, (rest ++ b). split; [exact Hs|reflexivity].
  - intros L P. destruct (H2 L P) as (x & rest & -> & Hx).
    exists x, (rest ++ b). split; [rewrite <- app_assoc; reflexivity|exact Hx].
  - intros L S P. destruct (H3 L S P) as (rcpts & rest & Hne & ->).
    exists rcpts, (rest ++ b). split; [exact Hne|rewrite <- app_assoc; reflexivity].
Qed.

Lemma data_adj_app cfg a b : data_adj cfg a -> data_adj cfg b -> data_adj cfg (a ++ b).
Proof.
  intros Ha Hb pre got term ret panic post E.
  destruct (app_split_elt a b pre _ post E) as [(mid & E1 & ->)|(mid & -> & E2)].
  - apply (data_reply_app cfg ret panic mid b), (Ha _ _ _ _ _ _ E1).
  - exact (Hb _ _ _ _ _ _ E2).
Qed.

Lemma data_adj_one cfg pre0 g t r p tail :
  forallb nocd pre0 = true -> forallb nocd tail = true -> data_reply cfg r p tail ->
  data_adj cfg (pre0 ++ EData g t r p :: tail).
Proof.
  intros Hpre Htail Hconc pre got term ret panic post E.
  destruct (app_split_skip is_data pre0 _ pre _ post E (nocd_no_data _ Hpre) eq_refl) as (mid & -> & E2).
  destruct mid as [|x mid]; cbn [app] in E2.
  - injection E2 as <- <- <- <- <-. exact Hconc.
  - exfalso. injection E2 as _ E2. apply nocd_no_data in Htail. rewrite E2, forallb_app in Htail.
    apply andb_true_iff in Htail as [_ Htail]. discriminate.
Qed.

Definition dstate := option (list event).

Definition dl_step (st : dstate) (e : event) : dstate :=
  match e with
  | EBdatStart => Some []
  | EDelivery _ _ _ _ => option_map (fun l => l ++ [e]) st
  | _ => st
  end.

(* the delivery outcomes recorded since the last EBdatStart (None: no
   transfer has been started yet) *)
Definition dl_run (st : dstate) (ev : list event) : dstate := fold_left dl_step ev st.
Definition deliveries_since_start (tr : list event) : dstate := dl_run None tr.

Lemma dl_run_app st a b : dl_run st (a ++ b) = dl_run (dl_run st a) b.
Proof. apply fold_left_app. Qed.

Lemma dl_run_cmd st line ev : dl_run st (ECmd line :: ev) = dl_run st ev.
Proof. reflexivity. Qed.

Lemma dl_run_plain st ev : forallb plain ev = true -> dl_run st ev = st.
Proof.
  revert st. induction ev as [|e ev IH]; intros st H; [reflexivity|].
  cbn [forallb] in H. apply andb_true_iff in H as [He H]. cbn [dl_run fold_left].
  change (fold_left dl_step ev (dl_step st e)) with (dl_run (dl_step st e) ev). rewrite (IH _ H).
  destruct e; try reflexivity; discriminate.
Qed.

(* the value a delivery closes the pipe with / sends on dataResult *)
Definition delivered (r : berr) (panic : bool) : berr := if panic then err_panic else r.

(* the delivery record of the open transfer agrees with the events *)
Definition BdMatch (st : dstate) (b : bdat) : Prop :=
  match bd_done b with
  | None => st = Some []
  | Some v => exists g t r p, st = Some [EDelivery g t r p] /\ v = delivered r p
  end.

Definition BdRel (st : dstate) (c : conn) : Prop :=
  match c_bdat c with Some b => BdMatch st b | None => True end.

Lemma bd_finish_match st b term :
  bd_done b = None -> BdMatch st b ->
  BdMatch (dl_run st (snd (bd_finish b term))) (fst (bd_finish b term))
  /\ bd_done (fst (bd_finish b term)) <> None.
Proof.
  unfold BdMatch. intros Hd H. rewrite Hd in H. subst st. split; [|discriminate].
  eexists _, _, _, _. split; reflexivity.
Qed.

Lemma bd_end_match st b term :
  BdMatch st b ->
  BdMatch (dl_run st (snd (bd_end b term))) (fst (bd_end b term))
  /\ bd_done (fst (bd_end b term)) <> None.
Proof.
  intros H. destruct (bd_end_cases b term) as [E|[Hd ->]]; [|apply bd_finish_match; assumption].
  unfold bd_end in *. destruct (bd_done b) eqn:Hd; [|discriminate (f_equal snd E)].
  split; [exact H|cbn; congruence].
Qed.

Lemma bd_feed_match st b chunk :
  BdMatch st b -> BdMatch (dl_run st (snd (fst (bd_feed b chunk)))) (fst (fst (bd_feed b chunk))).
Proof.
  intros H. destruct (bd_feed_cases b chunk) as [->|(Hd & a & _ & [->| ->])]; [exact H| |].
  - unfold BdMatch in *. rewrite Hd in H. exact H.
  - apply bd_finish_match; [reflexivity|]. unfold BdMatch in *. rewrite Hd in H. exact H.
Qed.

Lemma bd_new_match st p rcpts sp :
  BdMatch (dl_run st (snd (bd_new p rcpts sp))) (fst (bd_new p rcpts sp)).
Proof.
  destruct (bd_new_cases p rcpts sp) as [->| ->]; [reflexivity|].
  apply (bd_finish_match (Some [])); reflexivity.
Qed.

Lemma bd_end_nocd b term : forallb nocd (snd (bd_end b term)) = true.
Proof. apply forallb_Forall, Forall_bd_end. reflexivity. Qed.

Lemma bd_feed_nocd b chunk : forallb nocd (snd (fst (bd_feed b chunk))) = true.
Proof. apply forallb_Forall, Forall_bd_feed. reflexivity. Qed.

Lemma bd_new_nocd p rcpts sp : forallb nocd (snd (bd_new p rcpts sp)) = true.
Proof. apply forallb_Forall, Forall_bd_new; reflexivity. Qed.

Lemma reset_ev_calm c : forallb calm (reset_ev c) = true.
Proof. apply forallb_Forall, Forall_reset_ev; [apply Forall_abort_ev|]; reflexivity. Qed.

Lemma close_ev_calm c : forallb calm (close_ev c) = true.
Proof. apply forallb_Forall, Forall_close_ev; [apply Forall_abort_ev| |]; reflexivity. Qed.

Lemma ended_calm c c' ev : ended c c' ev -> forallb calm ev = true.
Proof. intros ([-> | ->] & _); [apply reset_ev_calm|apply close_ev_calm]. Qed.

Lemma status_reply_plain a e : plain (status_reply a e) = true.
Proof. unfold status_reply. destruct (data_error_to_status e) as [[? ?] ?]. reflexivity. Qed.

Lemma statuses_plain (sts : list (bytes * berr)) :
  forallb plain (map (fun '(a, e) => status_reply a e) sts) = true.
Proof. induction sts as [|[a e] l IH]; cbn [map forallb]; [reflexivity|]. rewrite status_reply_plain. exact IH. Qed.

Lemma statuses_same_plain (rc : list bytes) e :
  forallb plain (map (fun a => status_reply a e) rc) = true.
Proof. induction rc as [|a l IH]; cbn [map forallb]; [reflexivity|]. rewrite status_reply_plain. exact IH. Qed.

Lemma auth_evs_plain ev : forallb is_auth_ev ev = true -> forallb plain ev = true.
Proof. apply ReplyProofs.forallb_impl. intros [] H; try discriminate; reflexivity. Qed.

Lemma reply_err_plain code ec e : plain (reply_err code ec e) = true.
Proof. reflexivity. Qed.

Definition VS (cfg : config) (c : conn) (r : hres) : Prop :=
  forallb (fun e => negb (is_cmd e)) (snd r) = true
  /\ data_adj cfg (snd r)
  /\ (c_bdat (fst r) = None \/ (c_bdat (fst r) = c_bdat c /\ forallb plain (snd r) = true)).

Lemma VS_reset cfg c c' ev :
  forallb calm ev = true -> c_bdat c' = None -> VS cfg c (c', ev).
Proof.
  intros Hc Hb. apply calm_nocd in Hc. split; [apply nocd_no_cmd, Hc|].
  split; [apply nodata_data_adj, nocd_no_data, Hc|]. left. exact Hb.
Qed.

Lemma VS_plain cfg c c' ev :
  forallb plain ev = true -> c_bdat c' = c_bdat c -> VS cfg c (c', ev).
Proof.
  intros H Hb. pose proof (calm_nocd _ (plain_calm _ H)) as Hc. split; [apply nocd_no_cmd, Hc|].
  split; [apply nodata_data_adj, nocd_no_data, Hc|]. right. split; assumption.
Qed.

(* [forallb calm ev = true] for the events of a leaf: [forallb] goes through the
   concatenations; the events of reset and Close and the status replies are calm by the lemmas
   above, the literal events by computation.  [vs_leaf]: [VS] at a leaf where the transfer is
   untouched ([VS_plain]) or dropped ([VS_reset]). *)
Ltac calm_tac :=
  cbn [app forallb]; rewrite ?forallb_app; cbn [forallb];
  rewrite ?reset_ev_calm, ?close_ev_calm, ?(plain_calm _ (statuses_plain _)), ?(plain_calm _ (statuses_same_plain _ _));
  repeat match goal with |- context [if ?b then _ else _] => destruct b end;
  reflexivity.
Ltac vs_leaf := first [apply VS_plain; reflexivity | apply VS_reset; [calm_tac|reflexivity]].

Lemma protocol_error_vs cfg c code ec msg : VS cfg c (protocol_error c code ec msg).
Proof. unfold protocol_error. walk; vs_leaf. Qed.

Lemma handle_mail_vs cfg c arg : VS cfg c (handle_mail cfg c arg).
Proof. unfold handle_mail, syntax_mail, pop_mail. walk; vs_leaf. Qed.

Lemma handle_rcpt_vs cfg c arg : VS cfg c (handle_rcpt cfg c arg).
Proof. unfold handle_rcpt, syntax_rcpt, pop_rcpt. walk; vs_leaf. Qed.

Lemma handle_greet_vs cfg c enh arg : VS cfg c (handle_greet cfg c enh arg).
Proof. unfold handle_greet. walk; vs_leaf. Qed.

Lemma handle_starttls_vs cfg c : VS cfg c (handle_starttls cfg c).
Proof. unfold handle_starttls. walk; vs_leaf. Qed.

Lemma handle_auth_vs cfg c arg : VS cfg c (handle_auth cfg c arg).
Proof.
  unfold handle_auth, pop_auth. walk; try vs_leaf.
  all: match goal with H : auth_loop ?s ?c1 ?r = _ |- _ =>
         destruct (auth_loop_spec s c1 r) as [Hc2 Hev]; rewrite H in Hc2, Hev; cbn [fst snd] in Hc2, Hev end.
  all: apply auth_evs_plain in Hev; rewrite Hc2; apply VS_plain; [|reflexivity];
       cbn [forallb]; rewrite ?forallb_app, Hev; reflexivity.
Qed.

Lemma VS_data cfg c c' w g t r p tail :
  c_bdat c' = None -> forallb calm tail = true -> data_reply cfg r p tail ->
  VS cfg c (c', [EWire w; EData g t r p] ++ tail).
Proof.
  intros Hb Ht Hr. apply calm_nocd in Ht. split; [apply nocd_no_cmd in Ht; exact Ht|].
  split; [apply (data_adj_one cfg [EWire w]); [reflexivity|exact Ht|exact Hr]|left; exact Hb].
Qed.

Lemma handle_data_vs cfg c arg : VS cfg c (handle_data cfg c arg).
Proof.
  destruct (handle_data_outcome cfg c arg)
    as [code ec msg Hin|Hs Hf|p rest got term code ec msg cm c' tail Ep _ _ _ Hl Es Hend
       |p rest got term cm c' tail Ep _ _ _ Hl Hls Hne Hend
       |p rest got term sts pk cm c' tail Ep _ _ _ Hl Hls Est Hend
       |p rest got term cm Ep _ _ _ _ Hm].
  1,2: apply VS_plain; reflexivity.
  1-3: pose proof (ended_calm _ _ _ Hend) as Ht; destruct Hend as (_ & _ & Hbd & _).
  - apply (VS_data cfg c c' _ got term _ false (reply code ec msg :: tail)); [exact Hbd|exact Ht|].
    repeat split; intros; try congruence. eexists _, _, _, _. split; [exact Es|reflexivity].
  - apply (VS_data cfg c c' _ got term _ false (_ ++ tail)); [exact Hbd| |].
    + rewrite forallb_app, (plain_calm _ (statuses_same_plain _ _)), Ht. reflexivity.
    + repeat split; intros; try congruence. exists (c_rcpts c), tail. split; [exact Hne|reflexivity].
  - apply (VS_data cfg c c' _ got term _ pk (_ ++ tail)); [exact Hbd| |].
    + rewrite forallb_app, (plain_calm _ (statuses_plain _)), Ht. reflexivity.
    + repeat split; intros; congruence.
  - apply (VS_data cfg c _ _ got term _ true (reset_ev cm ++ _)); [reflexivity|calm_tac|].
    repeat split; intros; try congruence.
    eexists (reset_ev _ ++ [EPanic]), _. split; [rewrite <- app_assoc; reflexivity|].
    apply (no_wire_app _ [EPanic]); [apply nw_no_wire, reset_ev_nw|reflexivity].
Qed.

Definition bdat_refusals : list (Z * ecode * bytes) :=
  [(501, (5, 5, 4), bs "Missing chunk size argument"); (501, (5, 5, 4), bs "Too many arguments");
   (501, (5, 5, 4), bs "Malformed size argument"); (502, (5, 5, 1), bs "Missing RCPT TO command.");
   (501, (5, 5, 4), bs "Unknown BDAT argument"); (552, (5, 3, 4), bs "Max message size exceeded")]%Z.

(* What the first reply [w] to a BDAT command reports, given the delivery
   outcomes [st] recorded since the EBdatStart of the transfer it belongs to. *)
Inductive bdat_verdict (st : dstate) (last : bool) (w : bytes) : Prop :=
| BV_refused code ec msg :
    In (code, ec, msg) bdat_refusals -> w = write_response code ec [msg] -> bdat_verdict st last w
| BV_continue :
    last = false -> w = write_response 250 (2, 0, 0)%Z [bs "Continue"] -> bdat_verdict st last w
| BV_accepted g t r p code ec msg :
    (* the LAST chunk was copied: the verdict of THIS transfer's delivery *)
    last = true -> st = Some [EDelivery g t r p] ->
    data_error_to_status (delivered r p) = (code, ec, msg) -> w = write_response code ec [msg] ->
    bdat_verdict st last w
| BV_stopped g t r p code ec msg :
    (* THIS transfer's delivery had returned before the chunk was copied:
       its error, or "closed pipe" if it returned nil *)
    st = Some [EDelivery g t r p] ->
    data_error_to_status (pipe_err (delivered r p)) = (code, ec, msg) -> w = write_response code ec [msg] ->
    bdat_verdict st last w
| BV_read_failed te code ec msg :
    (* the chunk could not be read from the connection *)
    data_error_to_status (berr_of_rerr (rerr_of_copy te)) = (code, ec, msg) -> w = write_response code ec [msg] ->
    bdat_verdict st last w.

Definition BS (cfg : config) (st : dstate) (last : bool) (r : hres) : Prop :=
  forallb nocd (snd r) = true
  /\ BdRel (dl_run st (snd r)) (fst r)
  /\ (cf_lmtp cfg = false ->
      exists evA w evB, snd r = evA ++ EWire w :: evB /\ no_wire evA /\ bdat_verdict (dl_run st evA) last w).

Lemma BS_refused cfg st last c c' code ec msg tail :
  BdRel st c -> In (code, ec, msg) bdat_refusals -> settles c c' tail ->
  BS cfg st last (c', reply code ec msg :: tail).
Proof.
  intros HB Hin Hset. unfold BS, BdRel in *. cbn [fst snd]. split; [|split].
  - change (forallb nocd tail = true).
    destruct Hset as [(-> & _)|H]; [reflexivity|apply calm_nocd, (ended_calm _ _ _ H)].
  - destruct Hset as [(-> & _ & -> & _)|(_ & _ & -> & _)]; [exact HB|exact I].
  - intros _. exists [], (write_response code ec [msg]), tail. split; [reflexivity|]. split; [reflexivity|].
    eapply BV_refused; [exact Hin|reflexivity].
Qed.

Lemma fed_replies_plain cfg ll b e : forallb plain (fed_replies cfg ll b e) = true.
Proof.
  unfold fed_replies, bdat_lmtp_replies. destruct ll.
  - match goal with |- context [let '(sts, panicked) := ?X in _] => destruct X end. apply statuses_plain.
  - destruct (data_error_to_status e) as [[? ?] ?]. reflexivity.
Qed.

Lemma bdat_fed_match cfg c st chunk b0 ev0 c0 b1 ev1 werr :
  BdRel st c -> bdat_start cfg c = (b0, ev0, c0) -> bd_feed b0 chunk = (b1, ev1, werr) ->
  BdMatch (dl_run st (ev0 ++ ev1)) b1 /\ forallb nocd (ev0 ++ ev1) = true /\ no_wire (ev0 ++ ev1)
  /\ (forall e, werr = Some e -> exists v, bd_done b1 = Some v /\ e = pipe_err v).
Proof.
  intros HB E0 E1.
  assert (H0 : BdMatch (dl_run st ev0) b0 /\ forallb nocd ev0 = true).
  { unfold BdRel in HB.
    destruct (bdat_start_cases cfg c) as [(b & Hb & E)|(_ & p & sp & be0 & E)]; rewrite E in E0; injection E0 as <- <- _.
    - rewrite Hb in HB. split; [exact HB|reflexivity].
    - split; [apply bd_new_match|apply bd_new_nocd]. }
  destruct H0 as [Hm0 Hn0]. destruct (bdat_fed_frame _ _ _ _ _ _ _ _ _ E0 E1) as (Hw0 & Hw1 & _).
  pose proof (bd_feed_match _ b0 chunk Hm0) as Hm1. pose proof (bd_feed_nocd b0 chunk) as Hn1.
  pose proof (bd_feed_werr b0 chunk) as Hwe. rewrite E1 in Hm1, Hn1, Hwe. cbn [fst snd] in *.
  rewrite dl_run_app, forallb_app, Hn0, Hn1. split; [exact Hm1|]. split; [reflexivity|].
  split; [apply no_wire_app; apply nw_no_wire; assumption|]. intros e ->. apply Hwe. reflexivity.
Qed.

Lemma fed_end_verdict cfg last st b1 werr cerr e b2 ev2 code ec msg :
  cf_lmtp cfg = false -> BdMatch st b1 ->
  (forall e, werr = Some e -> exists v, bd_done b1 = Some v /\ e = pipe_err v) ->
  fed_end cfg last b1 werr cerr e b2 ev2 -> data_error_to_status e = (code, ec, msg) ->
  bdat_verdict (dl_run st ev2) last (write_response code ec [msg]).
Proof.
  intros L Hm Hw H Es.
  destruct H as [e b2 ev2 He E|te b2 ev2 _ _ E|b2 ev2 _ _ Hl Eb];
    try (unfold pipe_end in E; rewrite L, andb_false_r in E; injection E as <- <-).
  - destruct (Hw e He) as (v & Hv & ->). unfold BdMatch in Hm. rewrite Hv in Hm.
    destruct Hm as (g & t & r & p & Hst & ->). eapply BV_stopped; [exact Hst|exact Es|reflexivity].
  - eapply BV_read_failed; [exact Es|reflexivity].
  - destruct (bd_end_match st b1 REOF Hm) as [Hm2 Hd2]. rewrite Eb in Hm2, Hd2. cbn [fst snd] in *.
    unfold bd_result, BdMatch in *. destruct (bd_done b2) as [v|]; [|congruence].
    destruct Hm2 as (g & t & r & p & Hst & ->). eapply BV_accepted; [exact Hl|exact Hst|exact Es|reflexivity].
Qed.

Lemma handle_bdat_bs cfg c arg st :
  Inv c -> c_closed c = false -> BdRel st c -> BS cfg st (bdat_last arg) (handle_bdat cfg c arg).
Proof.
  intros HI Hc HB.
  destruct (handle_bdat_outcome cfg c arg)
    as [code ec msg c' tail Hin Hset|Hs Hf|chunk b0 ev0 c0 b1 ev1 c' E0 E1 Hl _ _ Hbd
       |chunk cerr b0 ev0 c0 b1 ev1 werr e b2 ev2 cm c' tail E0 E1 Hend _ Hset _ _ _].
  - apply (BS_refused cfg st _ c); assumption.
  - destruct (Inv_no_session c HI Hc) as [_ E]; [rewrite Hs; reflexivity|rewrite Hf in E; discriminate].
  - destruct (bdat_fed_match cfg c st chunk _ _ _ _ _ _ HB E0 E1) as (Hm1 & Hn & Hw & _).
    rewrite app_assoc. unfold BS, BdRel. cbn [fst snd]. rewrite Hbd, forallb_app, Hn, dl_run_app.
    split; [reflexivity|]. split; [exact Hm1|]. intros _. eexists (ev0 ++ ev1), _, [].
    split; [reflexivity|]. split; [exact Hw|apply BV_continue; [exact Hl|reflexivity]].
  - destruct (bdat_fed_match cfg c st chunk _ _ _ _ _ _ HB E0 E1) as (Hm1 & Hn & Hw & Hwe).
    assert (H2 : forallb nocd ev2 = true /\ no_wire ev2).
    { destruct (fed_end_pipe _ _ _ _ _ _ _ _ Hend) as [[= _ ->]|[pe E]]; [split; reflexivity|].
      pose proof (bd_end_nocd b1 pe) as A. pose proof (nw_no_wire _ (bd_end_nw b1 pe)) as B.
      rewrite E in A, B. auto. }
    destruct H2 as [Hn2 Hw2]. pose proof (ended_calm _ _ _ Hset) as Ht. destruct Hset as (_ & _ & F & _).
    rewrite app_assoc. unfold BS, BdRel. cbn [fst snd]. rewrite F.
    split; [|split; [exact I|]].
    + rewrite forallb_app, Hn, !forallb_app, Hn2, (calm_nocd _ (plain_calm _ (fed_replies_plain cfg _ b2 e))), (calm_nocd _ Ht).
      reflexivity.
    + intros L. unfold fed_replies. rewrite L, andb_false_r.
      destruct (data_error_to_status e) as [[code ec] msg] eqn:Es.
      eexists ((ev0 ++ ev1) ++ ev2), _, tail. split; [rewrite <- !app_assoc; reflexivity|].
      split; [apply no_wire_app; assumption|]. rewrite dl_run_app.
      eapply fed_end_verdict; [exact L|exact Hm1|exact Hwe|exact Hend|exact Es].
Qed.

Definition block_verdict (cfg : config) (st : dstate) (line : bytes) (ev : list event) : Prop :=
  cf_lmtp cfg = false -> fst (line_verb line) = VBdat ->
  exists evA w evB, ev = evA ++ EWire w :: evB /\ no_wire evA
                    /\ bdat_verdict (dl_run st evA) (bdat_last (snd (line_verb line))) w.

(* what the loop needs of one command: no further command among its events,
   its Data calls are answered, the record of the open transfer still agrees
   with the deliveries, and - BDAT - the first reply reports on them *)
Definition CS (cfg : config) (st : dstate) (v : verb) (arg : bytes) (r : hres) : Prop :=
  forallb (fun e => negb (is_cmd e)) (snd r) = true /\ data_adj cfg (snd r)
  /\ BdRel (dl_run st (snd r)) (fst r)
  /\ (cf_lmtp cfg = false -> v = VBdat ->
      exists evA w evB, snd r = evA ++ EWire w :: evB /\ no_wire evA
                        /\ bdat_verdict (dl_run st evA) (bdat_last arg) w).

Lemma VS_CS cfg st c v arg r : BdRel st c -> v <> VBdat -> VS cfg c r -> CS cfg st v arg r.
Proof.
  intros HB Hv (V1 & V2 & V3). split; [exact V1|]. split; [exact V2|]. split; [|congruence].
  unfold BdRel in *. destruct V3 as [->|[-> V4]]; [exact I|]. rewrite (dl_run_plain _ _ V4). exact HB.
Qed.

Lemma handle_cs cfg st c cmd arg :
  Inv c -> c_closed c = false -> BdRel st c -> CS cfg st (verb_of_cmd cmd) arg (handle cfg c cmd arg).
Proof.
  intros HI Hc HB. rewrite verb_of_cmd_upper.
  apply (handle_cases_cmd cfg c cmd arg (fun C => CS cfg st (verb_of_upper C) arg)); cbv zeta.
  7: { destruct (handle_bdat_bs cfg c arg st HI Hc HB) as (B1 & B2 & B3).
       split; [apply nocd_no_cmd, B1|]. split; [apply nodata_data_adj, nocd_no_data, B1|]. split; [exact B2|].
       intros L _. exact (B3 L). }
  all: intros; apply (VS_CS cfg st c); [exact HB|first [rewrite verb_other by assumption|idtac]; discriminate|].
  all: auto using protocol_error_vs, handle_greet_vs, handle_mail_vs, handle_rcpt_vs, handle_data_vs,
         handle_auth_vs, handle_starttls_vs.
  all: vs_leaf.
Qed.

Lemma command_step_cs cfg st c line :
  Inv c -> c_closed c = false -> BdRel st c ->
  CS cfg st (fst (line_verb line)) (snd (line_verb line)) (command_step cfg c line).
Proof.
  intros HI Hc HB. unfold command_step, line_verb. destruct (parse_cmd line) as [[cmd arg]|].
  - apply handle_cs; assumption.
  - apply (VS_CS cfg st c); [exact HB|discriminate|apply protocol_error_vs].
Qed.

Lemma calm_verdicts cfg st l :
  forallb calm l = true ->
  data_adj cfg l /\ (forall pre line post, l = pre ++ ECmd line :: post -> block_verdict cfg (dl_run st pre) line post).
Proof.
  intros Hl. apply calm_nocd in Hl. split; [apply nodata_data_adj, nocd_no_data, Hl|].
  intros pre line post E. exfalso. apply nocd_no_cmd in Hl. rewrite E, forallb_app in Hl.
  apply andb_true_iff in Hl as [_ Hl]. discriminate.
Qed.

Lemma serve_loop_verdicts cfg : forall fuel c st,
  Inv c -> BdRel st c ->
  data_adj cfg (serve_loop fuel cfg c)
  /\ (forall pre line post, serve_loop fuel cfg c = pre ++ ECmd line :: post ->
        block_verdict cfg (dl_run st pre) line post).
Proof.
  apply (serve_loop_ind cfg (fun _ c tr => forall st, Inv c -> BdRel st c ->
           data_adj cfg tr /\ (forall pre line post, tr = pre ++ ECmd line :: post ->
                                 block_verdict cfg (dl_run st pre) line post))).
  - intros c st _ _. apply calm_verdicts. reflexivity.
  - intros _ c _ st _ _. apply calm_verdicts, close_ev_calm.
  - intros _ c e t _ st _ _. apply calm_verdicts. rewrite forallb_app, close_ev_calm. destruct e; reflexivity.
  - intros f c line t Hc _ r -> IH st HI HB.
    destruct (command_step_cs cfg st (upd_t c t) line HI Hc HB) as (Hnc & Hadj & HB2 & Hv).
    destruct (command_step_ok cfg (upd_t c t) line HI Hc) as (_ & _ & _ & HI2).
    destruct (command_step cfg (upd_t c t) line) as [c2 ev]. cbn [fst snd] in *.
    destruct (IH _ HI2 HB2) as [IH1 IH2]. split.
    + apply (data_adj_app cfg [ECmd line]); [apply nodata_data_adj; reflexivity|]. apply data_adj_app; assumption.
    + intros [|x pre] line' post E; cbn [app] in E.
      * injection E as <- <-. intros L V. destruct (Hv L V) as (evA & w & evB & -> & Hw & Hbv).
        exists evA, w, (evB ++ serve_loop f cfg c2). split; [rewrite <- app_assoc; reflexivity|]. auto.
      * injection E as <- E.
        destruct (app_split_skip is_cmd ev _ pre (ECmd line') post E Hnc eq_refl) as (mid & -> & E2).
        rewrite dl_run_cmd, dl_run_app. exact (IH2 mid line' post E2).
Qed.

Lemma init_conn_BdRel cfg be phases : BdRel None (init_conn cfg be phases).
Proof. unfold BdRel, init_conn. destruct phases; exact I. Qed.

(* C04 (4), DATA: in every trace, a Data call of the DATA path that returns
   [ret] is followed IMMEDIATELY by the final reply rendered from that very
   value (SMTP; LMTP with a plain backend: one such reply per recipient); when
   it panics instead, the next reply is 421. *)
Theorem serve_data_verdict fuel cfg be phases : data_adj cfg (serve fuel cfg be phases).
Proof.
  unfold serve.
  change (greeting cfg :: serve_loop fuel cfg (init_conn cfg be phases))
    with ([greeting cfg] ++ serve_loop fuel cfg (init_conn cfg be phases)).
  apply data_adj_app; [apply nodata_data_adj; reflexivity|].
  apply (serve_loop_verdicts cfg fuel (init_conn cfg be phases) None); [apply init_conn_Inv|apply init_conn_BdRel].
Qed.

(* the final reply is the positive "250 2.0.0 OK: queued" exactly when the
   backend returned nil - or an *SMTPError that carries that very triple *)
Lemma data_verdict_positive ret :
  (ret = BNil <-> data_error_to_status ret = (250, (2, 0, 0), bs "OK: queued")%Z)
  \/ (exists c e m, ret = BSmtp c e m /\ data_error_to_status ret = (c, e, m)).
Proof.
  destruct ret as [|c e m|m].
  - left. split; reflexivity.
  - right. exists c, e, m. split; reflexivity.
  - left. split; [discriminate|]. cbn. intros H. inversion H.
Qed.

(* C04 (4), chunked transfers, SMTP mode: the first reply to every BDAT
   command reports on THIS transfer: [deliveries_since_start] of everything
   that precedes the reply is the list of delivery outcomes since the
   EBdatStart of the transfer the chunk belongs to, and [bdat_verdict] says
   the reply to an accepted LAST chunk is rendered from the single outcome in
   that list. *)
Theorem serve_bdat_verdict fuel cfg be phases pre line post :
  serve fuel cfg be phases = pre ++ ECmd line :: post ->
  cf_lmtp cfg = false -> fst (line_verb line) = VBdat ->
  exists evA w evB,
    post = evA ++ EWire w :: evB /\ no_wire evA
    /\ bdat_verdict (deliveries_since_start (pre ++ ECmd line :: evA)) (bdat_last (snd (line_verb line))) w.
Proof.
  intros E L V. unfold serve in E.
  destruct pre as [|g pre]; [discriminate|]. cbn [app] in E. inversion E as [[Hg E']]. subst g.
  destruct (serve_loop_verdicts cfg fuel (init_conn cfg be phases) None (init_conn_Inv cfg be phases)
              (init_conn_BdRel cfg be phases)) as [_ H].
  destruct (H pre line post E' L V) as (evA & w & evB & -> & Hw & Hv).
  exists evA, w, evB. split; [reflexivity|]. split; [exact Hw|].
  unfold deliveries_since_start. cbn [app]. change (dl_run None (greeting cfg :: pre ++ ECmd line :: evA))
    with (dl_run None (pre ++ ECmd line :: evA)).
  rewrite dl_run_app. cbn [dl_run fold_left dl_step]. exact Hv.
Qed.

(* what a reply to a LAST chunk can be: the rendering of an error value [e]
   which is nil - the positive reply - only if the one delivery of THIS
   transfer returned nil without panicking; otherwise [e] is that delivery's
   own error (or "closed pipe" if it had returned nil before the whole
   message was written), the chunk's read error, or a refusal of the command *)
Theorem bdat_verdict_last st w :
  bdat_verdict st true w ->
  exists e code ec msg,
    data_error_to_status e = (code, ec, msg) /\ w = write_response code ec [msg]
    /\ (e = BNil -> exists g t, st = Some [EDelivery g t BNil false])
    /\ ((exists g t r p, st = Some [EDelivery g t r p] /\ (e = delivered r p \/ e = pipe_err (delivered r p)))
        \/ (exists te, e = berr_of_rerr (rerr_of_copy te))
        \/ In (code, ec, msg) bdat_refusals).
Proof.
  intros [code ec msg Hin ->|Hl _|g t r p code ec msg _ Hst Hs ->|g t r p code ec msg Hst Hs ->|te code ec msg Hs ->].
  - exists (BSmtp code ec msg), code, ec, msg. split; [reflexivity|]. split; [reflexivity|].
    split; [discriminate|]. right; right. exact Hin.
  - discriminate.
  - exists (delivered r p), code, ec, msg. split; [exact Hs|]. split; [reflexivity|]. split.
    + intros He. exists g, t. rewrite Hst. unfold delivered in He. destruct p; [discriminate|]. subst r. reflexivity.
    + left. exists g, t, r, p. split; [exact Hst|left; reflexivity].
  - exists (pipe_err (delivered r p)), code, ec, msg. split; [exact Hs|]. split; [reflexivity|]. split.
    + intros He. exfalso. destruct (delivered r p); discriminate.
    + left. exists g, t, r, p. split; [exact Hst|right; reflexivity].
  - exists (berr_of_rerr (rerr_of_copy te)), code, ec, msg. split; [exact Hs|]. split; [reflexivity|]. split.
    + intros He. exfalso. destruct (rerr_of_copy te); discriminate.
    + right; left. exists te. reflexivity.
Qed.

Module C04VerdictExample.
Import C04Example.
Local Open Scope string_scope.
Local Open Scope list_scope.

(* first transfer: the backend refuses (554) but the client aborts it with
   RSET before LAST; second transfer: accepted.  The second LAST is answered
   250 - the first delivery's 554 precedes the second EBdatStart. *)
Definition vbe : backend :=
  mkBE [] [] [] [mkDP [4096%nat] None (BSmtp 554 (5, 7, 1)%Z (bs "first rejected")) true false []; dp_default] [].
Definition vstream : bytes :=
  ln "EHLO client.example"
  ++ ln "MAIL FROM:<a@example.org>" ++ ln "RCPT TO:<b@example.org>" ++ ln "BDAT 5" ++ bs "first" ++ ln "RSET"
  ++ ln "MAIL FROM:<a@example.org>" ++ ln "RCPT TO:<b@example.org>" ++ ln "BDAT 6" ++ bs "second"
  ++ ln "BDAT 0 LAST" ++ ln "QUIT".
Definition vtrace : list event := serve 40 cfg vbe [[raw_of vstream]].

Definition show (e : event) : string :=
  match e with
  | EWire b => string_of_list_ascii (firstn 3 b)
  | ECmd l => string_of_list_ascii (firstn 4 l)
  | EBdatStart => "start"
  | EDelivery g _ r _ => String.append "delivery:" (string_of_list_ascii g)
  | EReset => "reset"
  | _ => "-"
  end.

Example trace_shape :
  map show vtrace
  = ["220"; "EHLO"; "-"; "250"; "MAIL"; "-"; "250"; "RCPT"; "-"; "250";
     "BDAT"; "start"; "250"; "RSET"; "delivery:first"; "reset"; "250";
     "MAIL"; "-"; "250"; "RCPT"; "-"; "250"; "BDAT"; "start"; "250";
     "BDAT"; "delivery:second"; "250"; "reset"; "QUIT"; "221"; "-"; "-"; "-"].
Proof. vm_compute. reflexivity. Qed.

(* the instance of [serve_bdat_verdict] at the second LAST *)
Example second_last :
  let pre := firstn 26 vtrace in
  let post := skipn 27 vtrace in
  vtrace = pre ++ ECmd (bs "BDAT 0 LAST") :: post
  /\ fst (line_verb (bs "BDAT 0 LAST")) = VBdat /\ bdat_last (snd (line_verb (bs "BDAT 0 LAST"))) = true
  /\ deliveries_since_start (pre ++ ECmd (bs "BDAT 0 LAST") :: firstn 1 post)
     = Some [EDelivery (bs "second") (Some REOF) BNil false]
  /\ nth 1 post EClose = reply 250 (2, 0, 0)%Z (bs "OK: queued").
Proof. vm_compute. repeat split; reflexivity. Qed.

End C04VerdictExample.
