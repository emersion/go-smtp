(* C11: the reference grammar (RefGrammar.v) against the model of
   handleMail / handleRcpt (Parse.v, Xtext.v, Rfc3339.v, Conn.v).

   [handle_mail_ref] / [handle_rcpt_ref]: a line the reference calls Valid
   reaches the backend with exactly the reference's mailbox and options
   (completeness on the strict language); a line it calls Invalid is refused
   with a 5xx reply and no callback.  That holds for every line because
   parseArgs upper-cases keywords ASCII-only and refuses "KEY=", and the flag
   parameters SMTPUTF8 / REQUIRETLS refuse a value.

   Each production of the reference gets one lemma saying what its verdict
   means for the parser function of the model: its value on CV, a failure on
   CI, nothing on CU. *)
From Smtp Require Import Bytes GoStrings Utf8 Xtext Parse Reply Rfc3339 Conn Utf8Proofs XtextProofs ReplyProofs RefGrammar.
From Coq Require Import Lia ZifyBool ZifyN ZifyNat Permutation.
Local Open Scope char_scope.

Ltac bytecase := apply byte_enum; vm_compute; reflexivity.

Lemma byte_impl (P Q : ascii -> bool) :
  (forall c, (negb (P c) || Q c) = true) -> forall c, P c = true -> Q c = true.
Proof. intros H c Hp. specialize (H c). rewrite Hp in H. exact H. Qed.

Ltac byteimpl := apply byte_impl; bytecase.

Lemma r_up_up1 c : r_up c = up1 c.
Proof. reflexivity. Qed.

Lemma r_special_eq c : r_special c = dot_string_special c.
Proof. reflexivity. Qed.

Lemma mem_byte_forallb c s : mem_byte c s = false <-> forallb (fun x => negb (Ascii.eqb x c)) s = true.
Proof.
  induction s as [|x s IH]; cbn; [tauto|]. rewrite (Ascii.eqb_sym c x).
  destruct (Ascii.eqb x c); cbn; [split; discriminate|exact IH].
Qed.

Definition xv_char (c : ascii) : bool := r_vchar c && negb (Ascii.eqb c "=").

Lemma xv_ascii c : xv_char c = true -> is_ascii7 c = true.
Proof. revert c. byteimpl. Qed.
Lemma printable_ascii c : in_range 32 126 c = true -> is_ascii7 c = true.
Proof. revert c. byteimpl. Qed.
Lemma qtext_ascii c : r_qtext c = true -> is_ascii7 c = true.
Proof. revert c. byteimpl. Qed.
Lemma atext_ascii c : Ascii.eqb "." c || r_atext c = true -> is_ascii7 c = true.
Proof. revert c. byteimpl. Qed.

Lemma list_len_ind {A} (P : list A -> Prop) :
  (forall s, (forall t, (List.length t < List.length s)%nat -> P t) -> P s) -> forall s, P s.
Proof.
  intros H s. apply H. induction s as [|c s IH]; intros t Ht; [cbn in Ht; lia|].
  apply H. intros u Hu. apply IH. cbn in Ht. lia.
Qed.

Lemma ascii7_not c n : (128 <= n)%N -> (n < 256)%N -> is_ascii7 c = true -> Ascii.eqb c (n_byte n) = false.
Proof.
  intros H1 H2 H. apply Ascii.eqb_neq. intros ->. unfold is_ascii7 in H.
  rewrite byte_n_n_byte in H by exact H2. lia.
Qed.

Lemma to_upper_cons2 c d t :
  to_upper (c :: d :: t) =
  if Ascii.eqb c (b 197) && Ascii.eqb d (b 191) then "S" :: to_upper t
  else if Ascii.eqb c (b 196) && Ascii.eqb d (b 177) then "I" :: to_upper t
  else up1 c :: to_upper (d :: t).
Proof. reflexivity. Qed.

(* strings.ToUpper on 7-bit text: no octet of U+017F or U+0131 occurs, so only
   the ASCII letters change *)
Lemma ascii_upper v : forallb is_ascii7 v = true -> to_upper v = r_upper v.
Proof.
  induction v as [|c v IH]; [reflexivity|]. destruct v as [|d t]; [reflexivity|].
  intros H. cbn [forallb] in H. apply andb_true_iff in H as [Hc H].
  rewrite to_upper_cons2. unfold b. rewrite (ascii7_not c 197), (ascii7_not c 196) by (exact Hc || lia).
  cbn [andb]. now rewrite (IH H).
Qed.

Definition heads_differ (c : ascii) (l : list bytes) : bool :=
  forallb (fun u => match u with x :: _ => negb (Ascii.eqb x c) | [] => false end) l.

Lemma find_prefix_none (f : bytes -> bytes) l c t :
  heads_differ c (map f l) = true -> find (fun u => is_prefix (f u) (c :: t)) l = None.
Proof.
  induction l as [|u l IH]; cbn; [reflexivity|]. intros H.
  apply andb_true_iff in H as [H1 H2]. destruct (f u) as [|x u']; [discriminate|].
  cbn. apply negb_true_iff in H1. rewrite H1. cbn. apply IH. exact H2.
Qed.

Lemma vchar_heads c : r_vchar c = true ->
  heads_differ c (map (fun u => u) uni_spaces) && heads_differ c (map (@rev ascii) uni_spaces)
  && negb (is_ascii_space c) = true.
Proof. revert c. byteimpl. Qed.

Lemma vchar_no_space c t : r_vchar c = true ->
  space_len (c :: t) = 0%nat /\ space_len_rev (c :: t) = 0%nat.
Proof.
  intros H. apply vchar_heads in H. apply andb_true_iff in H as [H Hs].
  apply andb_true_iff in H as [H1 H2]. apply negb_true_iff in Hs.
  unfold space_len, space_len_rev. rewrite Hs.
  now rewrite (find_prefix_none (fun u => u) _ _ _ H1), (find_prefix_none (@rev ascii) _ _ _ H2).
Qed.

Lemma last_rev_head (s : bytes) d : s <> [] -> exists t, rev s = last s d :: t.
Proof.
  intros H. destruct (exists_last H) as [s' [x ->]].
  rewrite rev_app_distr, last_last. cbn. eauto.
Qed.

Lemma trim_space_id s : r_first_last_vchar s = true -> trim_space s = s.
Proof.
  destruct s as [|c t]; [discriminate|]. cbn [r_first_last_vchar]. intros H.
  apply andb_true_iff in H as [H1 H2].
  unfold trim_space, trim_left_space. cbn [List.length trim_left_f].
  rewrite (proj1 (vchar_no_space c t H1)). unfold trim_right_space.
  destruct (last_rev_head (c :: t) " ") as [r Hr]; [discriminate|].
  rewrite Hr. destruct (List.length (c :: t)) eqn:El; [discriminate|].
  cbn [trim_right_f]. rewrite (proj2 (vchar_no_space _ r H2)).
  rewrite <- Hr. apply rev_involutive.
Qed.

Definition no_SK (p : bytes) : bool :=
  forallb (fun x => negb (Ascii.eqb (up1 x) "S") && negb (Ascii.eqb (up1 x) "K")) p.

Lemma equal_fold_plain : forall p s, no_SK p = true ->
  equal_fold s p = bytes_eqb (map up1 s) (map up1 p).
Proof.
  induction p as [|x p IH]; intros s H.
  - destruct s; reflexivity.
  - cbn [no_SK forallb] in H. apply andb_true_iff in H as [Hx Hp].
    apply andb_true_iff in Hx as [HS HK].
    apply negb_true_iff in HS. apply negb_true_iff in HK.
    destruct s as [|c t]; [reflexivity|].
    cbn [equal_fold map bytes_eqb]. rewrite HS, HK.
    destruct (Ascii.eqb (up1 c) (up1 x)); cbn; [apply IH; exact Hp|reflexivity].
Qed.

Lemma upper_fixed p : map up1 p = p -> forall s, bytes_eqb (map up1 s) (map up1 p) = bytes_eqb (r_upper s) p.
Proof. intros -> s. reflexivity. Qed.

Lemma firstn_short {A} n (s : list A) : (List.length s < n)%nat -> List.length (firstn n s) <> n.
Proof. intros H. rewrite firstn_length. lia. Qed.

Lemma bytes_eqb_length a b : bytes_eqb a b = true -> List.length a = List.length b.
Proof. intros H. apply bytes_eqb_eq in H. now subst. Qed.

Lemma cut_prefix_fold_ref (p : string) arg :
  no_SK (bs p) = true -> map up1 (bs p) = bs p ->
  cut_prefix_fold arg (bs p) = r_strip_prefix p arg.
Proof.
  intros H1 H2. unfold cut_prefix_fold, r_strip_prefix.
  rewrite (equal_fold_plain _ _ H1), (upper_fixed _ H2).
  destruct (List.length arg <? List.length (bs p))%nat eqn:E; [|reflexivity].
  (* too short an argument: its upper-cased head cannot be the prefix *)
  apply Nat.ltb_lt, firstn_short in E.
  destruct (bytes_eqb _ (bs p)) eqn:E2; [|reflexivity].
  apply bytes_eqb_length in E2. unfold r_upper in E2. now rewrite map_length in E2.
Qed.

Lemma r_ws_seqs_eq : r_ws_seqs = uni_spaces.
Proof. vm_compute. reflexivity. Qed.

Lemma find_existsb_none {A} (f : A -> bool) l : existsb f l = false -> find f l = None.
Proof.
  induction l as [|x l IH]; cbn; [reflexivity|]. intros H.
  apply orb_false_iff in H as [H1 H2]. rewrite H1. auto.
Qed.

Lemma space_len_sp c t :
  r_other_ws (c :: t) = false ->
  space_len (c :: t) = if Ascii.eqb c " " then 1%nat else 0%nat.
Proof.
  cbn [r_other_ws]. intros H. apply orb_false_iff in H as [H _].
  apply orb_false_iff in H as [H1 H2]. rewrite r_ws_seqs_eq in H2.
  unfold space_len, is_ascii_space. rewrite H1. cbn [orb].
  destruct (Ascii.eqb c " "); [reflexivity|].
  now rewrite (find_existsb_none _ _ H2).
Qed.

Lemma r_other_ws_tl c t : r_other_ws (c :: t) = false -> r_other_ws t = false.
Proof. cbn [r_other_ws]. intros H. apply orb_false_iff in H as [_ H]. exact H. Qed.

Lemma split_byte_cons c x s :
  split_byte c (x :: s) =
  match split_byte c s with
  | h :: r => if Ascii.eqb c x then [] :: h :: r else (x :: h) :: r
  | [] => [[]]
  end.
Proof. reflexivity. Qed.

Lemma split_byte_forallb (p : ascii -> bool) c s :
  forallb (forallb p) (split_byte c s) = forallb (fun x => Ascii.eqb c x || p x) s.
Proof.
  induction s as [|x s IH]; [reflexivity|]. rewrite split_byte_cons. cbn [forallb]. rewrite <- IH.
  pose proof (split_byte_nonempty c s). destruct (split_byte c s) as [|h r]; [contradiction|].
  destruct (Ascii.eqb c x); cbn; [reflexivity|now rewrite andb_assoc].
Qed.

(* strings.Fields, where SP is the only white space, is the split at SP without
   the empty pieces; [cur] is the field being read, reversed *)
Lemma fields_f_split : forall s fuel cur,
  r_other_ws s = false -> (List.length s < fuel)%nat ->
  fields_f fuel s cur =
  filter r_nonempty (match split_byte " " s with h :: r => (rev cur ++ h) :: r | [] => [] end).
Proof.
  assert (Hne : forall x cur, r_nonempty (rev (x :: cur)) = true).
  { intros x cur. destruct (rev (x :: cur)) eqn:E; [|reflexivity].
    apply (f_equal (@List.length ascii)) in E. rewrite rev_length in E. discriminate. }
  induction s as [|c t IH]; intros fuel cur Hw Hf; (destruct fuel; [cbn in Hf; lia|]).
  - cbn [fields_f split_byte]. rewrite app_nil_r. destruct cur; [reflexivity|].
    cbn [filter]. now rewrite Hne.
  - cbn [List.length] in Hf. cbn [fields_f]. rewrite (space_len_sp c t Hw), split_byte_cons.
    pose proof (r_other_ws_tl c t Hw) as Hw'. pose proof (split_byte_nonempty " " t) as Hn.
    specialize (IH fuel). destruct (split_byte " " t) as [|h r]; [contradiction|].
    rewrite (Ascii.eqb_sym " " c). destruct (Ascii.eqb c " ").
    + cbn [skipn filter]. rewrite app_nil_r, (IH []) by (assumption || lia).
      change (rev [] ++ h) with h. destruct cur; [reflexivity|]. now rewrite Hne.
    + rewrite IH by (assumption || lia). cbn [rev]. now rewrite <- app_assoc.
Qed.

Lemma filter_all {A} (f : A -> bool) l : forallb f l = true -> filter f l = l.
Proof.
  induction l as [|x l IH]; cbn; [reflexivity|]. intros H.
  apply andb_true_iff in H as [H1 H2]. rewrite H1. f_equal. auto.
Qed.

Lemma fields_tokens rest toks : r_tokens rest = CV toks -> fields rest = toks.
Proof.
  unfold r_tokens. destruct rest as [|c ps]; [intros H; inversion H; reflexivity|].
  destruct (Ascii.eqb c " ") eqn:Ec; [|discriminate]. cbn [negb].
  destruct (r_other_ws ps) eqn:Ew; [discriminate|].
  destruct (forallb r_nonempty (split_byte " " ps)) eqn:Ea; [|discriminate].
  intros H. inversion H; subst toks. apply Ascii.eqb_eq in Ec. subst c.
  (* the leading SP opens an empty piece, which Fields drops *)
  assert (Ew' : r_other_ws (" " :: ps) = false).
  { cbn [r_other_ws]. now rewrite Ew, r_ws_seqs_eq. }
  unfold fields. rewrite fields_f_split by (exact Ew' || lia). rewrite split_byte_cons.
  pose proof (split_byte_nonempty " " ps) as Hn.
  destruct (split_byte " " ps) as [|h r]; [contradiction|].
  change (filter r_nonempty (h :: r) = h :: r). apply filter_all. exact Ea.
Qed.

Definition suffix (rest s : bytes) : Prop := exists pre, s = pre ++ rest.

Lemma suffix_refl s : suffix s s.
Proof. exists []. reflexivity. Qed.

Lemma suffix_cons c rest s : suffix rest s -> suffix rest (c :: s).
Proof. intros [pre ->]. exists (c :: pre). reflexivity. Qed.

Lemma suffix_trans a b c : suffix a b -> suffix b c -> suffix a c.
Proof. intros [p ->] [q ->]. exists (q ++ p). now rewrite app_assoc. Qed.

Lemma suffix_mem c rest s : suffix rest s -> mem_byte c rest = true -> mem_byte c s = true.
Proof. intros [pre ->] H. rewrite mem_byte_app, H. apply orb_true_r. Qed.

Lemma suffix_nil s : suffix [] s.
Proof. exists s. now rewrite app_nil_r. Qed.

Lemma r_span_spec p s a r : r_span p s = (a, r) ->
  s = a ++ r /\ forallb (fun x => negb (p x)) a = true /\
  match r with [] => True | c :: _ => p c = true end.
Proof.
  revert a r. induction s as [|c t IH]; intros a r H; cbn in H.
  - injection H as <- <-. auto.
  - destruct (p c) eqn:E; [injection H as <- <-; auto|].
    destruct (r_span p t) as [a' r'] eqn:E2. injection H as <- <-.
    destruct (IH a' r' eq_refl) as (-> & Hb & Hh). cbn. rewrite E. auto.
Qed.

Lemma r_span_app p a r :
  forallb (fun x => negb (p x)) a = true -> match r with [] => True | c :: _ => p c = true end ->
  r_span p (a ++ r) = (a, r).
Proof.
  intros Ha Hr. induction a as [|c a IH]; cbn [app].
  - destruct r as [|x r]; [reflexivity|]. cbn. now rewrite Hr.
  - cbn [forallb] in Ha. apply andb_true_iff in Ha as [Hc Ha]. apply negb_true_iff in Hc.
    cbn [r_span]. now rewrite Hc, (IH Ha).
Qed.

Lemma r_span_eq_char x s a r :
  r_span (fun c => Ascii.eqb c x) s = (a, r) ->
  s = a ++ r /\ mem_byte x a = false /\ (mem_byte x s = true -> exists r', r = x :: r').
Proof.
  intros H. destruct (r_span_spec _ _ _ _ H) as (H1 & H2 & H3).
  assert (Ha : mem_byte x a = false) by now apply mem_byte_forallb.
  repeat split; try assumption.
  intros Hm. rewrite H1, mem_byte_app, Ha in Hm. cbn in Hm.
  destruct r as [|c r']; [discriminate|]. apply Ascii.eqb_eq in H3. subst. eauto.
Qed.

Lemma dot_string_go_span s : forall acc,
  dot_string_go s acc =
  let '(l, r) := r_span (fun x => Ascii.eqb x "@") s in
  if existsb r_special l then None else Some (rev acc ++ l, r).
Proof.
  induction s as [|c t IH]; intros acc; cbn [dot_string_go r_span].
  - cbn. now rewrite app_nil_r.
  - destruct (Ascii.eqb c "@"); [cbn; now rewrite app_nil_r|].
    rewrite IH. destruct (r_span _ t) as [l r]. cbn [existsb].
    rewrite <- r_special_eq. destruct (r_special c); [reflexivity|].
    cbn [orb rev]. now rewrite <- app_assoc.
Qed.

Definition dom_stop (c : ascii) : bool := Ascii.eqb c " " || Ascii.eqb c HT || Ascii.eqb c ">".
Definition dom_char (c : ascii) : bool := negb (dom_stop c).

Lemma domain_go_span s : forall acc,
  domain_go s acc = let '(d, r) := r_span dom_stop s in (rev acc ++ d, r).
Proof.
  induction s as [|c t IH]; intros acc; cbn [domain_go r_span].
  - now rewrite app_nil_r.
  - fold (dom_stop c). destruct (dom_stop c); [now rewrite app_nil_r|].
    rewrite IH. destruct (r_span _ t) as [d r]. cbn [rev]. now rewrite <- app_assoc.
Qed.

Lemma quoted_go_suffix : forall s acc lp rest, quoted_go s acc = Some (lp, rest) -> suffix rest s.
Proof.
  induction s as [s IH] using list_len_ind. intros acc lp rest H.
  destruct s as [|c t]; [discriminate|]. cbn [quoted_go] in H.
  destruct (Ascii.eqb c "\").
  - destruct t as [|d t']; [discriminate|]. apply suffix_cons, suffix_cons.
    eapply IH; [cbn; lia|exact H].
  - destruct (Ascii.eqb c """").
    + injection H as _ <-. apply suffix_cons, suffix_refl.
    + apply suffix_cons. eapply IH; [cbn; lia|exact H].
Qed.

Lemma parse_local_part_dot c t : Ascii.eqb c """" = false ->
  parse_local_part (c :: t) =
  let '(l, r) := r_span (fun x => Ascii.eqb x "@") (c :: t) in
  if existsb r_special l then None else Some (l, r).
Proof. intros H. unfold parse_local_part. rewrite H. apply (dot_string_go_span _ []). Qed.

Lemma parse_local_part_suffix s lp r : parse_local_part s = Some (lp, r) -> suffix r s.
Proof.
  destruct s as [|c t]; [intros [= _ <-]; apply suffix_refl|].
  destruct (Ascii.eqb c """") eqn:Eq.
  - unfold parse_local_part. rewrite Eq. intros H. eapply suffix_cons, quoted_go_suffix, H.
  - rewrite (parse_local_part_dot _ _ Eq). destruct (r_span _ _) as [l r0] eqn:Es.
    destruct (r_span_spec _ _ _ _ Es) as [-> _]. destruct (existsb _ l); [discriminate|].
    intros [= _ <-]. now exists l.
Qed.

Lemma has_suffix_snoc s c : has_suffix (s ++ [c]) (bs "@") = Ascii.eqb "@" c.
Proof. unfold has_suffix, is_suffix. rewrite rev_app_distr. apply andb_true_r. Qed.

Lemma parse_mailbox_at s lp dom rest :
  parse_local_part s = Some (lp, "@" :: dom ++ rest) -> lp <> [] ->
  forallb dom_char dom = true -> match rest with [] => True | c :: _ => dom_stop c = true end ->
  parse_mailbox s =
  if has_suffix (lp ++ "@" :: dom) (bs "@") then None else Some (lp ++ "@" :: dom, rest).
Proof.
  intros Hp Hlp Hd Hr. unfold parse_mailbox. rewrite Hp. destruct lp; [contradiction|].
  now rewrite Ascii.eqb_refl, domain_go_span, (r_span_app dom_stop dom rest Hd Hr).
Qed.

Lemma parse_mailbox_suffix s mb rest :
  parse_mailbox s = Some (mb, rest) -> suffix rest s /\ mem_byte "@" s = true.
Proof.
  unfold parse_mailbox. destruct (parse_local_part s) as [[lp r]|] eqn:El; [|discriminate].
  apply parse_local_part_suffix in El.
  destruct lp as [|x lp]; [discriminate|]. destruct r as [|c r']; [discriminate|].
  destruct (Ascii.eqb c "@") eqn:Ec; [|discriminate]. apply Ascii.eqb_eq in Ec. subst c.
  rewrite domain_go_span. destruct (r_span dom_stop r') as [dom rest'] eqn:Ed.
  destruct (r_span_spec _ _ _ _ Ed) as [-> _].
  destruct (has_suffix _ _); [discriminate|]. intros [= _ <-]. split.
  - eapply suffix_trans; [|exact El]. apply suffix_cons. now exists dom.
  - eapply suffix_mem; [exact El|reflexivity].
Qed.

Lemma r_quoted_go : forall s acc lp rest, r_quoted s acc = Some (lp, rest) ->
  quoted_go s acc = Some (lp, rest) /\ exists pre, s = pre ++ rest /\ forallb is_ascii7 pre = true.
Proof.
  induction s as [s IH] using list_len_ind. intros acc lp rest H.
  destruct s as [|c t]; [discriminate|]. cbn [r_quoted] in H. cbn [quoted_go].
  destruct (Ascii.eqb c """") eqn:Eq.
  - apply Ascii.eqb_eq in Eq. subst c. injection H as <- <-. split; [reflexivity|]. now exists [""""].
  - destruct (Ascii.eqb c "\") eqn:Eb.
    + destruct t as [|d t']; [discriminate|].
      destruct (in_range 32 126 d) eqn:Ed; [|discriminate].
      destruct (IH t' ltac:(cbn; lia) _ _ _ H) as [Hq (pre & -> & Ha)]. split; [exact Hq|].
      exists (c :: d :: pre). split; [reflexivity|]. apply Ascii.eqb_eq in Eb. subst c.
      cbn [forallb]. now rewrite (printable_ascii d Ed), Ha.
    + destruct (r_qtext c) eqn:Eqt; [|discriminate].
      destruct (IH t ltac:(cbn; lia) _ _ _ H) as [Hq (pre & -> & Ha)]. split; [exact Hq|].
      exists (c :: pre). split; [reflexivity|]. cbn [forallb]. now rewrite (qtext_ascii c Eqt), Ha.
Qed.

Definition ldh_dot (c : ascii) : bool := Ascii.eqb "." c || (r_alnum c || Ascii.eqb c "-").

Lemma sub_domain_ldh l : r_sub_domain l = true -> forallb (fun x => r_alnum x || Ascii.eqb x "-") l = true.
Proof.
  destruct l as [|c t]; [discriminate|]. unfold r_sub_domain. intros H.
  apply andb_true_iff in H as [_ H]. exact H.
Qed.

Lemma ldh_dot_ok c : ldh_dot c = true -> dom_char c && is_ascii7 c && negb (Ascii.eqb c "@") = true.
Proof. revert c. byteimpl. Qed.
Lemma dcontent_ok c : r_dcontent c = true -> dom_char c && is_ascii7 c = true.
Proof. revert c. byteimpl. Qed.

Lemma alnum_ascii c : (r_alnum c || Ascii.eqb c "-") = true -> is_ascii7 c = true.
Proof.
  intros H. pose proof (ldh_dot_ok c) as Hc. unfold ldh_dot in Hc. rewrite H, orb_true_r in Hc.
  now apply andb_true_iff in Hc as [[_ Hc]%andb_true_iff _].
Qed.

Lemma forallb_rev {A} (f : A -> bool) l : forallb f (rev l) = forallb f l.
Proof.
  induction l as [|x l IH]; [reflexivity|]. cbn [rev forallb].
  rewrite forallb_app, IH. cbn. now rewrite andb_true_r, andb_comm.
Qed.

(* what the implementation's domain scanner needs to know about a valid
   domain: it stops nowhere inside, and the mailbox does not end in '@' *)
Lemma r_domain_shape d : r_domain d = true ->
  forallb dom_char d = true /\ forallb is_ascii7 d = true /\
  forall lp, has_suffix (lp ++ "@" :: d) (bs "@") = false.
Proof.
  unfold r_domain. intros H.
  enough (forallb (fun c => dom_char c && is_ascii7 c) d = true /\
          exists d' c, d = d' ++ [c] /\ c <> "@") as [Hf (d' & c & -> & Hc)].
  { split; [|split]; [eapply forallb_impl; [|exact Hf]; intros x Hx; now apply andb_true_iff in Hx..|].
    intros lp. change (lp ++ "@" :: d' ++ [c]) with (lp ++ ("@" :: d') ++ [c]).
    rewrite app_assoc, has_suffix_snoc.
    apply Ascii.eqb_neq. congruence. }
  apply orb_true_iff in H as [H|H].
  - unfold r_addr_literal in H. destruct d as [|c t]; [discriminate|].
    apply andb_true_iff in H as [Hc H]. apply Ascii.eqb_eq in Hc. subst c.
    destruct (rev t) as [|e body] eqn:Er; [discriminate|].
    apply andb_true_iff in H as [H Hb]. apply andb_true_iff in H as [He _].
    apply Ascii.eqb_eq in He. subst e.
    assert (Et : t = rev body ++ ["]"]) by (rewrite <- (rev_involutive t), Er; reflexivity).
    subst t. split.
    + cbn [forallb]. rewrite forallb_app, forallb_rev.
      now rewrite (forallb_impl _ _ _ dcontent_ok Hb).
    + exists ("[" :: rev body), "]". split; [reflexivity|discriminate].
  - assert (Hl : forallb ldh_dot d = true).
    { unfold ldh_dot. rewrite <- split_byte_forallb. eapply forallb_impl; [|exact H]. apply sub_domain_ldh. }
    apply (forallb_impl _ _ _ ldh_dot_ok) in Hl. split.
    + eapply forallb_impl; [|exact Hl]. intros c Hc. now apply andb_true_iff in Hc.
    + destruct d as [|x d0]; [discriminate|].
      destruct (@exists_last _ (x :: d0)) as [d' [c E]]; [discriminate|].
      exists d', c. split; [exact E|]. rewrite E, forallb_app in Hl.
      apply andb_true_iff in Hl as [_ Hl]. cbn in Hl. rewrite andb_true_r in Hl.
      apply andb_true_iff in Hl as [_ Hl]. now apply negb_true_iff, Ascii.eqb_neq in Hl.
Qed.

Lemma dot_string_ascii l : r_dot_string l = true -> forallb is_ascii7 l = true.
Proof.
  unfold r_dot_string. intros H. apply (forallb_impl _ _ _ atext_ascii).
  rewrite <- split_byte_forallb. eapply forallb_impl; [|exact H].
  intros a Ha. now apply andb_true_iff in Ha.
Qed.

Lemma r_local_at_ref s : mem_byte "@" s = true ->
  match r_local_at s with
  | CV (lp, d) => parse_local_part s = Some (lp, "@" :: d) /\ lp <> [] /\
                  exists pre, s = pre ++ d /\ forallb is_ascii7 pre = true
  | CI => parse_local_part s = None
  | CU => True
  end.
Proof.
  intros Hat. destruct s as [|c t]; [discriminate|]. unfold r_local_at.
  destruct (Ascii.eqb c """") eqn:Eq.
  - unfold parse_local_part. rewrite Eq. apply Ascii.eqb_eq in Eq. subst c.
    destruct (r_quoted t []) as [[[|x lp] [|a d]]|] eqn:Er; try exact I.
    destruct (Ascii.eqb a "@") eqn:Ea; [|exact I]. apply Ascii.eqb_eq in Ea. subst a.
    destruct (r_quoted_go _ _ _ _ Er) as [Hq (pre & -> & Ha)].
    split; [exact Hq|]. split; [discriminate|].
    exists ("""" :: pre ++ ["@"]). split; [cbn; now rewrite <- app_assoc|].
    cbn [forallb]. now rewrite forallb_app, Ha.
  - rewrite (parse_local_part_dot _ _ Eq).
    destruct (r_span _ (c :: t)) as [l r] eqn:Es.
    destruct (r_span_eq_char _ _ _ _ Es) as (E1 & _ & E3). destruct (E3 Hat) as [d ->].
    destruct (existsb r_special l); [reflexivity|].
    destruct (r_dot_string l) eqn:Ed; [|exact I]. cbn [tl].
    split; [reflexivity|]. split; [intros ->; discriminate|].
    exists (l ++ ["@"]). split; [now rewrite E1, <- app_assoc|].
    now rewrite forallb_app, (dot_string_ascii l Ed).
Qed.

(* a whole string as a Mailbox (the decoded AUTH value) *)
Lemma r_mailbox_whole_ref m :
  match r_mailbox_whole m with
  | CV mb => parse_mailbox m = Some (mb, []) /\ forallb is_ascii7 m = true
  | CI => forall mb, parse_mailbox m <> Some (mb, [])
  | CU => True
  end.
Proof.
  unfold r_mailbox_whole. destruct (mem_byte "@" m) eqn:Hat; cbn [negb].
  2:{ intros mb Hp. destruct (parse_mailbox_suffix _ _ _ Hp) as [_ Hat']. congruence. }
  destruct m as [|c t]; [discriminate|]. destruct (Ascii.eqb c "@") eqn:Ec.
  { apply Ascii.eqb_eq in Ec. subst c. discriminate. }
  pose proof (r_local_at_ref _ Hat) as Hl.
  destruct (r_local_at (c :: t)) as [[lp d]| |]; [| |exact I].
  2:{ intros mb. unfold parse_mailbox. now rewrite Hl. }
  destruct Hl as (Hlp & Hne & pre & E & Ha).
  rewrite <- (app_nil_r d) in Hlp. destruct d as [|x d].
  { (* empty domain: the mailbox would end in '@' *)
    intros mb. rewrite (parse_mailbox_at _ _ [] [] Hlp Hne eq_refl I), has_suffix_snoc. discriminate. }
  destruct (r_domain (x :: d)) eqn:Ed; [|exact I].
  destruct (r_domain_shape _ Ed) as (Hdc & Hda & Hlast). split.
  - now rewrite (parse_mailbox_at _ _ _ [] Hlp Hne Hdc I), Hlast.
  - now rewrite E, forallb_app, Ha, Hda.
Qed.

Lemma cut_byte_split c t a r : cut_byte c t = Some (a, r) -> t = a ++ c :: r.
Proof.
  revert a r. induction t as [|x t IH]; intros a r H; [discriminate|]. cbn in H.
  destruct (Ascii.eqb c x) eqn:E.
  - apply Ascii.eqb_eq in E. inversion H; subst. reflexivity.
  - destruct (cut_byte c t) as [[a' r']|]; [|discriminate]. inversion H; subst.
    cbn. f_equal. now apply IH.
Qed.

(* parsePath skips a source route "@a,@b:" *)
Definition skip_route (s : bytes) : option bytes :=
  match s with
  | c :: t => if Ascii.eqb c "@" then match cut_byte ":" t with Some (_, r) => Some r | None => None end
              else Some s
  | [] => Some s
  end.

Lemma skip_route_suffix s s2 : skip_route s = Some s2 -> suffix s2 s.
Proof.
  destruct s as [|c t]; cbn; [intros [= <-]; apply suffix_refl|].
  destruct (Ascii.eqb c "@"); [|intros [= <-]; apply suffix_refl].
  destruct (cut_byte ":" t) as [[a r]|] eqn:Ec; [|discriminate]. intros [= <-].
  apply cut_byte_split in Ec. subst t. apply suffix_cons. exists (a ++ [":"]). now rewrite <- app_assoc.
Qed.

Lemma parse_path_open s :
  parse_path ("<" :: s) =
  match skip_route s with
  | Some s2 => match parse_mailbox s2 with
               | Some (mbox, c :: r') => if Ascii.eqb c ">" then Some (mbox, r') else None
               | _ => None
               end
  | None => None
  end.
Proof.
  unfold parse_path. rewrite Ascii.eqb_refl. fold (skip_route s).
  destruct (skip_route s) as [s2|]; [|reflexivity].
  destruct (parse_mailbox s2) as [[mbox [|c r']]|]; reflexivity.
Qed.

Lemma parse_path_bare r :
  match r with c :: _ => Ascii.eqb c "<" = false | [] => True end ->
  parse_path r = match skip_route r with Some s2 => parse_mailbox s2 | None => None end.
Proof.
  intros H. unfold parse_path. destruct r as [|c t]; [reflexivity|]. rewrite H. cbv beta iota.
  fold (skip_route (c :: t)). destruct (skip_route (c :: t)) as [s2|]; [|reflexivity].
  destruct (parse_mailbox s2) as [[mbox r']|]; reflexivity.
Qed.

Lemma parse_path_some r mb rest :
  parse_path r = Some (mb, rest) ->
  mem_byte "@" r = true /\ (forall s, r = "<" :: s -> mem_byte ">" s = true).
Proof.
  assert (Hm : forall s s2 m r', skip_route s = Some s2 -> parse_mailbox s2 = Some (m, r') ->
                 suffix r' s /\ mem_byte "@" s = true).
  { intros s s2 m r' Hs Hp. apply skip_route_suffix in Hs.
    destruct (parse_mailbox_suffix _ _ _ Hp) as [H1 H2].
    split; [eapply suffix_trans|eapply suffix_mem]; eassumption. }
  destruct r as [|c t]; [discriminate|]. destruct (Ascii.eqb c "<") eqn:Ec.
  - apply Ascii.eqb_eq in Ec. subst c. rewrite parse_path_open.
    destruct (skip_route t) as [s2|] eqn:Es; [|discriminate].
    destruct (parse_mailbox s2) as [[m [|c r']]|] eqn:Ep; try discriminate.
    destruct (Ascii.eqb c ">") eqn:E; [|discriminate]. apply Ascii.eqb_eq in E. subst c. intros _.
    destruct (Hm _ _ _ _ Es Ep) as [H1 H2]. split; [exact H2|].
    intros s [= <-]. eapply suffix_mem; [exact H1|reflexivity].
  - rewrite parse_path_bare by exact Ec.
    destruct (skip_route (c :: t)) as [s2|] eqn:Es; [|discriminate]. intros Hp.
    split; [exact (proj2 (Hm _ _ _ _ Es Hp))|]. intros s [= -> _]. discriminate.
Qed.

Definition parse_path_of (null_ok : bool) (r : bytes) : option (bytes * bytes) :=
  if null_ok then parse_reverse_path r else parse_path r.

Lemma r_path_ref null_ok r :
  match r_path null_ok r with
  | CV (mb, rest) => parse_path_of null_ok r = Some (mb, rest)
  | CI => parse_path_of null_ok r = None
  | CU => True
  end.
Proof.
  unfold r_path, parse_path_of.
  destruct (null_ok && is_prefix (bs "<>") r) eqn:En.
  { apply andb_true_iff in En as [-> Hp]. unfold parse_reverse_path, has_prefix. now rewrite Hp. }
  replace (if null_ok then parse_reverse_path r else parse_path r) with (parse_path r).
  2:{ destruct null_ok; [|reflexivity]. unfold parse_reverse_path, has_prefix.
      cbn [andb] in En. now rewrite En. }
  clear En. pose proof (parse_path_some r) as Hsome.
  destruct (mem_byte "@" r) eqn:Hat; cbn [negb].
  2:{ destruct (parse_path r) as [[mb rest]|]; [|reflexivity]. now destruct (Hsome _ _ eq_refl). }
  destruct r as [|c s]; [discriminate|].
  destruct (Ascii.eqb c "<") eqn:Ec; [|exact I]. cbn [negb]. apply Ascii.eqb_eq in Ec. subst c.
  destruct (mem_byte ">" s) eqn:Hgt; cbn [negb].
  2:{ destruct (parse_path ("<" :: s)) as [[mb rest]|]; [|reflexivity].
      destruct (Hsome _ _ eq_refl) as [_ Hs]. rewrite (Hs s eq_refl) in Hgt. discriminate. }
  clear Hsome. rewrite parse_path_open. destruct s as [|c1 s']; [discriminate|].
  unfold skip_route. destruct (Ascii.eqb c1 "@") eqn:Ec1.
  { (* a source route, or an empty local part *)
    destruct (mem_byte ":" (c1 :: s')) eqn:Hc; [exact I|].
    cbn [mem_byte] in Hc. apply orb_false_iff in Hc as [_ Hc]. now rewrite (cut_byte_none _ _ Hc). }
  pose proof (r_local_at_ref (c1 :: s') Hat) as Hl.
  destruct (r_local_at (c1 :: s')) as [[lp d]| |]; [| |exact I].
  2:{ unfold parse_mailbox. now rewrite Hl. }
  destruct Hl as (Hlp & Hne & _).
  destruct (mem_byte ">" d) eqn:Hgd; cbn [negb].
  2:{ (* the domain scanner would have to stop at a '>' *)
      destruct (r_span dom_stop d) as [dom rest] eqn:Es.
      destruct (r_span_spec _ _ _ _ Es) as (-> & Hd & Hr).
      rewrite (parse_mailbox_at _ _ _ _ Hlp Hne Hd Hr).
      destruct (has_suffix _ _); [reflexivity|]. destruct rest as [|c' r'']; [reflexivity|].
      destruct (Ascii.eqb c' ">") eqn:Ec'; [|reflexivity]. apply Ascii.eqb_eq in Ec'. subst c'.
      rewrite mem_byte_app in Hgd. cbn in Hgd. now rewrite orb_true_r in Hgd. }
  destruct (r_span (fun x => Ascii.eqb x ">") d) as [dom r2] eqn:Es.
  destruct (r_span_eq_char _ _ _ _ Es) as [E1 [_ E3]]. destruct (E3 Hgd) as [r2' ->]. subst d.
  destruct dom as [|x dom].
  { (* empty domain: the mailbox would end in '@' *)
    now rewrite (parse_mailbox_at _ _ [] _ Hlp Hne eq_refl eq_refl), has_suffix_snoc. }
  destruct (r_domain (x :: dom)) eqn:Ed; [|exact I]. cbn [tl].
  destruct (r_domain_shape _ Ed) as (Hdc & _ & Hlast).
  now rewrite (parse_mailbox_at _ _ _ _ Hlp Hne Hdc eq_refl), Hlast.
Qed.

Lemma split_byte_two c s : mem_byte c s = true -> exists h1 h2 l, split_byte c s = h1 :: h2 :: l.
Proof.
  induction s as [|x s IH]; [discriminate|]. cbn [mem_byte]. rewrite split_byte_cons.
  pose proof (split_byte_nonempty c s). destruct (split_byte c s) as [|h r]; [contradiction|].
  destruct (Ascii.eqb c x); [eauto|]. cbn [orb]. intros Hm.
  destruct (IH Hm) as (h1 & h2 & l & E). injection E as -> ->. eauto.
Qed.

Definition tok_val (tok : bytes) : bytes :=
  match snd (r_tok_split tok) with Some v => v | None => [] end.
(* parseArgs takes the token: a bare keyword, or one '=' and a non-empty value *)
Definition tok_ok (tok : bytes) : bool :=
  match snd (r_tok_split tok) with Some v => negb (r_bad_value v) | None => true end.

Definition go_kv (tok : bytes) : option (bytes * bytes) :=
  match split_byte "=" tok with
  | [k; v] => match v with [] => None | _ => Some (to_upper_ascii k, v) end
  | [k] => Some (to_upper_ascii k, [])
  | _ => None
  end.

Lemma parse_args_go_cons a r m :
  parse_args_go (a :: r) m =
  match go_kv a with Some (k, v) => parse_args_go r (assoc_set k v m) | None => None end.
Proof.
  cbn [parse_args_go]. unfold go_kv.
  destruct (split_byte "=" a) as [|k [|v [|w l]]]; try reflexivity.
  destruct v; reflexivity.
Qed.

Lemma go_kv_ref tok :
  go_kv tok = if tok_ok tok then Some (r_tok_key tok, tok_val tok) else None.
Proof.
  unfold go_kv, tok_ok, tok_val, r_tok_key, r_bad_value, r_tok_split.
  change to_upper_ascii with r_upper.
  destruct (r_span (fun x => Ascii.eqb x "=") tok) as [k r] eqn:Es.
  destruct (r_span_eq_char _ _ _ _ Es) as [E1 [E2 _]].
  destruct (r_span_spec _ _ _ _ Es) as (_ & _ & Hh). cbn [fst snd].
  destruct r as [|c v].
  - rewrite app_nil_r in E1. subst k. now rewrite (split_byte_single _ _ E2).
  - apply Ascii.eqb_eq in Hh. subst c. rewrite E1, (split_byte_app _ _ _ E2).
    destruct (mem_byte "=" v) eqn:Ev; rewrite ?orb_true_r, ?orb_false_r; cbn [negb].
    + now destruct (split_byte_two _ _ Ev) as (h1 & h2 & l & ->).
    + rewrite (split_byte_single _ _ Ev). destruct v; reflexivity.
Qed.

Lemma assoc_set_fresh k v m :
  existsb (bytes_eqb k) (map fst m) = false -> assoc_set k v m = m ++ [(k, v)].
Proof.
  induction m as [|[k' v'] m IH]; [reflexivity|]. cbn. intros H.
  apply orb_false_iff in H as [H1 H2]. rewrite H1. f_equal. auto.
Qed.

Definition tok_pair (tok : bytes) : bytes * bytes := (r_tok_key tok, tok_val tok).

Lemma parse_args_go_tokens : forall toks m,
  forallb tok_ok toks = true ->
  r_nodup (map r_tok_key toks) = true ->
  (forall tok, In tok toks -> existsb (bytes_eqb (r_tok_key tok)) (map fst m) = false) ->
  parse_args_go toks m = Some (m ++ map tok_pair toks).
Proof.
  induction toks as [|a r IH]; intros m Hok Hnd Hm.
  - cbn. now rewrite app_nil_r.
  - cbn [forallb] in Hok. apply andb_true_iff in Hok as [Ha Hok].
    cbn [map r_nodup] in Hnd. apply andb_true_iff in Hnd as [Hna Hnd].
    apply negb_true_iff in Hna.
    rewrite parse_args_go_cons, go_kv_ref, Ha.
    rewrite assoc_set_fresh by (apply Hm; now left).
    rewrite IH; try assumption.
    + cbn [map]. now rewrite <- app_assoc.
    + intros tok Ht. rewrite map_app, existsb_app, (Hm tok (or_intror Ht)). cbn.
      rewrite orb_false_r.
      destruct (bytes_eqb (r_tok_key tok) (r_tok_key a)) eqn:E; [|reflexivity].
      apply bytes_eqb_eq in E. exfalso.
      assert (Hex : existsb (bytes_eqb (r_tok_key a)) (map r_tok_key r) = true).
      { apply existsb_exists. exists (r_tok_key tok). split; [now apply in_map|].
        rewrite E. apply bytes_eqb_refl. }
      congruence.
Qed.

Lemma parse_args_go_bad : forall toks m tok,
  In tok toks -> tok_ok tok = false -> parse_args_go toks m = None.
Proof.
  induction toks as [|a r IH]; intros m tok Hin Hb; [contradiction|].
  rewrite parse_args_go_cons, go_kv_ref. destruct Hin as [->|Hin].
  - now rewrite Hb.
  - destruct (tok_ok a); [|reflexivity]. eapply IH; eassumption.
Qed.

Lemma last_skipn {A} n (s : list A) d : skipn n s <> [] -> last (skipn n s) d = last s d.
Proof.
  revert s. induction n as [|n IH]; intros s H; [reflexivity|].
  destruct s as [|x s]; [contradiction|]. cbn [skipn] in *.
  rewrite IH by exact H. destruct s; [destruct n; contradiction|reflexivity].
Qed.

Lemma strip_prefix_skipn p arg a : r_strip_prefix p arg = Some a -> a = skipn (List.length (bs p)) arg.
Proof. unfold r_strip_prefix. destruct (bytes_eqb _ _); [|discriminate]. intros H. now inversion H. Qed.

Lemma r_collect_valid {A} (param : bytes -> cls A) (ok : bytes -> bool) toks : forall ps,
  forallb ok toks = true -> r_collect (map param toks) = CV ps ->
  Forall2 (fun tok p => ok tok = true /\ param tok = CV p) toks ps.
Proof.
  induction toks as [|t toks IH]; intros ps Hok H; [injection H as <-; constructor|].
  cbn [forallb] in Hok. apply andb_true_iff in Hok as [Hok1 Hok].
  cbn [map r_collect] in H. destruct (param t) as [p| |] eqn:Ep;
    destruct (r_collect (map param toks)) as [l| |]; try discriminate.
  injection H as <-. constructor; [now split|now apply IH].
Qed.

Lemma r_collect_invalid {A} (l : list (cls A)) : r_collect l = CI <-> In CI l.
Proof.
  induction l as [|x l IH]; [split; [discriminate|contradiction]|].
  cbn [In]. rewrite <- IH. cbn [r_collect].
  destruct x, (r_collect l); split; intros H; try discriminate; auto; destruct H; discriminate.
Qed.

Lemma forallb_false_ex {A} (f : A -> bool) l : forallb f l = false -> exists x, In x l /\ f x = false.
Proof.
  induction l as [|x l IH]; [discriminate|]. cbn. intros H.
  apply andb_false_iff in H as [H|H]; [exists x; split; [now left|exact H]|].
  destruct (IH H) as [y [Hy Hf]]. exists y. split; [now right|exact Hf].
Qed.

Lemma insert_kv_perm x l : Permutation (insert_kv x l) (x :: l).
Proof.
  induction l as [|y l IH]; cbn; [apply Permutation_refl|].
  destruct (bytes_ltb (fst x) (fst y)); [apply Permutation_refl|].
  eapply Permutation_trans; [apply perm_skip; exact IH|apply perm_swap].
Qed.

Lemma sort_kv_perm l : Permutation (sort_kv l) l.
Proof.
  induction l as [|x l IH]; cbn; [apply perm_nil|].
  eapply Permutation_trans; [apply insert_kv_perm|now apply perm_skip].
Qed.

Lemma r_nodup_NoDup l : r_nodup l = true -> NoDup l.
Proof.
  induction l as [|x l IH]; [constructor|]. cbn [r_nodup]. intros H.
  apply andb_true_iff in H as [H1 H2]. constructor; [|auto].
  intros Hin. apply negb_true_iff in H1.
  assert (existsb (bytes_eqb x) l = true).
  { apply existsb_exists. exists x. split; [exact Hin|apply bytes_eqb_refl]. }
  congruence.
Qed.

Definition refusal_code (code : Z) : Prop := In code [500; 501; 504; 552]%Z.

(* cutPrefixFold, TrimSpace, the path parser and parseArgs take the argument
   apart into a mailbox and (key, value) pairs *)
Definition front_ok (null_ok : bool) (prefix : string) (arg mb : bytes) (args : list (bytes * bytes)) : Prop :=
  exists a rest, cut_prefix_fold arg (bs prefix) = Some a /\
    parse_path_of null_ok (trim_space a) = Some (mb, rest) /\
    parse_args rest = Some args.

Definition front_fails (null_ok : bool) (prefix : string) (arg : bytes) : Prop :=
  cut_prefix_fold arg (bs prefix) = None \/
  exists a, cut_prefix_fold arg (bs prefix) = Some a /\
    (parse_path_of null_ok (trim_space a) = None \/
     exists mb rest, parse_path_of null_ok (trim_space a) = Some (mb, rest) /\ parse_args rest = None).

(* The parameter switch of a handler is a loop of [step] over the sorted
   (key, value) pairs of parseArgs, on a state [ST] (the options, for MAIL
   with the binarymime flag).  [agrees] is what the reference's verdict on a
   token says about [step] on the token's pair. *)
Section Switch.
  Context {P ST : Type}.
  Variable step : bytes -> bytes -> ST -> ST + rfail.
  Variable param : bytes -> cls P.
  Variable sapply : ST -> P -> ST.
  Variable key : P -> bytes.

  Fixpoint loop (args : list (bytes * bytes)) (st : ST) : ST + rfail :=
    match args with
    | [] => inl st
    | (k, v) :: r => match step k v st with inl st' => loop r st' | inr f => inr f end
    end.

  Definition agrees (k v : bytes) (r : cls P) : Prop := forall st,
    match r with
    | CV p => key p = k /\ step k v st = inl (sapply st p)
    | CI => exists f, step k v st = inr f
    | CU => True
    end.

  Hypothesis param_ref : forall tok, tok_ok tok = true ->
    agrees (r_tok_key tok) (tok_val tok) (param tok).
  Hypothesis sapply_comm : forall st p q, key p <> key q ->
    sapply (sapply st p) q = sapply (sapply st q) p.
  Hypothesis step_code : forall k v st code ec msg,
    step k v st = inr (code, ec, msg) -> refusal_code code.

  (* updates with distinct keys commute: the order of the sort does not matter *)
  Lemma fold_perm : forall l l', Permutation l l' -> NoDup (map key l) ->
    forall st, fold_left sapply l st = fold_left sapply l' st.
  Proof.
    induction 1 as [|x l l' Hp IH|x y l|l l' l'' H1 IH1 H2 IH2]; intros Hnd st.
    - reflexivity.
    - cbn. inversion Hnd; subst. now apply IH.
    - cbn. inversion Hnd as [|? ? Hx Hnd']; subst. f_equal. apply sapply_comm.
      intros E. apply Hx. cbn. left. now symmetry.
    - rewrite IH1 by assumption. apply IH2.
      eapply Permutation_NoDup; [apply Permutation_map; exact H1|exact Hnd].
  Qed.

  Definition tok_param (tok : bytes) (p : P) : Prop := tok_ok tok = true /\ param tok = CV p.

  Lemma tok_param_step tok p st : tok_param tok p ->
    key p = r_tok_key tok /\ step (r_tok_key tok) (tok_val tok) st = inl (sapply st p).
  Proof. intros [Hok Hp]. pose proof (param_ref tok Hok st) as Ha. now rewrite Hp in Ha. Qed.

  Lemma loop_toks toks ps : Forall2 tok_param toks ps ->
    forall st, loop (map tok_pair toks) st = inl (fold_left sapply ps st).
  Proof.
    induction 1 as [|tok p toks ps Hp _ IH]; intros st; [reflexivity|].
    cbn [map loop tok_pair fold_left]. now rewrite (proj2 (tok_param_step _ _ st Hp)).
  Qed.

  Lemma keys_toks toks ps (st : ST) : Forall2 tok_param toks ps -> map key ps = map r_tok_key toks.
  Proof.
    induction 1 as [|tok p toks ps Hp _ IH]; [reflexivity|].
    cbn [map]. now rewrite IH, (proj1 (tok_param_step _ _ st Hp)).
  Qed.

  Lemma loop_valid toks ps st :
    Forall2 tok_param toks ps -> r_nodup (map r_tok_key toks) = true ->
    loop (sort_kv (map tok_pair toks)) st = inl (fold_left sapply ps st).
  Proof.
    intros H Hnd.
    (* the sorted pairs are the pairs of the tokens in some other order *)
    destruct (Permutation_map_inv _ _ (sort_kv_perm (map tok_pair toks))) as (toks' & -> & Hp).
    destruct (Permutation_Forall2 Hp H) as (ps' & Hps & H').
    rewrite (loop_toks _ _ H'). f_equal. symmetry. apply fold_perm; [exact Hps|].
    rewrite (keys_toks _ _ st H). now apply r_nodup_NoDup.
  Qed.

  Lemma loop_invalid toks tok st :
    In tok toks -> tok_ok tok = true -> param tok = CI ->
    exists code ec msg,
      loop (sort_kv (map tok_pair toks)) st = inr (code, ec, msg) /\ refusal_code code.
  Proof.
    intros Hin Hok Hci. pose proof (param_ref tok Hok) as Ha. rewrite Hci in Ha.
    assert (Hin' : In (tok_pair tok) (sort_kv (map tok_pair toks))).
    { eapply Permutation_in; [apply Permutation_sym, sort_kv_perm|]. now apply in_map. }
    revert st. induction (sort_kv (map tok_pair toks)) as [|[k v] r IH]; intros st; [contradiction|].
    cbn [loop]. destruct Hin' as [E|Hin'].
    - injection E as -> ->. destruct (Ha st) as [[[code ec] msg] E]. rewrite E.
      exists code, ec, msg. split; [reflexivity|]. now apply step_code in E.
    - destruct (step k v st) as [st'|[[code ec] msg]] eqn:E; [now apply IH|].
      exists code, ec, msg. split; [reflexivity|]. now apply step_code in E.
  Qed.

  (* The whole of a handler up to its callback: the argument is taken apart,
     then the switch runs over the sorted pairs.  [apply] / [zero] are the
     reference's options, which the handler's state [ST] contains. *)
  Section Front.
    Context {O : Type}.
    Variables (null_ok : bool) (prefix : string) (apply : O -> P -> O) (zero : O).
    Hypothesis prefix_plain : no_SK (bs prefix) = true /\ map up1 (bs prefix) = bs prefix.
    Hypothesis param_tok_ok : forall tok, tok_ok tok = false -> param tok = CI.

    Theorem front_switch_ref arg :
      match classify_gen null_ok prefix param apply zero arg with
      | Valid mb o => exists args ps,
          front_ok null_ok prefix arg mb args /\ o = fold_left apply ps zero /\
          forall st, loop (sort_kv args) st = inl (fold_left sapply ps st)
      | Invalid => front_fails null_ok prefix arg \/ exists mb args,
          front_ok null_ok prefix arg mb args /\
          forall st, exists code ec msg, loop (sort_kv args) st = inr (code, ec, msg) /\ refusal_code code
      | Unspecified => True
      end.
    Proof.
      unfold classify_gen, front_ok, front_fails.
      rewrite (cut_prefix_fold_ref prefix arg (proj1 prefix_plain) (proj2 prefix_plain)).
      assert (Hnil : parse_path_of null_ok (trim_space []) = None) by now destruct null_ok.
      destruct (r_first_last_vchar arg) eqn:Efl; cbn [negb].
      2:{ destruct arg; [|exact I]. left.
          destruct (r_strip_prefix prefix []) as [a|] eqn:E; [right|now left].
          exists a. split; [reflexivity|]. left.
          rewrite (strip_prefix_skipn _ _ _ E). now destruct (List.length (bs prefix)). }
      destruct (r_strip_prefix prefix arg) as [a|] eqn:Esp; [|now left; left].
      destruct a as [|c a']; [left; right; exists []; auto|].
      destruct (r_vchar c) eqn:Ec; [|exact I]. cbn [negb].
      (* the text after the prefix begins and ends with a visible character:
         TrimSpace leaves it alone *)
      assert (Hfl : r_first_last_vchar (c :: a') = true).
      { cbn [r_first_last_vchar]. rewrite Ec. cbn [andb].
        rewrite (strip_prefix_skipn _ _ _ Esp), last_skipn.
        + destruct arg; [discriminate|]. cbn [r_first_last_vchar] in Efl.
          apply andb_true_iff in Efl as [_ Efl]. exact Efl.
        + rewrite <- (strip_prefix_skipn _ _ _ Esp). discriminate. }
      apply trim_space_id in Hfl.
      pose proof (r_path_ref null_ok (c :: a')) as Ep.
      destruct (r_path null_ok (c :: a')) as [[mb rest]| |]; [| |exact I].
      2:{ left. right. exists (c :: a'). rewrite Hfl. auto. }
      destruct (r_tokens rest) as [toks| |] eqn:Et; [| |exact I].
      2:{ unfold r_tokens in Et. destruct rest as [|x ps]; [discriminate|].
          destruct (negb (Ascii.eqb x " ")); [discriminate|]. destruct (r_other_ws ps); [discriminate|].
          destruct (forallb r_nonempty (split_byte " " ps)); discriminate. }
      apply fields_tokens in Et.
      destruct (r_nodup (map r_tok_key toks)) eqn:End; [|exact I]. cbn [negb].
      destruct (forallb tok_ok toks) eqn:Eok.
      2:{ (* parseArgs refuses a token: the reference calls it Invalid *)
          destruct (forallb_false_ex _ _ Eok) as (t & Ht & Hbad).
          replace (r_collect (map param toks)) with (@CI (list P)).
          2:{ symmetry. apply r_collect_invalid. rewrite <- (param_tok_ok t Hbad). now apply in_map. }
          left. right. exists (c :: a'). split; [reflexivity|]. right. exists mb, rest.
          split; [now rewrite Hfl|]. unfold parse_args. rewrite Et. eapply parse_args_go_bad; eassumption. }
      assert (Hf : exists a rest0, Some (c :: a') = Some a /\
                parse_path_of null_ok (trim_space a) = Some (mb, rest0) /\
                parse_args rest0 = Some (map tok_pair toks)).
      { exists (c :: a'), rest. repeat split; [now rewrite Hfl|]. unfold parse_args. rewrite Et.
        now apply (parse_args_go_tokens toks []). }
      destruct (r_collect (map param toks)) as [ps| |] eqn:Ecl; [| |exact I].
      - exists (map tok_pair toks), ps. apply (r_collect_valid _ _ _ _ Eok) in Ecl.
        split; [exact Hf|]. split; [reflexivity|]. intros st. now apply loop_valid.
      - apply r_collect_invalid, in_map_iff in Ecl as (tok & Hci & Hin).
        right. exists mb, (map tok_pair toks). split; [exact Hf|]. intros st.
        rewrite forallb_forall in Eok. exact (loop_invalid toks tok st Hin (Eok _ Hin) Hci).
    Qed.
  End Front.
End Switch.

(* a refused command: one reply, whose code is 5xx, and no callback *)
Definition refused (evs : list event) : Prop :=
  exists code ec msg rest,
    evs = [reply code ec msg] /\ refusal_code code /\ reply code ec msg = EWire ("5" :: rest).

Lemma refused_reply code ec msg : refusal_code code -> refused [reply code ec msg].
Proof.
  intros H. exists code, ec, msg. enough (exists rest, reply code ec msg = EWire ("5" :: rest)) as [rest Hr] by eauto.
  unfold reply, write_response.
  pose proof (split_byte_nonempty LF (join [LF] [msg])) as Hn.
  destruct (split_byte LF (join [LF] [msg])) as [|l ls]; [contradiction|].
  unfold refusal_code in H. cbn [In] in H.
  destruct H as [<-|[<-|[<-|[<-|[]]]]];
    destruct ls as [|l2 ls]; cbn [reply_lines flat_map];
    destruct (ec_eqb _ no_ec); cbn; eauto.
Qed.

Lemma r_hexval_hexU c : r_hexval c = hexU c.
Proof. reflexivity. Qed.

Lemma hexU_lt c a : hexU c = Some a -> (a < 16)%N.
Proof.
  unfold hexU, is_digit, in_range. intros H.
  destruct ((48 <=? byte_n c)%N && (byte_n c <=? 57)%N) eqn:E1.
  - inversion H. lia.
  - destruct ((65 <=? byte_n c)%N && (byte_n c <=? 70)%N) eqn:E2; [|discriminate]. inversion H. lia.
Qed.

(* the shortcut for a value without '+' changes nothing *)
Lemma decode_xtext_is_go v : decode_xtext v = decode_xtext_go v.
Proof.
  unfold decode_xtext, contains_byte. destruct (mem_byte "+" v) eqn:E; [reflexivity|].
  symmetry. now apply decode_xtext_go_noplus.
Qed.

(* Where both decoders succeed they agree.  They differ in two ways only: the
   reference takes any "+HH" where the implementation wants a value below
   128, and the implementation copies any octet but '+' where the reference
   wants an xchar. *)
Lemma xtext_both v :
  match r_xtext v, decode_xtext v with
  | Some d, Some d' => d = d'
  | Some d, None => forallb is_ascii7 d = false
  | None, Some d' => exists c, In c v /\ In c d' /\ Ascii.eqb c "+" = false /\ r_xchar c = false
  | None, None => True
  end.
Proof.
  rewrite decode_xtext_is_go. induction v as [v IH] using list_len_ind.
  destruct v as [|c t]; [reflexivity|]. cbn [r_xtext decode_xtext_go].
  destruct (Ascii.eqb c "+") eqn:Ep.
  - destruct t as [|h1 [|h2 t']]; try exact I. rewrite (r_hexval_hexU h1), (r_hexval_hexU h2).
    destruct (hexU h1) as [a|] eqn:E1; [|exact I]. destruct (hexU h2) as [b0|] eqn:E2; [|exact I].
    pose proof (hexU_lt _ _ E1). pose proof (hexU_lt _ _ E2). specialize (IH t' ltac:(cbn; lia)).
    destruct (a * 16 + b0 <? 128)%N eqn:El.
    + destruct (r_xtext t') as [d|], (decode_xtext_go t') as [d'|]; cbn [option_map forallb];
        [now subst|now rewrite IH, andb_false_r| |exact I].
      destruct IH as (x & H1 & H2 & H3). exists x. cbn [In]. auto 6.
    + destruct (r_xtext t') as [d|]; [|exact I]. cbn [option_map forallb].
      unfold is_ascii7. now rewrite byte_n_n_byte, El by lia.
  - specialize (IH t ltac:(cbn; lia)). destruct (r_xchar c) eqn:Ex.
    + destruct (r_xtext t) as [d|], (decode_xtext_go t) as [d'|]; cbn [option_map forallb];
        [now subst|now rewrite IH, andb_false_r| |exact I].
      destruct IH as (x & H1 & H2 & H3). exists x. cbn [In]. auto.
    + destruct (decode_xtext_go t) as [d'|]; [|exact I]. exists c. cbn [In]. auto.
Qed.

Lemma r_xtext_decode v d :
  r_xtext v = Some d -> forallb is_ascii7 d = true -> decode_xtext v = Some d.
Proof.
  intros H Ha. pose proof (xtext_both v) as B. rewrite H in B.
  destruct (decode_xtext v); [now subst|congruence].
Qed.

Lemma decode_xtext_ref_v v d :
  forallb xv_char v = true -> decode_xtext v = Some d -> r_xtext v = Some d.
Proof.
  intros Hv H. pose proof (xtext_both v) as B. rewrite H in B.
  destruct (r_xtext v); [now subst|]. destruct B as (c & Hc & _ & Ep & Hx).
  rewrite forallb_forall in Hv. apply Hv, andb_true_iff in Hc as [H1 H2].
  unfold r_xchar in Hx. now rewrite H1, Ep, H2 in Hx.
Qed.

Definition mp_key (p : mparam) : bytes :=
  match p with
  | MSize _ => bs "SIZE" | MBody _ => bs "BODY" | MUtf8 => bs "SMTPUTF8"
  | MReqTls => bs "REQUIRETLS" | MRet _ => bs "RET" | MEnvid _ => bs "ENVID" | MAuth _ => bs "AUTH"
  end.
Definition mp_bin (p : mparam) : bool :=
  match p with MBody b => bytes_eqb b (bs "BINARYMIME") | _ => false end.

(* handleMail's switch carries the options and the binarymime flag *)
Definition mail_step (cfg : config) (k v : bytes) (st : mail_opts * bool) : (mail_opts * bool) + rfail :=
  mail_param cfg k v (fst st) (snd st).
Definition mstate_apply (st : mail_opts * bool) (p : mparam) : mail_opts * bool :=
  (mparam_apply (fst st) p, if mp_bin p then true else snd st).
Definition mail_agrees (cfg : config) := agrees (mail_step cfg) mstate_apply mp_key.

(* [mail_param] / [rcpt_param] at a known key: select its case *)
Ltac param_case :=
  cbv beta zeta iota delta [mail_step mstate_apply fst snd mail_param rcpt_param];
  simpl (bytes_eqb (bs _) _); cbv iota.

Lemma mail_param_unknown cfg k v o bm :
  bytes_eqb k (bs "SIZE") = false -> bytes_eqb k (bs "SMTPUTF8") = false ->
  bytes_eqb k (bs "REQUIRETLS") = false -> bytes_eqb k (bs "BODY") = false ->
  bytes_eqb k (bs "RET") = false -> bytes_eqb k (bs "ENVID") = false ->
  bytes_eqb k (bs "AUTH") = false ->
  mail_param cfg k v o bm = inr (500, (5, 5, 4), bs "Unknown MAIL FROM argument")%Z.
Proof. intros H1 H2 H3 H4 H5 H6 H7. unfold mail_param. now rewrite H1, H2, H3, H4, H5, H6, H7. Qed.

Lemma mail_param_empty cfg K o bm :
  bytes_eqb K (bs "SMTPUTF8") = false -> bytes_eqb K (bs "REQUIRETLS") = false ->
  exists f, mail_param cfg K [] o bm = inr f.
Proof.
  intros H1 H2. unfold mail_param. rewrite H1, H2.
  destruct (bytes_eqb K (bs "SIZE")); [cbn; eauto|].
  destruct (bytes_eqb K (bs "BODY")); [cbn; eauto|].
  destruct (bytes_eqb K (bs "RET")); [destruct (cf_dsn cfg); cbn; eauto|].
  destruct (bytes_eqb K (bs "ENVID")); [destruct (cf_dsn cfg); cbn; eauto|].
  destruct (bytes_eqb K (bs "AUTH")); cbn; eauto.
Qed.

Lemma r_is_eq s k : r_is s k = true -> r_upper s = bs k.
Proof. unfold r_is. apply bytes_eqb_eq. Qed.

Lemma bad_value_false val : r_bad_value val = false -> mem_byte "=" val = false /\ val <> [].
Proof.
  unfold r_bad_value. intros H. apply orb_false_iff in H as [H1 H2]. split; [exact H2|].
  intros ->. discriminate.
Qed.

(* upper-casing keeps esmtp-keywords and nothing else: a token whose keyword
   is not one has no known key *)
Lemma alnum_up c : Bool.eqb (r_alnum (r_up c) || Ascii.eqb (r_up c) "-") (r_alnum c || Ascii.eqb c "-") = true.
Proof. revert c. bytecase. Qed.
Lemma alnum_up1 c : Bool.eqb (r_alnum (r_up c)) (r_alnum c) = true.
Proof. revert c. bytecase. Qed.

Lemma keyword_up k : r_keyword (r_upper k) = r_keyword k.
Proof.
  destruct k as [|c t]; [reflexivity|]. unfold r_keyword, r_upper. cbn [map].
  rewrite (eqb_prop _ _ (alnum_up1 c)). f_equal.
  induction t as [|x t IH]; [reflexivity|]. cbn [map forallb].
  now rewrite (eqb_prop _ _ (alnum_up x)), IH.
Qed.

Lemma nonkw k (K : string) :
  r_keyword k = false -> r_keyword (bs K) = true -> bytes_eqb (r_upper k) (bs K) = false.
Proof.
  intros H1 H2. destruct (bytes_eqb (r_upper k) (bs K)) eqn:E; [|reflexivity].
  apply bytes_eqb_eq in E. rewrite <- E, keyword_up in H2. congruence.
Qed.

Lemma parse_uint_digits bits v :
  parse_uint bits v =
  if r_nonempty v && forallb r_digit v
  then (if (dec_value v <? 2 ^ bits)%N then POk (dec_value v) else PRange) else PSyntax.
Proof. now destruct v. Qed.

Lemma size_ref cfg v : mail_agrees cfg (bs "SIZE") v (r_size cfg v).
Proof.
  intros [o bm]. param_case. rewrite parse_uint_digits. unfold r_size.
  destruct (r_nonempty v && forallb r_digit v); cbn [negb]; [|eauto].
  destruct (20 <? List.length v)%nat; [exact I|].
  destruct (dec_value v <? 2 ^ 63)%N; [|exact I]. cbn [negb].
  destruct ((0 <? cf_max_bytes cfg)%Z && _); [exact I|].
  now split.
Qed.

Lemma body_ref cfg v : forallb is_ascii7 v = true -> mail_agrees cfg (bs "BODY") v (r_body cfg v).
Proof.
  intros Hv [o bm]. param_case. rewrite (ascii_upper _ Hv). unfold r_body, r_is.
  destruct (bytes_eqb (r_upper v) (bs "7BIT") || bytes_eqb (r_upper v) (bs "8BITMIME")) eqn:E78.
  - split; [reflexivity|].
    apply orb_true_iff in E78 as [E|E]; apply bytes_eqb_eq in E; now rewrite E.
  - destruct (bytes_eqb (r_upper v) (bs "BINARYMIME")) eqn:Eb; [destruct (cf_binarymime cfg)|]; [|eauto..].
    split; [reflexivity|]. cbn [mp_bin]. now rewrite Eb.
Qed.

Lemma ret_ref cfg v : forallb is_ascii7 v = true ->
  mail_agrees cfg (bs "RET") v (if cf_dsn cfg then r_ret v else CI).
Proof.
  intros Hv [o bm]. param_case. destruct (cf_dsn cfg); cbn [negb]; [|eauto].
  rewrite (ascii_upper _ Hv). unfold r_ret, r_is.
  destruct (bytes_eqb (r_upper v) (bs "FULL") || bytes_eqb (r_upper v) (bs "HDRS")); [|eauto].
  now split.
Qed.

(* SMTPUTF8 and REQUIRETLS are flags: with a value they are refused
   (RefGrammar.v, J10) *)
Lemma smtputf8_ref cfg v : mail_agrees cfg (bs "SMTPUTF8") v
  match v with [] => if cf_utf8 cfg then CV MUtf8 else CI | _ => CI end.
Proof.
  intros [o bm]. param_case. destruct v, (cf_utf8 cfg); cbn [negb]; [|eauto..].
  now split.
Qed.

Lemma requiretls_ref cfg v : mail_agrees cfg (bs "REQUIRETLS") v
  match v with [] => if cf_requiretls cfg then CV MReqTls else CI | _ => CI end.
Proof.
  intros [o bm]. param_case. destruct v, (cf_requiretls cfg); cbn [negb]; [|eauto..].
  now split.
Qed.

Lemma envid_ref cfg v : forallb xv_char v = true ->
  mail_agrees cfg (bs "ENVID") v (if cf_dsn cfg then r_envid v else CI).
Proof.
  intros Hxv [o bm]. param_case. destruct (cf_dsn cfg); cbn [negb]; [|eauto].
  pose proof (decode_xtext_ref_v v) as Hd. unfold r_envid.
  destruct (r_xtext v) as [[|x d]|] eqn:Ex.
  - destruct (decode_xtext v) as [d'|]; [injection (Hd d' Hxv eq_refl) as <-|]; eauto.
  - change (r_printable (x :: d)) with (is_printable_ascii (x :: d)).
    destruct (is_printable_ascii (x :: d)) eqn:Epr; cbn [negb].
    + destruct (100 <? List.length v)%nat; [exact I|].
      rewrite (r_xtext_decode _ _ Ex) by (eapply forallb_impl; [apply printable_ascii|exact Epr]).
      rewrite Epr. now split.
    + destruct (decode_xtext v) as [d'|]; [injection (Hd d' Hxv eq_refl) as <-; rewrite Epr|]; eauto.
  - destruct (decode_xtext v) as [d'|]; [discriminate (Hd d' Hxv eq_refl)|eauto].
Qed.

Lemma auth_ref cfg v : forallb xv_char v = true -> mail_agrees cfg (bs "AUTH") v (r_auth v).
Proof.
  intros Hxv [o bm]. param_case. pose proof (decode_xtext_ref_v v) as Hd. unfold r_auth.
  destruct (r_xtext v) as [[|x d]|] eqn:Ex.
  - destruct (decode_xtext v) as [d'|]; [injection (Hd d' Hxv eq_refl) as <-|]; eauto.
  - destruct (bytes_eqb (x :: d) (bs "<>")) eqn:Enull.
    { rewrite (r_xtext_decode _ _ Ex) by (apply bytes_eqb_eq in Enull; now rewrite Enull).
      rewrite Enull. now split. }
    pose proof (r_mailbox_whole_ref (x :: d)) as Hpm.
    destruct (r_mailbox_whole (x :: d)) as [mb| |]; [| |exact I].
    + destruct Hpm as [Hpm Hasc]. rewrite (r_xtext_decode _ _ Ex Hasc), Enull, Hpm.
      now split.
    + destruct (decode_xtext v) as [d'|]; [injection (Hd d' Hxv eq_refl) as <-; rewrite Enull|eauto].
      destruct (parse_mailbox (x :: d)) as [[mb [|c r]]|]; [destruct (Hpm mb eq_refl)|eauto|eauto].
  - destruct (decode_xtext v) as [d'|]; [discriminate (Hd d' Hxv eq_refl)|eauto].
Qed.

(* One MAIL parameter token that parseArgs takes.  A keyword that is not an
   esmtp-keyword (non-ASCII octets included) is no known key after ASCII
   upper-casing; SMTPUTF8 / REQUIRETLS with a value are refused by their own
   cases (J10). *)
Lemma mail_param_ref cfg tok : tok_ok tok = true ->
  mail_agrees cfg (r_tok_key tok) (tok_val tok) (r_mail_param cfg tok).
Proof.
  unfold r_mail_param, tok_ok, r_tok_key, tok_val.
  destruct (r_tok_split tok) as [k v]. cbn [fst snd]. intros Hok.
  destruct (r_keyword k) eqn:Ek; cbn [negb].
  2:{ intros [o bm]. unfold mail_step. rewrite mail_param_unknown; [eauto|..]; apply nonkw; (exact Ek || reflexivity). }
  destruct v as [val|].
  - apply negb_true_iff in Hok. rewrite Hok.
    destruct (r_esmtp_value val) eqn:Ev; [|exact (fun _ => I)]. cbn [negb].
    apply andb_true_iff in Ev as [_ Hxv].
    assert (Hva : forallb is_ascii7 val = true) by (eapply forallb_impl; [apply xv_ascii|exact Hxv]).
    destruct (r_is k "SIZE") eqn:E1; [rewrite (r_is_eq _ _ E1); apply size_ref|].
    destruct (r_is k "BODY") eqn:E2; [rewrite (r_is_eq _ _ E2); now apply body_ref|].
    destruct (r_is k "RET") eqn:E3; [rewrite (r_is_eq _ _ E3); now apply ret_ref|].
    destruct (r_is k "ENVID") eqn:E4; [rewrite (r_is_eq _ _ E4); now apply envid_ref|].
    destruct (r_is k "AUTH") eqn:E5; [rewrite (r_is_eq _ _ E5); now apply auth_ref|].
    destruct (bad_value_false _ Hok) as [_ Hne].
    destruct (r_is k "SMTPUTF8") eqn:F1.
    { rewrite (r_is_eq _ _ F1). pose proof (smtputf8_ref cfg val) as H. now destruct val. }
    destruct (r_is k "REQUIRETLS") eqn:F2.
    { rewrite (r_is_eq _ _ F2). pose proof (requiretls_ref cfg val) as H. now destruct val. }
    intros [o bm]. unfold mail_step. rewrite mail_param_unknown; eauto.
  - destruct (r_is k "SMTPUTF8") eqn:F1; [rewrite (r_is_eq _ _ F1); apply (smtputf8_ref cfg [])|].
    destruct (r_is k "REQUIRETLS") eqn:F2; [rewrite (r_is_eq _ _ F2); apply (requiretls_ref cfg [])|].
    intros [o bm]. now apply mail_param_empty.
Qed.

(* parseArgs refuses "KEY=" and a second '=': so does the reference *)
Lemma mail_param_tok_ok cfg tok : tok_ok tok = false -> r_mail_param cfg tok = CI.
Proof.
  unfold r_mail_param, tok_ok. destruct (r_tok_split tok) as [k [val|]]; cbn [snd]; [|discriminate].
  intros H. apply negb_false_iff in H. rewrite H. now destruct (r_keyword k).
Qed.

Lemma mstate_comm st p q : mp_key p <> mp_key q ->
  mstate_apply (mstate_apply st p) q = mstate_apply (mstate_apply st q) p.
Proof.
  destruct st as [o bm]. unfold mstate_apply.
  destruct p, q; cbn; intros H; congruence || reflexivity.
Qed.

Lemma fst_fold_mstate l : forall st,
  fst (fold_left mstate_apply l st) = fold_left mparam_apply l (fst st).
Proof. induction l as [|p l IH]; intros st; [reflexivity|]. cbn [fold_left]. now rewrite IH. Qed.

Lemma mail_step_code cfg k v st code ec msg :
  mail_step cfg k v st = inr (code, ec, msg) -> refusal_code code.
Proof.
  unfold mail_step, mail_param, refusal_code. intros H.
  repeat match type of H with
         | context [if ?b then _ else _] => destruct b
         | context [match ?x with _ => _ end] => destruct x
         end; inversion H; cbn; tauto.
Qed.

(* [mail_params] is the loop; on a failure it also returns the flag *)
Lemma mail_params_loop cfg args : forall o bm,
  match loop (mail_step cfg) args (o, bm) with
  | inl st => mail_params cfg args o bm = inl st
  | inr f => exists bm', mail_params cfg args o bm = inr (f, bm')
  end.
Proof.
  induction args as [|[k v] r IH]; intros o bm; [reflexivity|].
  cbn [loop mail_params]. unfold mail_step at 1. cbn [fst snd].
  destruct (mail_param cfg k v o bm) as [[o' bm']|f]; [apply IH|eauto].
Qed.

Lemma from_prefix_ok : no_SK (bs "FROM:") = true /\ map up1 (bs "FROM:") = bs "FROM:".
Proof. split; reflexivity. Qed.

Definition mail_ok_events (from : bytes) (opts : mail_opts) (r : berr) : list event :=
  [EMail from opts r;
   match r with
   | BNil => reply 250 (2, 0, 0)%Z (bs "Roger, accepting mail from <" ++ from ++ bs ">")
   | _ => reply_err 451 (4, 0, 0)%Z r
   end].

Theorem handle_mail_ref cfg c arg :
  c_helo c <> [] -> c_bdat c = None ->
  match classify_mail cfg arg with
  | Valid from opts => c_session c = true ->
      snd (handle_mail cfg c arg) = mail_ok_events from opts (fst (pop BNil (be_mail (c_be c))))
  | Invalid => refused (snd (handle_mail cfg c arg))
  | Unspecified => True
  end.
Proof.
  intros Hh Hb. unfold handle_mail. destruct (c_helo c) as [|h0 h]; [contradiction|]. rewrite Hb.
  pose proof (front_switch_ref (mail_step cfg) (r_mail_param cfg) mstate_apply mp_key (mail_param_ref cfg)
                mstate_comm (mail_step_code cfg) true "FROM:" mparam_apply mo_zero
                from_prefix_ok (mail_param_tok_ok cfg) arg) as F.
  pose proof (fun args => mail_params_loop cfg (sort_kv args) mo_zero false) as Hm.
  unfold classify_mail. destruct (classify_gen _ _ _ _ _ arg) as [from opts| |]; [| |exact I].
  - destruct F as (args & ps & (a & rest & -> & E2 & E3) & -> & Hl). intros Hs.
    cbn [parse_path_of] in E2. rewrite E2, E3. specialize (Hm args). rewrite Hl in Hm.
    rewrite Hm, (surjective_pairing (fold_left mstate_apply ps (mo_zero, false))), fst_fold_mstate.
    destruct c as [t ph be helo sess errs bmime fr rc da cl tls bd rcv]. cbn in Hs. subst sess.
    unfold upd_binarymime, pop_mail. cbn [c_session negb c_be fst].
    destruct (pop BNil (be_mail be)) as [r restq]. cbn [fst]. now destruct r.
  - (* refused at the prefix, the path or parseArgs; or by the switch *)
    destruct F as [[->|(a & -> & [E2|(mb & rest & E2 & E3)])]|F]; cbn [parse_path_of] in *.
    + apply refused_reply. cbn. tauto.
    + rewrite E2. apply refused_reply. cbn. tauto.
    + rewrite E2, E3. apply refused_reply. cbn. tauto.
    + destruct F as (mb & args & (a & rest & -> & E2 & E3) & Hl).
      cbn [parse_path_of] in E2. rewrite E2, E3. specialize (Hm args).
      destruct (Hl (mo_zero, false)) as (code & ec & msg & Hl' & Hcode).
      rewrite Hl' in Hm. destruct Hm as [bm' ->]. now apply refused_reply.
Qed.

Lemma take_hex_spec : forall t h r, take_hex t = (h, r) -> t = h ++ r /\ forallb is_hexU h = true.
Proof.
  induction t as [|c t IH]; intros h r H; cbn [take_hex] in H.
  - inversion H. split; reflexivity.
  - destruct (is_hexU c) eqn:E.
    + destruct (take_hex t) as [h' r'] eqn:Et. inversion H; subst.
      destruct (IH h' r eq_refl) as [-> Hh]. split; [reflexivity|]. cbn. now rewrite E, Hh.
    + inversion H. split; reflexivity.
Qed.

Lemma match_embedded_inv s h r :
  match_embedded s = Some (h, r) ->
  s = "\" :: "x" :: "{" :: h ++ "}" :: r /\ h <> [] /\ forallb is_hexU h = true.
Proof.
  unfold match_embedded. destruct s as [|c0 [|c1 [|c2 t]]]; try discriminate.
  destruct (Ascii.eqb c0 "\") eqn:E0; [|discriminate].
  destruct (Ascii.eqb c1 "x") eqn:E1; [|discriminate].
  destruct (Ascii.eqb c2 "{") eqn:E2; [|discriminate]. cbn [andb].
  apply Ascii.eqb_eq in E0, E1, E2. subst.
  destruct (take_hex t) as [h' r'] eqn:Et. destruct (take_hex_spec _ _ _ Et) as [-> Hh].
  destruct h' as [|x h']; [discriminate|]. destruct r' as [|c3 r']; [discriminate|].
  destruct (Ascii.eqb c3 "}") eqn:E3; [|discriminate]. apply Ascii.eqb_eq in E3. subst.
  intros H. inversion H; subst. split; [reflexivity|]. split; [discriminate|exact Hh].
Qed.

Definition dec_cond (h : bytes) : bool :=
  (List.length h <=? 6)%nat && (hex_value h <? 2097152)%N && hexpoint_ok (List.length h) (hex_value h).

Lemma dec_step_emb f h r :
  h <> [] -> forallb is_hexU h = true ->
  decode_utf8_addr_f (S f) ("\" :: "x" :: "{" :: h ++ "}" :: r) =
  if dec_cond h then option_map (app (utf8_encode (hex_value h))) (decode_utf8_addr_f f r) else None.
Proof.
  intros Hne Hh. cbn [decode_utf8_addr_f]. rewrite (match_embedded_hex _ _ Hne Hh). reflexivity.
Qed.

Lemma dec_step_bad f c t :
  match_embedded (c :: t) = None -> disallowed c = true -> decode_utf8_addr_f (S f) (c :: t) = None.
Proof. intros H1 H2. cbn [decode_utf8_addr_f]. now rewrite H1, H2. Qed.

Lemma r_qchar_qchar c : r_qchar c = true -> qchar c = true.
Proof. revert c. byteimpl. Qed.

Lemma low_bad c : (negb (r_qchar c) && (byte_n c <? 128)%N) = true -> disallowed c = true.
Proof. revert c. byteimpl. Qed.

Lemma hexdig_hexU c : Bool.eqb (r_hexdig c) (is_hexU c) = true.
Proof. revert c. bytecase. Qed.

Lemma hexdig_forall h : forallb r_hexdig h = forallb is_hexU h.
Proof. induction h as [|c h IH]; [reflexivity|]. cbn. now rewrite IH, (eqb_prop _ _ (hexdig_hexU c)). Qed.

Lemma no_prefix_no_match s : is_prefix (bs "\x{") s = false -> match_embedded s = None.
Proof.
  unfold match_embedded. destruct s as [|c0 [|c1 [|c2 t]]]; try reflexivity.
  cbn [bs list_ascii_of_string is_prefix].
  rewrite (Ascii.eqb_sym "\" c0), (Ascii.eqb_sym "x" c1), (Ascii.eqb_sym "{" c2), andb_true_r.
  intros H. rewrite <- andb_assoc, H. reflexivity.
Qed.

Lemma hexU_lc c : is_hexU c = true -> negb (negb (r_hexdig_lc c)) = true.
Proof. revert c. byteimpl. Qed.

Lemma bad_close_no_match s3 h r :
  r_span (fun x => negb (r_hexdig_lc x)) s3 = (h, r) ->
  match r with e :: _ => Ascii.eqb e "}" = false | [] => True end ->
  match_embedded ("\" :: "x" :: "{" :: s3) = None.
Proof.
  intros Hs Hr. destruct (match_embedded ("\" :: "x" :: "{" :: s3)) as [[h0 r0]|] eqn:Em; [|reflexivity].
  exfalso. destruct (match_embedded_inv _ _ _ Em) as [E [_ Hh]]. inversion E as [E3].
  rewrite E3, r_span_app in Hs.
  - inversion Hs; subst. cbn in Hr. discriminate.
  - eapply forallb_impl; [|exact Hh]. intros c Hc. now apply hexU_lc.
  - reflexivity.
Qed.

Lemma r_hexnum_value h : r_hexnum h = hex_value h.
Proof. reflexivity. Qed.

Lemma eqb_byte_n c d : Ascii.eqb c d = (byte_n c =? byte_n d)%N.
Proof.
  destruct (Ascii.eqb_spec c d) as [->|H]; symmetry; [apply N.eqb_refl|].
  apply N.eqb_neq. intros E. now apply H, byte_n_inj.
Qed.

(* an upper-case hex digit has a value below 16, and its octet is 48 or 55
   above the value: every class of digits the ABNF uses is a range of octets,
   hence of values *)
Lemma hex_digit c : is_hexU c = true ->
  exists v, hexU c = Some v /\ (v < 16)%N /\ r_hexdig c = true /\
            (v < 10 /\ byte_n c = 48 + v \/ 10 <= v /\ byte_n c = 55 + v)%N.
Proof.
  unfold is_hexU, hexU, r_hexdig, is_digit. intros H.
  destruct (in_range 48 57 c) eqn:E1; [|destruct (in_range 65 70 c) eqn:E2; [|discriminate]];
    eexists; (split; [reflexivity|]); unfold in_range in *; lia.
Qed.

Definition hexchars : bytes := bs "0123456789ABCDEF".

Lemma hexU_in c : is_hexU c = true -> In c hexchars.
Proof.
  intros H. apply mem_byte_In. revert c H.
  apply (byte_impl is_hexU (fun c => mem_byte c hexchars)). bytecase.
Qed.

(* the two-digit hexpoints are an irregular list (RFC 6533 names the ASCII
   ones one by one): compared entry by entry *)
Lemma hexpoint2_table :
  forallb (fun a => forallb (fun b => Bool.eqb (r_hexpoint [a; b]) (dec_cond [a; b])) hexchars) hexchars = true.
Proof. vm_compute. reflexivity. Qed.

(* From three digits on both sides are ranges: the ABNF constrains the first
   one or two digits, the implementation the value. *)
Lemma hexpoint_equiv h : forallb is_hexU h = true -> r_hexpoint h = dec_cond h.
Proof.
  intros H. destruct h as [|a [|b [|c h]]]; [reflexivity|apply eq_sym, andb_false_r|..];
    cbn [forallb] in H.
  { apply andb_true_iff in H as [Ha [Hb _]%andb_true_iff].
    pose proof hexpoint2_table as T. rewrite forallb_forall in T.
    specialize (T a (hexU_in a Ha)). rewrite forallb_forall in T.
    apply eqb_prop, T, hexU_in, Hb. }
  apply andb_true_iff in H as [(va & Ea & La & _ & Ca)%hex_digit H].
  apply andb_true_iff in H as [(vb & Eb & Lb & Db & Cb)%hex_digit H].
  apply andb_true_iff in H as [(vc & Ec & Lc & Dc & _)%hex_digit H].
  unfold r_hexpoint, dec_cond, hex_value.
  destruct h as [|d h]; cbn [forallb] in H.
  { cbn [List.length Nat.leb fold_left hexpoint_ok andb]. rewrite Ea, Eb, Ec, Db, Dc.
    unfold r_nzhexdig, in_range. lia. }
  apply andb_true_iff in H as [(vd & Ed & Ld & Dd & _)%hex_digit H].
  destruct h as [|e h]; cbn [forallb] in H.
  { cbn [List.length Nat.leb fold_left hexpoint_ok andb]. rewrite Ea, Eb, Ec, Ed, Db, Dc, Dd.
    unfold r_nzdhexdig, in_range. rewrite eqb_byte_n. simpl (byte_n "D"). lia. }
  apply andb_true_iff in H as [(ve & Ee & Le & De & _)%hex_digit H].
  destruct h as [|f h]; cbn [forallb] in H.
  { cbn [List.length Nat.leb fold_left hexpoint_ok andb]. rewrite Ea, Eb, Ec, Ed, Ee, Db, Dc, Dd, De.
    unfold r_nzhexdig, in_range. lia. }
  apply andb_true_iff in H as [(vf & Ef & Lf & Df & _)%hex_digit H].
  destruct h as [|g h]; [|reflexivity].
  cbn [List.length Nat.leb fold_left hexpoint_ok andb]. rewrite Ea, Eb, Ec, Ed, Ee, Ef, Dc, Dd, De, Df.
  rewrite !eqb_byte_n. simpl (byte_n (Ascii _ _ _ _ _ _ _ _)). lia.
Qed.

Lemma utf8_seq_high s n : r_utf8_seq s = Some n ->
  (1 <= n)%nat /\ (n <= List.length s)%nat /\ forall c, In c (firstn n s) -> (128 <= byte_n c)%N.
Proof.
  unfold r_utf8_seq. destruct s as [|a [|b0 r]]; try discriminate.
  destruct (in_range 194 223 a && in_range 128 191 b0) eqn:E2.
  { intros [= <-]. unfold in_range in E2. cbn [List.length firstn].
    repeat split; try lia. intros x [<-|[<-|[]]]; lia. }
  destruct r as [|c r']; [discriminate|].
  clear E2. match goal with |- (if ?b then _ else _) = _ -> _ => destruct b eqn:E3 end.
  { intros [= <-]. rewrite !eqb_byte_n in E3. simpl (byte_n (n_byte _)) in E3. unfold in_range in E3.
    assert (Ha : (128 <= byte_n a /\ 128 <= byte_n b0 /\ 128 <= byte_n c)%N) by lia. clear E3.
    cbn [List.length firstn]. repeat split; try lia. intros x [<-|[<-|[<-|[]]]]; lia. }
  clear E3. destruct r' as [|d r'']; [discriminate|].
  match goal with |- (if ?b then _ else _) = _ -> _ => destruct b eqn:E4 end; [|discriminate].
  intros [= <-]. rewrite !eqb_byte_n in E4. simpl (byte_n (n_byte _)) in E4. unfold in_range in E4.
  assert (Ha : (128 <= byte_n a /\ 128 <= byte_n b0 /\ 128 <= byte_n c /\ 128 <= byte_n d)%N) by lia.
  clear E4.
  cbn [List.length firstn]. repeat split; try lia. intros x [<-|[<-|[<-|[<-|[]]]]]; lia.
Qed.

Lemma u8addr_dec : forall f s g, (List.length s < f)%nat -> (List.length s < g)%nat ->
  match r_u8addr f s with
  | CV d => decode_utf8_addr_f g s = Some d
  | CI => decode_utf8_addr_f g s = None
  | CU => True
  end.
Proof.
  induction f as [|f IH]; intros s g Hl Hg; [lia|].
  destruct s as [|c t]; [apply dec_nil|]. destruct g as [|g]; [lia|].
  cbn [List.length] in Hl, Hg. cbn [r_u8addr].
  destruct (r_qchar c) eqn:Eq.
  { destruct (qchar_facts _ (r_qchar_qchar _ Eq)) as [H1 [H2 _]].
    rewrite (dec_plain _ _ _ H1 H2). specialize (IH t g ltac:(lia) ltac:(lia)).
    destruct (r_u8addr f t); [now rewrite IH|now rewrite IH|exact I]. }
  destruct (is_prefix (bs "\x{") (c :: t)) eqn:Ep.
  { destruct t as [|c1 [|c2 s3]]; cbn [bs list_ascii_of_string is_prefix] in Ep;
      rewrite ?andb_false_r in Ep; try discriminate.
    apply andb_true_iff in Ep as [E0 Ep]. apply andb_true_iff in Ep as [E1 Ep].
    apply andb_true_iff in Ep as [E2 _]. apply Ascii.eqb_eq in E0, E1, E2. subst c c1 c2.
    cbn [skipn].
    destruct (r_span (fun x => negb (r_hexdig_lc x)) s3) as [h r] eqn:Es.
    destruct r as [|e r'].
    { apply dec_step_bad; [|reflexivity]. eapply bad_close_no_match; [exact Es|exact I]. }
    destruct (Ascii.eqb e "}") eqn:Ee; cbn [negb].
    2:{ apply dec_step_bad; [|reflexivity]. eapply bad_close_no_match; [exact Es|exact Ee]. }
    apply Ascii.eqb_eq in Ee. subst e.
    destruct (forallb r_hexdig h) eqn:Eh; cbn [negb]; [|exact I].
    destruct (r_span_spec _ _ _ _ Es) as [-> _].
    rewrite hexdig_forall in Eh.
    destruct h as [|x h]; [now apply dec_step_bad|].
    rewrite (dec_step_emb g (x :: h) r' ltac:(discriminate) Eh).
    rewrite (hexpoint_equiv _ Eh). destruct (dec_cond (x :: h)); [|reflexivity].
    cbn [List.length] in Hl, Hg. rewrite app_length in Hl, Hg. cbn [List.length] in Hl, Hg.
    specialize (IH r' g ltac:(lia) ltac:(lia)). rewrite r_hexnum_value.
    destruct (r_u8addr f r'); [now rewrite IH|now rewrite IH|exact I]. }
  destruct (byte_n c <? 128)%N eqn:E128.
  { apply dec_step_bad; [now apply no_prefix_no_match|]. apply low_bad. now rewrite Eq, E128. }
  destruct (r_utf8_seq (c :: t)) as [n|] eqn:Eu; [|exact I].
  destruct (existsb (fun u => is_prefix u (c :: t)) r_ws_seqs); [exact I|].
  destruct (utf8_seq_high _ _ Eu) as [Hn1 [Hn2 Hhigh]].
  (* the n octets of the sequence are copied, at the price of n units of fuel *)
  pose proof (dec_high _ (S g - n) (skipn n (c :: t)) Hhigh) as Hd.
  rewrite firstn_skipn, firstn_length_le in Hd by exact Hn2. cbn [List.length] in Hn2.
  replace (n + (S g - n))%nat with (S g) in Hd by lia. rewrite Hd.
  specialize (IH (skipn n (c :: t)) (S g - n)%nat).
  rewrite skipn_length in IH. cbn [List.length] in IH. specialize (IH ltac:(lia) ltac:(lia)).
  destruct (r_u8addr f (skipn n (c :: t))); [now rewrite IH|now rewrite IH|exact I].
Qed.

Local Ltac Zify.zify_post_hook ::= Z.div_mod_to_equations.

Lemma take_digits_span s : take_digits s = r_span (fun x => negb (r_digit x)) s.
Proof.
  induction s as [|c t IH]; [reflexivity|]. cbn [take_digits r_span].
  change (is_digit c) with (r_digit c). destruct (r_digit c); cbn [negb]; [|reflexivity].
  now rewrite IH.
Qed.

Lemma leap_eq y : is_leap y = r_leap y.
Proof. unfold is_leap, r_leap. lia. Qed.

Lemma month_len_eq y m : (1 <= m <= 12)%Z -> days_in m y = r_month_len y m.
Proof.
  intros H. unfold days_in, r_month_len. rewrite leap_eq.
  assert (Hm : (m = 1 \/ m = 2 \/ m = 3 \/ m = 4 \/ m = 5 \/ m = 6 \/ m = 7 \/ m = 8 \/ m = 9 \/ m = 10 \/ m = 11 \/ m = 12)%Z) by lia.
  repeat (destruct Hm as [->|Hm]); try subst m; reflexivity.
Qed.

Lemma skip1_same c t : skip1 c (c :: t) = Some t.
Proof. unfold skip1. now rewrite Ascii.eqb_refl. Qed.

Lemma digit_dig c : r_digit c = true -> (0 <= dig c <= 9)%Z /\ Z.of_N (byte_n c - 48) = dig c.
Proof. unfold r_digit, in_range, dig. intros H. lia. Qed.

Lemma r_d2_dig a b0 : r_digit a = true -> r_digit b0 = true ->
  r_d2 a b0 = (dig a * 10 + dig b0)%Z /\ (0 <= r_d2 a b0 <= 99)%Z.
Proof.
  intros Ha Hb. destruct (digit_dig a Ha) as [H1 H2]. destruct (digit_dig b0 Hb) as [H3 H4].
  unfold r_d2. rewrite N2Z.inj_add, N2Z.inj_mul, H2, H4. cbn. lia.
Qed.

Lemma getnum2 a b0 t fixed : r_digit a = true -> r_digit b0 = true ->
  getnum (a :: b0 :: t) fixed = Some (r_d2 a b0, t).
Proof.
  intros Ha Hb. rewrite (proj1 (r_d2_dig a b0 Ha Hb)).
  unfold getnum. change is_digit with r_digit. now rewrite Ha, Hb.
Qed.

(* days before 1 March of year y, from 1 March of year 0: the count both
   day numberings reduce to *)
Definition march_days (y : Z) : Z := (365 * y + y / 4 - y / 100 + y / 400)%Z.

Lemma civil_march y m d :
  days_from_civil y m d =
  (march_days (if m <=? 2 then y - 1 else y) + (153 * ((m + 9) mod 12) + 2) / 5 + d - 719469)%Z.
Proof.
  unfold days_from_civil, march_days. generalize ((153 * ((m + 9) mod 12) + 2) / 5)%Z.
  generalize (if (m <=? 2)%Z then (y - 1)%Z else y). intros. lia.
Qed.

Lemma march_days_step y :
  march_days y = (march_days (y - 1) + 365 + (if r_leap y then 1 else 0))%Z.
Proof. unfold march_days. destruct (r_leap y) eqn:E; unfold r_leap in E; lia. Qed.

Lemma year_days y :
  (365 * y + (y + 3) / 4 - (y + 99) / 100 + (y + 399) / 400 = march_days (y - 1) + 366)%Z.
Proof. unfold march_days. lia. Qed.

(* days before month m, from January (the reference) and from March *)
Lemma month_days m : (1 <= m <= 12)%Z ->
  nth (Z.to_nat (m - 1)) [0; 31; 59; 90; 120; 151; 181; 212; 243; 273; 304; 334]%Z 0%Z
  = ((153 * ((m + 9) mod 12) + 2) / 5 - (if m <=? 2 then 306 else -59))%Z.
Proof.
  intros H.
  assert (Hm : (m = 1 \/ m = 2 \/ m = 3 \/ m = 4 \/ m = 5 \/ m = 6 \/ m = 7 \/ m = 8 \/ m = 9 \/ m = 10 \/ m = 11 \/ m = 12)%Z) by lia.
  repeat (destruct Hm as [->|Hm]); try subst m; reflexivity.
Qed.

Lemma days_eq y m d : (1 <= m <= 12)%Z -> r_days y m d = days_from_civil y m d.
Proof.
  intros Hm. rewrite civil_march. unfold r_days. rewrite year_days, (month_days m Hm).
  destruct (m <=? 2)%Z eqn:E.
  - replace (2 <? m)%Z with false by lia. rewrite andb_false_r. lia.
  - replace (2 <? m)%Z with true by lia. rewrite andb_true_r, (march_days_step y). lia.
Qed.

Lemma r_offset_shape zone off : r_offset zone = Some off ->
  (zone = ["Z"] /\ off = 0%Z) \/
  exists sg h0 h1 m0 m1, zone = [sg; h0; h1; ":"; m0; m1] /\
    forallb r_digit [h0; h1; m0; m1] = true /\
    (r_d2 h0 h1 <= 23)%Z /\ (r_d2 m0 m1 <= 59)%Z /\
    ((sg = "+" /\ off = ((r_d2 h0 h1 * 60 + r_d2 m0 m1) * 60)%Z) \/
     (sg = "-" /\ off = (- ((r_d2 h0 h1 * 60 + r_d2 m0 m1) * 60))%Z)).
Proof.
  unfold r_offset. destruct zone as [|z [|h0 [|h1 [|col [|m0 [|m1 [|x r]]]]]]]; try discriminate.
  - destruct (Ascii.eqb z "Z") eqn:E; [|discriminate]. apply Ascii.eqb_eq in E. subst.
    intros H. inversion H. now left.
  - destruct (forallb r_digit [h0; h1; m0; m1] && Ascii.eqb col ":" && (r_d2 h0 h1 <=? 23)%Z && (r_d2 m0 m1 <=? 59)%Z) eqn:E; [|discriminate].
    apply andb_true_iff in E as [E E4]. apply andb_true_iff in E as [E E3]. apply andb_true_iff in E as [E1 E2].
    apply Ascii.eqb_eq in E2. subst col.
    intros H. right. exists z, h0, h1, m0, m1. repeat split; try assumption; try lia.
    destruct (Ascii.eqb z "+") eqn:Ep.
    + apply Ascii.eqb_eq in Ep. subst. inversion H. now left.
    + destruct (Ascii.eqb z "-") eqn:Em; [|discriminate]. apply Ascii.eqb_eq in Em. subst. inversion H. now right.
Qed.

Lemma r_datetime_parse ts t : r_datetime ts = Some t -> parse_rfc3339 ts = Some t.
Proof.
  unfold r_datetime. Opaque in_range.
  destruct ts as [|y0 [|y1 [|y2 [|y3 [|s1 [|mo0 [|mo1 [|s2 [|d0 [|d1 [|tsep [|h0 [|h1 [|c1 [|mi0 [|mi1 [|c2 [|se0 [|se1 r]]]]]]]]]]]]]]]]]]];
    try discriminate.
  match goal with |- (if ?b then _ else _) = _ -> _ => destruct b eqn:E end; [|discriminate].
  do 5 (apply andb_true_iff in E as [E ?]).
  cbn [forallb] in E. do 14 (apply andb_true_iff in E as [? E]). clear E.
  repeat match goal with H : Ascii.eqb _ _ = true |- _ => apply Ascii.eqb_eq in H end. subst.
  match goal with |- (if ?b then _ else _) = _ -> _ => destruct b eqn:Er end; [|discriminate].
  repeat (apply andb_true_iff in Er as [Er ?]).
  destruct (r_d2_dig y0 y1) as [Ey01 _]; try assumption.
  destruct (r_d2_dig y2 y3) as [Ey23 _]; try assumption.
  intros Hres.
  unfold parse_rfc3339. cbn [forallb]. change is_digit with r_digit.
  repeat match goal with H : r_digit _ = true |- _ => rewrite H end. cbn [andb].
  rewrite skip1_same, (getnum2 mo0 mo1) by assumption.
  replace ((r_d2 mo0 mo1 <=? 0) || (12 <? r_d2 mo0 mo1))%Z with false by lia.
  rewrite skip1_same, (getnum2 d0 d1) by assumption.
  rewrite skip1_same, (getnum2 h0 h1) by assumption.
  replace (24 <=? r_d2 h0 h1)%Z with false by lia.
  rewrite skip1_same, (getnum2 mi0 mi1) by assumption.
  replace (60 <=? r_d2 mi0 mi1)%Z with false by lia.
  rewrite skip1_same, (getnum2 se0 se1) by assumption.
  replace (60 <=? r_d2 se0 se1)%Z with false by lia.
  replace (dig y0 * 1000 + dig y1 * 100 + dig y2 * 10 + dig y3)%Z
    with (r_d2 y0 y1 * 100 + r_d2 y2 y3)%Z by lia.
  assert (Hday : ((r_d2 d0 d1 <? 1) || (days_in (r_d2 mo0 mo1) (r_d2 y0 y1 * 100 + r_d2 y2 y3) <? r_d2 d0 d1))%Z = false).
  { rewrite month_len_eq by lia. lia. }
  assert (Hdays : days_from_civil (r_d2 y0 y1 * 100 + r_d2 y2 y3) (r_d2 mo0 mo1) (r_d2 d0 d1)
                  = r_days (r_d2 y0 y1 * 100 + r_d2 y2 y3) (r_d2 mo0 mo1) (r_d2 d0 d1)).
  { symmetry. apply days_eq. lia. }
  (* the reference's view of the rest: fraction and zone *)
  set (fz := match r with
             | p :: r' => if Ascii.eqb p "." then let '(ds, z) := r_span (fun x => negb (r_digit x)) r' in (Some ds, z) else (None, r)
             | [] => (None, r) end) in Hres.
  destruct fz as [frac zone] eqn:Efz. subst fz.
  destruct (r_offset zone) as [off|] eqn:Eoff; [|discriminate].
  (* what the implementation computes for the fraction *)
  lazymatch goal with |- (let (_, _) := ?X in _) = _ =>
  assert (Hfrac : exists nsec, X = (nsec, zone) /\
            (match frac with Some ds => r_nonempty ds && (List.length ds <=? 9)%nat | None => true end = true ->
             nsec = match frac with Some ds => r_nanos ds | None => 0%Z end)) end.
  { destruct r as [|p r']; [inversion Efz; subst; discriminate|].
    destruct (Ascii.eqb p ".") eqn:Ep.
    - apply Ascii.eqb_eq in Ep. subst p.
      destruct (r_span (fun x => negb (r_digit x)) r') as [ds z] eqn:Esp. inversion Efz; subst frac zone.
      destruct ds as [|d ds].
      + exfalso. cbn in Hres. discriminate.
      + destruct (r_span_spec _ _ _ _ Esp) as (-> & Hb & _). cbn [forallb] in Hb.
        apply andb_true_iff in Hb as [Hd _]. apply negb_true_iff, negb_false_iff in Hd.
        exists (nanos_of (d :: ds)). cbn [app tl]. rewrite Hd. cbn [orb andb].
        rewrite take_digits_span. change ((d :: ds) ++ z) with (d :: ds ++ z) in Esp. rewrite Esp.
        split; [reflexivity|]. intros Hl. apply andb_true_iff in Hl as [_ Hl]. apply Nat.leb_le in Hl.
        unfold nanos_of, r_nanos. now rewrite firstn_all2 by exact Hl.
    - inversion Efz; subst frac zone. exists 0%Z. split; [|reflexivity].
      destruct (r_offset_shape _ _ Eoff) as [[Ez _]|[sg [a [b0 [m0 [m1 [Ez [_ [_ [_ Hsg]]]]]]]]]].
      + inversion Ez; subst. reflexivity.
      + inversion Ez; subst. destruct Hsg as [[-> _]|[-> _]]; reflexivity. }
  destruct Hfrac as [nsec [Hgo Hns]]. rewrite Hgo.
  destruct (match frac with Some ds => r_nonempty ds && (List.length ds <=? 9)%nat | None => true end) eqn:Efok; [|discriminate].
  specialize (Hns eq_refl). rewrite <- Hns in Hres.
  rewrite Hday, Hdays, <- Hres.
  destruct (r_offset_shape _ _ Eoff) as [[-> ->]|[sg [a [b0 [m0 [m1 [-> [Hdg [Hhr [Hmm Hsg]]]]]]]]]].
  - reflexivity.
  - cbn [forallb] in Hdg. do 4 (apply andb_true_iff in Hdg as [? Hdg]). clear Hdg.
    destruct (r_d2_dig a b0) as [Eab Rab]; try assumption.
    destruct (r_d2_dig m0 m1) as [Em Rm]; try assumption.
    rewrite <- Eab, <- Em.
    assert (Hrange : ((24 <? r_d2 a b0) || (60 <? r_d2 m0 m1))%Z = false) by lia.
    repeat match goal with Hd : r_digit _ = true |- _ => rewrite Hd end.
    rewrite Hrange.
    destruct Hsg as [[-> ->]|[-> ->]]; reflexivity.
Qed.
Transparent in_range.

Lemma parse_rfc3339_head s t : parse_rfc3339 s = Some t ->
  exists y0 y1 y2 y3 rest, s = y0 :: y1 :: y2 :: y3 :: "-" :: rest /\
    forallb r_digit [y0; y1; y2; y3] = true.
Proof.
  unfold parse_rfc3339. destruct s as [|y0 [|y1 [|y2 [|y3 s1]]]]; try discriminate.
  destruct (forallb is_digit [y0; y1; y2; y3]) eqn:Ed; [|discriminate].
  destruct (skip1 "-" s1) as [s2|] eqn:Es; [|discriminate]. intros _.
  unfold skip1 in Es. destruct s1 as [|x s1']; [discriminate|].
  destruct (Ascii.eqb x "-") eqn:Ex; [|discriminate]. apply Ascii.eqb_eq in Ex. subst x.
  exists y0, y1, y2, y3, s1'. split; [reflexivity|exact Ed].
Qed.

Definition rrvs_time (v : bytes) : bytes :=
  match cut_byte ";" v with Some (a, _) => a | None => v end.

Lemma cut_byte_span c v a r :
  r_span (fun x => Ascii.eqb x c) v = (a, r) ->
  cut_byte c v = match r with [] => None | _ :: r' => Some (a, r') end.
Proof.
  revert a r. induction v as [|x v IH]; intros a r H; cbn in H.
  - inversion H. reflexivity.
  - cbn [cut_byte]. rewrite (Ascii.eqb_sym c x). destruct (Ascii.eqb x c) eqn:E.
    + inversion H; subst. reflexivity.
    + destruct (r_span (fun x0 => Ascii.eqb x0 c) v) as [a' r'] eqn:Es. inversion H; subst.
      rewrite (IH a' r eq_refl). destruct r; reflexivity.
Qed.

Lemma rrvs_time_span v ts r : r_span (fun x => Ascii.eqb x ";") v = (ts, r) -> rrvs_time v = ts.
Proof.
  intros H. unfold rrvs_time. rewrite (cut_byte_span _ _ _ _ H).
  destruct r; [|reflexivity]. destruct (r_span_spec _ _ _ _ H) as [Ha _].
  now rewrite app_nil_r in Ha.
Qed.

Lemma rrvs_parse v :
  match r_rrvs v with
  | CV (RRrvs t) => parse_rfc3339 (rrvs_time v) = Some t
  | CV _ => False
  | CI => parse_rfc3339 (rrvs_time v) = None
  | CU => True
  end.
Proof.
  destruct (r_rrvs v) as [p| |] eqn:H; [| |exact I].
  - unfold r_rrvs in H. destruct v as [|y0 [|y1 [|y2 [|y3 [|s1 v']]]]]; try discriminate.
    destruct (negb _); [discriminate|].
    destruct (r_span (fun x => Ascii.eqb x ";") (y0 :: y1 :: y2 :: y3 :: s1 :: v')) as [ts r] eqn:Es.
    destruct (r_datetime ts) as [t|] eqn:Ed; [|discriminate].
    destruct (negb _); [discriminate|]. destruct (_ && _); [discriminate|].
    injection H as <-. rewrite (rrvs_time_span _ _ _ Es). now apply r_datetime_parse.
  - (* the handler's parser only succeeds on 4DIGIT "-" ... *)
    destruct (parse_rfc3339 (rrvs_time v)) as [t|] eqn:Ep; [|reflexivity]. exfalso.
    destruct (parse_rfc3339_head _ _ Ep) as [y0 [y1 [y2 [y3 [rest [Ets Hd]]]]]].
    assert (Hv : exists w, v = y0 :: y1 :: y2 :: y3 :: "-" :: w).
    { unfold rrvs_time in Ets. destruct (cut_byte ";" v) as [[a r]|] eqn:Ec.
      - apply cut_byte_split in Ec. subst v a. eexists. reflexivity.
      - subst v. eexists. reflexivity. }
    destruct Hv as [w ->]. unfold r_rrvs in H. rewrite Hd in H.
    rewrite (Ascii.eqb_refl "-") in H. cbn [andb negb] in H.
    destruct (r_span _ _) as [ts r]. destruct (r_datetime ts); [|discriminate].
    destruct (negb _); [discriminate|]. destruct (_ && _); discriminate.
Qed.

Definition n_never (x : bytes) : bool := bytes_eqb x (bs "NEVER").
Definition n_item (x : bytes) : bool :=
  bytes_eqb x (bs "SUCCESS") || bytes_eqb x (bs "FAILURE") || bytes_eqb x (bs "DELAY").
Definition n_known (x : bytes) : bool :=
  bytes_eqb x (bs "NEVER") || bytes_eqb x (bs "DELAY") || bytes_eqb x (bs "FAILURE") || bytes_eqb x (bs "SUCCESS").

Lemma n_known_split x : n_known x = n_never x || n_item x.
Proof.
  unfold n_known, n_never, n_item.
  destruct (bytes_eqb x (bs "NEVER")), (bytes_eqb x (bs "DELAY")), (bytes_eqb x (bs "FAILURE")),
    (bytes_eqb x (bs "SUCCESS")); reflexivity.
Qed.

Lemma n_item_known x : n_item x = n_known x && negb (bytes_eqb (bs "NEVER") x).
Proof.
  destruct (bytes_eqb (bs "NEVER") x) eqn:E.
  - apply bytes_eqb_eq in E. now subst x.
  - assert (E' : bytes_eqb x (bs "NEVER") = false).
    { destruct (bytes_eqb x (bs "NEVER")) eqn:E2; [|reflexivity].
      apply bytes_eqb_eq in E2. subst x. discriminate. }
    unfold n_item, n_known. rewrite E'.
    now destruct (bytes_eqb x (bs "SUCCESS")), (bytes_eqb x (bs "FAILURE")), (bytes_eqb x (bs "DELAY")).
Qed.

Lemma known_no_never l :
  forallb n_known l && negb (existsb (bytes_eqb (bs "NEVER")) l) = forallb n_item l.
Proof.
  induction l as [|x l IH]; [reflexivity|]. cbn [forallb existsb].
  rewrite <- IH, n_item_known, negb_orb.
  now destruct (n_known x), (bytes_eqb (bs "NEVER") x), (forallb n_known l).
Qed.

Lemma notify_ok_unfold vals : vals <> [] ->
  notify_ok vals = forallb n_known vals && r_nodup vals
                   && (negb (existsb (bytes_eqb (bs "NEVER")) vals) || (List.length vals =? 1)%nat).
Proof. intros H. destruct vals; [contradiction|reflexivity]. Qed.

Lemma notify_ok_ref vals : vals <> [] ->
  notify_ok vals =
  match vals with
  | [x] => n_never x || n_item x
  | _ => forallb n_item vals && r_nodup vals
  end.
Proof.
  intros Hne. rewrite (notify_ok_unfold _ Hne). destruct vals as [|x [|y l]]; [contradiction| |].
  - cbn [forallb r_nodup existsb List.length Nat.eqb negb]. rewrite n_known_split.
    rewrite !andb_true_r, orb_true_r, andb_true_r. reflexivity.
  - cbn [List.length Nat.eqb]. rewrite orb_false_r.
    rewrite <- known_no_never.
    destruct (forallb n_known (x :: y :: l)), (r_nodup (x :: y :: l)),
      (negb (existsb (bytes_eqb (bs "NEVER")) (x :: y :: l))); reflexivity.
Qed.

Lemma map_upper_ascii c v : forallb is_ascii7 v = true ->
  map to_upper (split_byte c v) = map r_upper (split_byte c v).
Proof.
  intros Hv. apply map_ext_in. intros piece Hin. apply ascii_upper.
  assert (H : forallb (forallb is_ascii7) (split_byte c v) = true).
  { rewrite split_byte_forallb. eapply forallb_impl; [|exact Hv]. intros x ->. apply orb_true_r. }
  rewrite forallb_forall in H. now apply H.
Qed.

Lemma r_notify_ok v :
  r_notify v = let vals := map r_upper (split_byte "," v) in
               if notify_ok vals then CV (RNotify vals) else CI.
Proof.
  unfold r_notify. cbv zeta. set (vals := map r_upper (split_byte "," v)).
  assert (Hne : vals <> []).
  { subst vals. pose proof (split_byte_nonempty "," v). destruct (split_byte "," v); [contradiction|discriminate]. }
  rewrite (notify_ok_ref vals Hne). now destruct vals as [|x [|y l]].
Qed.

Definition xw_char (c : ascii) : bool :=
  (r_vchar c || (128 <=? byte_n c)%N) && negb (Ascii.eqb c "=").

Lemma xw_xchar c : xw_char c && is_printable c && negb (Ascii.eqb c "+") = true -> r_xchar c = true.
Proof. revert c. byteimpl. Qed.

(* On an ORCPT address, which may carry octets above 127, the two decoders
   agree as far as the result is printable. *)
Lemma xtext_printable_agree {A} v (k : bytes -> A) (z : A) : forallb xw_char v = true ->
  match decode_xtext v with Some a => if is_printable_ascii a then k a else z | None => z end
  = match r_xtext v with Some d => if r_printable d then k d else z | None => z end.
Proof.
  intros Hv. pose proof (xtext_both v) as B.
  destruct (r_xtext v) as [d|], (decode_xtext v) as [a|]; [now subst| | |reflexivity].
  - (* an escape above 127 *)
    destruct (r_printable d) eqn:Ep; [|reflexivity].
    now rewrite (forallb_impl _ _ _ printable_ascii Ep) in B.
  - (* an octet copied that is no xchar: it is not printable *)
    destruct (is_printable_ascii a) eqn:Ea; [|reflexivity]. destruct B as (c & Hc & Hc' & Ep & Hx).
    unfold is_printable_ascii in Ea. rewrite forallb_forall in Hv, Ea.
    now rewrite (xw_xchar c) in Hx by now rewrite (Hv c Hc), (Ea c Hc'), Ep.
Qed.

Lemma up_ascii c : Bool.eqb (is_ascii7 (r_up c)) (is_ascii7 c) = true.
Proof. revert c. bytecase. Qed.

Lemma upper_ascii_inv s : forallb is_ascii7 (r_upper s) = true -> forallb is_ascii7 s = true.
Proof.
  induction s as [|c s IH]; [reflexivity|]. cbn [r_upper map forallb].
  rewrite (eqb_prop _ _ (up_ascii c)). intros H. apply andb_true_iff in H as [H1 H2].
  rewrite H1. now apply IH.
Qed.

Lemma r_is_upper ty (K : string) : r_is ty K = true -> forallb is_ascii7 (bs K) = true -> to_upper ty = bs K.
Proof.
  intros H HK. pose proof (r_is_eq _ _ H) as E. rewrite <- E. apply ascii_upper.
  apply upper_ascii_inv. now rewrite E.
Qed.

Lemma orcpt_dec v : forallb xw_char v = true ->
  match r_orcpt v with
  | CV (ROrcpt ty a) => decode_typed_address v = Some (ty, a) /\ a <> []
  | CV _ => False
  | CI => match decode_typed_address v with Some (_, _ :: _) => False | _ => True end
  | CU => True
  end.
Proof.
  intros Hv. unfold r_orcpt, decode_typed_address, splitn2.
  destruct (mem_byte ";" v) eqn:Hm; cbn [negb].
  2:{ now rewrite (cut_byte_none _ _ Hm). }
  destruct (r_span (fun x => Ascii.eqb x ";") v) as [ty r] eqn:Es.
  destruct (r_span_eq_char _ _ _ _ Es) as [E1 [_ E3]]. destruct (E3 Hm) as [addr ->]. cbn [tl].
  rewrite (cut_byte_span _ _ _ _ Es).
  destruct ty as [|t0 ty]; [exact I|]. destruct addr as [|a0 addr]; [exact I|].
  assert (Hva : forallb xw_char (a0 :: addr) = true).
  { rewrite E1, forallb_app in Hv. cbn [forallb] in Hv. now apply andb_true_iff in Hv as [_ [_ Hv]%andb_true_iff]. }
  destruct (r_is (t0 :: ty) "RFC822") eqn:E822.
  { rewrite (r_is_upper _ _ E822 eq_refl). simpl (bytes_eqb (bs _) _). cbv iota.
    rewrite (xtext_printable_agree _ (fun a => Some (bs "RFC822", a)) None Hva).
    destruct (r_xtext (a0 :: addr)) as [[|x d]|]; [exact I| |exact I].
    destruct (r_printable (x :: d)); cbn [negb]; [|exact I].
    destruct (500 <? List.length v)%nat; [exact I|].
    rewrite (r_is_eq _ _ E822). split; [reflexivity|discriminate]. }
  destruct (r_is (t0 :: ty) "UTF-8") eqn:Eu8; [|exact I].
  rewrite (r_is_upper _ _ Eu8 eq_refl). simpl (bytes_eqb (bs _) _). cbv iota.
  pose proof (u8addr_dec (S (List.length (a0 :: addr))) (a0 :: addr) _
                (Nat.lt_succ_diag_r _) (Nat.lt_succ_diag_r _)) as Hd.
  unfold decode_utf8_addr_xtext.
  destruct (r_u8addr (S (List.length (a0 :: addr))) (a0 :: addr)) as [[|x d]| |].
  - rewrite Hd. exact I.
  - destruct (500 <? List.length v)%nat; [exact I|]. rewrite Hd. cbn [option_map].
    rewrite (r_is_eq _ _ Eu8). split; [reflexivity|discriminate].
  - rewrite Hd. exact I.
  - exact I.
Qed.

Definition rp_key (p : rparam) : bytes :=
  match p with RNotify _ => bs "NOTIFY" | ROrcpt _ _ => bs "ORCPT" | RRrvs _ => bs "RRVS" end.

Definition rcpt_agrees (cfg : config) := agrees (rcpt_param cfg) rparam_apply rp_key.

Lemma rcpt_param_unknown cfg k v o :
  bytes_eqb k (bs "NOTIFY") = false -> bytes_eqb k (bs "ORCPT") = false ->
  bytes_eqb k (bs "RRVS") = false ->
  rcpt_param cfg k v o = inr (500, (5, 5, 4), bs "Unknown RCPT TO argument")%Z.
Proof. intros H1 H2 H3. unfold rcpt_param. now rewrite H1, H2, H3. Qed.

Lemma rcpt_param_empty cfg K o : exists f, rcpt_param cfg K [] o = inr f.
Proof.
  unfold rcpt_param.
  destruct (bytes_eqb K (bs "NOTIFY")); [destruct (cf_dsn cfg); cbn; eauto|].
  destruct (bytes_eqb K (bs "ORCPT")); [destruct (cf_dsn cfg); cbn; eauto|].
  destruct (bytes_eqb K (bs "RRVS")); [destruct (cf_rrvs cfg); cbn; eauto|]. eauto.
Qed.

Lemma xv_xw c : xv_char c = true -> xw_char c = true.
Proof. revert c. byteimpl. Qed.

Lemma high_xw val :
  mem_byte "=" val = false -> forallb (fun c => r_vchar c || (128 <=? byte_n c)%N) val = true ->
  forallb xw_char val = true.
Proof.
  induction val as [|c t IH]; [reflexivity|]. cbn [mem_byte forallb]. intros Hm Hf.
  apply orb_false_iff in Hm as [Hc Hm]. apply andb_true_iff in Hf as [Hfc Hf].
  rewrite (IH Hm Hf), andb_true_r. unfold xw_char. rewrite Hfc. cbn. now rewrite Ascii.eqb_sym, Hc.
Qed.

Lemma notify_ref cfg v : forallb is_ascii7 v = true ->
  rcpt_agrees cfg (bs "NOTIFY") v (if cf_dsn cfg then r_notify v else CI).
Proof.
  intros Hv o. param_case. destruct (cf_dsn cfg); cbn [negb]; [|eauto].
  rewrite r_notify_ok, (map_upper_ascii _ _ Hv). cbv zeta. destruct (notify_ok _); [now split|eauto].
Qed.

Lemma orcpt_ref cfg v : forallb xw_char v = true ->
  rcpt_agrees cfg (bs "ORCPT") v (if cf_dsn cfg then r_orcpt v else CI).
Proof.
  intros Hv o. param_case. destruct (cf_dsn cfg); cbn [negb]; [|eauto].
  pose proof (orcpt_dec v Hv) as Hd.
  destruct (r_orcpt v) as [[|ty a|]| |]; try contradiction; [| |exact I].
  - destruct Hd as [-> Ha]. destruct a; [contradiction|now split].
  - destruct (decode_typed_address v) as [[ty [|a0 a]]|]; [eauto|contradiction|eauto].
Qed.

Lemma rrvs_ref cfg v : rcpt_agrees cfg (bs "RRVS") v (if cf_rrvs cfg then r_rrvs v else CI).
Proof.
  intros o. param_case. fold (rrvs_time v). destruct (cf_rrvs cfg); cbn [negb]; [|eauto].
  pose proof (rrvs_parse v) as Hd.
  destruct (r_rrvs v) as [[| |t]| |]; try contradiction; [| |exact I].
  - rewrite Hd. now split.
  - rewrite Hd. eauto.
Qed.

Lemma rcpt_param_ref cfg tok : tok_ok tok = true ->
  rcpt_agrees cfg (r_tok_key tok) (tok_val tok) (r_rcpt_param cfg tok).
Proof.
  unfold r_rcpt_param, tok_ok, r_tok_key, tok_val.
  destruct (r_tok_split tok) as [k v]. cbn [fst snd]. intros Hok.
  destruct (r_keyword k) eqn:Ek; cbn [negb].
  2:{ intros o. rewrite rcpt_param_unknown; [eauto|..]; apply nonkw; (exact Ek || reflexivity). }
  destruct v as [val|]; [|intros o; apply rcpt_param_empty].
  apply negb_true_iff in Hok. rewrite Hok. destruct (bad_value_false _ Hok) as [Heq _].
  destruct (r_esmtp_value val) eqn:Ev; cbn [negb].
  2:{ (* only ORCPT's utf-8 form may carry non-ASCII octets *)
      destruct (r_is k "ORCPT") eqn:E; [|exact (fun _ => I)].
      destruct (cf_dsn cfg) eqn:Edsn; [|exact (fun _ => I)].
      destruct (forallb _ val) eqn:Eh; cbn [andb]; [|exact (fun _ => I)].
      rewrite (r_is_eq _ _ E). pose proof (orcpt_ref cfg val (high_xw _ Heq Eh)) as H.
      now rewrite Edsn in H. }
  apply andb_true_iff in Ev as [_ Hxv].
  destruct (r_is k "NOTIFY") eqn:E1.
  { rewrite (r_is_eq _ _ E1). apply notify_ref. eapply forallb_impl; [apply xv_ascii|exact Hxv]. }
  destruct (r_is k "ORCPT") eqn:E2.
  { rewrite (r_is_eq _ _ E2). apply orcpt_ref. eapply forallb_impl; [apply xv_xw|exact Hxv]. }
  destruct (r_is k "RRVS") eqn:E3; [rewrite (r_is_eq _ _ E3); apply rrvs_ref|].
  intros o. rewrite rcpt_param_unknown; eauto.
Qed.

Lemma rcpt_param_tok_ok cfg tok : tok_ok tok = false -> r_rcpt_param cfg tok = CI.
Proof.
  unfold r_rcpt_param, tok_ok. destruct (r_tok_split tok) as [k [val|]]; cbn [snd]; [|discriminate].
  intros H. apply negb_false_iff in H. rewrite H. now destruct (r_keyword k).
Qed.

Lemma rparam_comm o p q : rp_key p <> rp_key q ->
  rparam_apply (rparam_apply o p) q = rparam_apply (rparam_apply o q) p.
Proof. destruct p, q; cbn; intros H; try congruence; reflexivity. Qed.

Lemma rcpt_params_loop cfg args o :
  rcpt_params cfg args o = loop (rcpt_param cfg) args o.
Proof.
  revert o. induction args as [|[k v] r IH]; intros o; [reflexivity|].
  cbn [rcpt_params loop]. destruct (rcpt_param cfg k v o); [apply IH|reflexivity].
Qed.

Lemma rcpt_param_code cfg k v o code ec msg :
  rcpt_param cfg k v o = inr (code, ec, msg) -> refusal_code code.
Proof.
  unfold rcpt_param, refusal_code. intros H.
  repeat match type of H with
         | context [if ?b then _ else _] => destruct b
         | context [match ?x with _ => _ end] => destruct x
         end; inversion H; cbn; tauto.
Qed.

Lemma to_prefix_ok : no_SK (bs "TO:") = true /\ map up1 (bs "TO:") = bs "TO:".
Proof. split; reflexivity. Qed.

Definition rcpt_ok_events (rcpt : bytes) (opts : rcpt_opts) (r : berr) : list event :=
  [ERcpt rcpt opts r;
   match r with
   | BNil => reply 250 (2, 0, 0)%Z (bs "I'll make sure <" ++ rcpt ++ bs "> gets this")
   | _ => reply_err 451 (4, 0, 0)%Z r
   end].

Definition rcpt_limit_free (cfg : config) (c : conn) : Prop :=
  ((0 <? cf_max_rcpt cfg)%N && (cf_max_rcpt cfg <=? N.of_nat (List.length (c_rcpts c)))%N) = false.

Theorem handle_rcpt_ref cfg c arg :
  c_from c = true -> c_bdat c = None -> rcpt_limit_free cfg c ->
  match classify_rcpt cfg arg with
  | Valid rcpt opts => c_session c = true ->
      snd (handle_rcpt cfg c arg) = rcpt_ok_events rcpt opts (fst (pop BNil (be_rcpt (c_be c))))
  | Invalid => refused (snd (handle_rcpt cfg c arg))
  | Unspecified => True
  end.
Proof.
  intros Hfr Hb Hlim. unfold handle_rcpt. rewrite Hfr, Hb. cbn [negb].
  pose proof (front_switch_ref (rcpt_param cfg) (r_rcpt_param cfg) rparam_apply rp_key (rcpt_param_ref cfg)
                rparam_comm (rcpt_param_code cfg) false "TO:" rparam_apply ro_zero
                to_prefix_ok (rcpt_param_tok_ok cfg) arg) as F.
  unfold classify_rcpt. destruct (classify_gen _ _ _ _ _ arg) as [rcpt opts| |]; [| |exact I].
  - destruct F as (args & ps & (a & rest & -> & E2 & E3) & -> & Hl). intros Hs.
    cbn [parse_path_of] in E2. rewrite E2, Hlim, E3, rcpt_params_loop, Hl, Hs. cbn [negb].
    unfold pop_rcpt. destruct (pop BNil (be_rcpt (c_be c))) as [r restq]. cbn [fst]. now destruct r.
  - (* refused at the prefix, the path or parseArgs; or by the switch *)
    destruct F as [[->|(a & -> & [E2|(mb & rest & E2 & E3)])]|F]; cbn [parse_path_of] in *.
    + apply refused_reply. cbn. tauto.
    + rewrite E2. apply refused_reply. cbn. tauto.
    + rewrite E2, Hlim, E3. apply refused_reply. cbn. tauto.
    + destruct F as (mb & args & (a & rest & -> & E2 & E3) & Hl).
      cbn [parse_path_of] in E2. rewrite E2, Hlim, E3, rcpt_params_loop.
      destruct (Hl ro_zero) as (code & ec & msg & -> & Hcode). now apply refused_reply.
Qed.

Definition cfg_all : config :=
  mkCfg false false (bs "d") 0 0 2000 false true true true true true false None false.
Definition cfg_none : config :=
  mkCfg false false (bs "d") 0 0 2000 false false false false false false false None false.
(* after EHLO (and an accepted MAIL when [from] is set) *)
Definition conn_ready (from : bool) : conn :=
  mkC (Transport.mkT [] [] 0 2000 false) [] (mkBE [] [] [] [] []) (bs "x") true 0 false from []
      false false false None 0.

Definition long_s : bytes := [n_byte 197; n_byte 191].     (* U+017F *)
Definition dotless_i : bytes := [n_byte 196; n_byte 177].  (* U+0131 *)

(* MAIL FROM:<a@b> U+017F IZE=1, which strings.ToUpper would turn into SIZE=1:
   an unknown parameter *)
Example unicode_fold_mail_refused :
  let arg := bs "FROM:<a@b> " ++ long_s ++ bs "IZE=1" in
  fold_trap arg = true /\ classify_mail cfg_all arg = Invalid /\
  snd (handle_mail cfg_all (conn_ready false) arg)
  = [reply 500 (5, 5, 4)%Z (bs "Unknown MAIL FROM argument")].
Proof. vm_compute. repeat split; reflexivity. Qed.

(* RCPT TO:<a@b> NOT U+0131 FY=NEVER, which strings.ToUpper would turn into
   NOTIFY=NEVER *)
Example unicode_fold_rcpt_refused :
  let arg := bs "TO:<a@b> NOT" ++ dotless_i ++ bs "FY=NEVER" in
  fold_trap arg = true /\ classify_rcpt cfg_all arg = Invalid /\
  snd (handle_rcpt cfg_all (conn_ready true) arg)
  = [reply 500 (5, 5, 4)%Z (bs "Unknown RCPT TO argument")].
Proof. vm_compute. repeat split; reflexivity. Qed.

(* a flag with a value is not the bare flag; nor is "SMTPUTF8=", which parseArgs
   refuses *)
Example flag_value_mail_refused :
  let a1 := bs "FROM:<a@b> SMTPUTF8=1" in
  let a2 := bs "FROM:<a@b> REQUIRETLS=yes" in
  let a3 := bs "FROM:<a@b> SMTPUTF8=" in
  flag_with_value a1 = true /\ flag_with_value a2 = true /\ flag_with_value a3 = true /\
  classify_mail cfg_all a1 = Invalid /\ classify_mail cfg_all a2 = Invalid /\
  classify_mail cfg_all a3 = Invalid /\
  snd (handle_mail cfg_all (conn_ready false) a1) = [reply 501 (5, 5, 4)%Z (bs "SMTPUTF8 takes no value")] /\
  snd (handle_mail cfg_all (conn_ready false) a2) = [reply 501 (5, 5, 4)%Z (bs "REQUIRETLS takes no value")] /\
  snd (handle_mail cfg_all (conn_ready false) a3) = [reply 501 (5, 5, 4)%Z (bs "Unable to parse MAIL ESMTP parameters")].
Proof. vm_compute. repeat split; reflexivity. Qed.

(* non-vacuity: admissible states, one Valid line per parameter, Invalid and
   Unspecified lines *)
Example conn_ready_mail_admissible :
  c_helo (conn_ready false) <> [] /\ c_bdat (conn_ready false) = None /\ c_session (conn_ready false) = true.
Proof. repeat split; discriminate. Qed.

Example conn_ready_rcpt_admissible :
  c_from (conn_ready true) = true /\ c_bdat (conn_ready true) = None /\
  c_session (conn_ready true) = true /\ rcpt_limit_free cfg_all (conn_ready true).
Proof. repeat split. Qed.

Example valid_plain : classify_mail cfg_none (bs "FROM:<a@b>") = Valid (bs "a@b") mo_zero.
Proof. vm_compute. reflexivity. Qed.
Example valid_null : classify_mail cfg_none (bs "from:<>") = Valid [] mo_zero.
Proof. vm_compute. reflexivity. Qed.
Example valid_quoted :
  classify_mail cfg_none (bs "FROM:<""q s""@[1.2.3.4]>") = Valid (bs "q s@[1.2.3.4]") mo_zero.
Proof. vm_compute. reflexivity. Qed.
Example valid_size : classify_mail cfg_none (bs "FROM:<a@b> SIZE=1000")
  = Valid (bs "a@b") (mkMO [] 1000 false false [] [] None).
Proof. vm_compute. reflexivity. Qed.
Example valid_body : classify_mail cfg_all (bs "FROM:<a@b> body=binarymime")
  = Valid (bs "a@b") (mkMO (bs "BINARYMIME") 0 false false [] [] None).
Proof. vm_compute. reflexivity. Qed.
Example valid_smtputf8 : classify_mail cfg_all (bs "FROM:<a@b> SMTPUTF8")
  = Valid (bs "a@b") (mkMO [] 0 false true [] [] None).
Proof. vm_compute. reflexivity. Qed.
Example valid_requiretls : classify_mail cfg_all (bs "FROM:<a@b> REQUIRETLS")
  = Valid (bs "a@b") (mkMO [] 0 true false [] [] None).
Proof. vm_compute. reflexivity. Qed.
Example valid_ret : classify_mail cfg_all (bs "FROM:<a@b> RET=hdrs")
  = Valid (bs "a@b") (mkMO [] 0 false false (bs "HDRS") [] None).
Proof. vm_compute. reflexivity. Qed.
Example valid_envid : classify_mail cfg_all (bs "FROM:<a@b> ENVID=QQ+2B314159")
  = Valid (bs "a@b") (mkMO [] 0 false false [] (bs "QQ+314159") None).
Proof. vm_compute. reflexivity. Qed.
Example valid_auth : classify_mail cfg_none (bs "FROM:<a@b> AUTH=e+3Dmc2@example.com")
  = Valid (bs "a@b") (mkMO [] 0 false false [] [] (Some (bs "e=mc2@example.com"))).
Proof. vm_compute. reflexivity. Qed.
Example valid_auth_null : classify_mail cfg_none (bs "FROM:<a@b> AUTH=<>")
  = Valid (bs "a@b") (mkMO [] 0 false false [] [] (Some [])).
Proof. vm_compute. reflexivity. Qed.
Example valid_all_mail :
  classify_mail cfg_all (bs "FROM:<a@b> AUTH=<> ENVID=x RET=FULL REQUIRETLS SMTPUTF8 BODY=7BIT SIZE=5")
  = Valid (bs "a@b") (mkMO (bs "7BIT") 5 true true (bs "FULL") (bs "x") (Some [])).
Proof. vm_compute. reflexivity. Qed.
Example valid_notify : classify_rcpt cfg_all (bs "TO:<a@b> NOTIFY=success,Delay")
  = Valid (bs "a@b") (mkRO [bs "SUCCESS"; bs "DELAY"] [] [] None).
Proof. vm_compute. reflexivity. Qed.
Example valid_orcpt : classify_rcpt cfg_all (bs "TO:<a@b> ORCPT=rfc822;Bob+20S@x")
  = Valid (bs "a@b") (mkRO [] (bs "RFC822") (bs "Bob S@x") None).
Proof. vm_compute. reflexivity. Qed.
Example valid_orcpt_utf8 : classify_rcpt cfg_all (bs "TO:<a@b> ORCPT=utf-8;a\x{5C}b\x{E9}@x")
  = Valid (bs "a@b") (mkRO [] (bs "UTF-8") (bs "a\b" ++ [n_byte 195; n_byte 169] ++ bs "@x") None).
Proof. vm_compute. reflexivity. Qed.
Example valid_rrvs : classify_rcpt cfg_all (bs "TO:<a@b> RRVS=2014-04-03T23:01:00Z;C")
  = Valid (bs "a@b") (mkRO [] [] [] (Some (mkRT 1396566060 0 0))).
Proof. vm_compute. reflexivity. Qed.
Example valid_rrvs_frac : classify_rcpt cfg_all (bs "TO:<a@b> RRVS=1970-01-01T00:00:00.5+01:00")
  = Valid (bs "a@b") (mkRO [] [] [] (Some (mkRT (-3600) 500000000 3600))).
Proof. vm_compute. reflexivity. Qed.

Example invalid_examples :
  classify_mail cfg_all (bs "<a@b>") = Invalid /\            (* no FROM: *)
  classify_mail cfg_all (bs "FROM:<@b>") = Invalid /\        (* empty local part *)
  classify_mail cfg_all (bs "FROM:<ab>") = Invalid /\        (* no '@' *)
  classify_rcpt cfg_all (bs "TO:<>") = Invalid /\
  classify_mail cfg_all (bs "FROM:<a@>") = Invalid /\        (* empty domain *)
  classify_mail cfg_all (bs "FROM:<a@b") = Invalid /\        (* '<' without '>' *)
  classify_mail cfg_all (bs "FROM:<a,b@c>") = Invalid /\     (* special in the local part *)
  classify_mail cfg_all (bs "FROM:<a@b> FOO=1") = Invalid /\ (* unknown keyword *)
  classify_mail cfg_none (bs "FROM:<a@b> SMTPUTF8") = Invalid /\  (* disabled extension *)
  classify_mail cfg_all (bs "FROM:<a@b> SIZE=1x") = Invalid /\    (* value outside its grammar *)
  classify_rcpt cfg_all (bs "TO:<a@b> NOTIFY=SUCCESS,SUCCESS") = Invalid /\
  classify_rcpt cfg_all (bs "TO:<a@b> NOTIFY=NEVER,DELAY") = Invalid.
Proof. vm_compute. repeat split; reflexivity. Qed.

Example unspecified_examples :
  classify_mail cfg_all (bs "FROM:a@b") = Unspecified /\            (* no brackets *)
  classify_mail cfg_all (bs "FROM:<@x:a@b>") = Unspecified /\       (* source route *)
  classify_mail cfg_all (bs "FROM:<a@b_c>") = Unspecified /\        (* odd domain *)
  classify_mail cfg_all (bs "FROM:<a@b> SIZE=1 size=2") = Unspecified /\  (* duplicate keyword *)
  classify_mail cfg_all (bs "FROM: <a@b>") = Unspecified /\
  classify_mail cfg_all (bs "FROM:<""""@b>") = Unspecified.
Proof. vm_compute. repeat split; reflexivity. Qed.
