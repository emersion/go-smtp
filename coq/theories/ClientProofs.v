(* Proofs about Client.v (the go-smtp client): C15 (one command line per
   protocol step, only negotiated parameters), C18 (LMTP status callbacks),
   C16 (Close verdict, Close twice), C10 (STARTTLS: no downgrade, re-hello),
   C09 (client half of AUTH).

   Three views of the state recur.  Any state: which fields an operation can
   touch at all ([ctl]).  A [quiet] state, whatever the connection does: the
   operation appends whole lines to the output ([ext_by]).  A working
   connection ([io_ready]): the operation is an equation. *)
From Smtp Require Import Bytes GoStrings Xtext Base64 Reply ClientReply Rfc3339 DotWriter Conn Client.
From Smtp Require Import Base64Proofs XtextProofs ReplyProofs.
Local Open Scope char_scope.

Definition clean (l : bytes) : Prop := mem_byte CR l = false /\ mem_byte LF l = false.
(* a single ESMTP parameter *)
Definition clean_sp (l : bytes) : Prop := clean l /\ mem_byte " " l = false.

Definition lines (ls : list bytes) : bytes := flat_map (fun l => l ++ crlf) ls.

Lemma lines_app a b : lines (a ++ b) = lines a ++ lines b.
Proof. apply flat_map_app. Qed.

Lemma lines_one l : lines [l] = l ++ crlf.
Proof. apply app_nil_r. Qed.

Lemma clean_app a b : clean a -> clean b -> clean (a ++ b).
Proof. intros [A1 A2] [B1 B2]. split; rewrite mem_byte_app; [rewrite A1, B1|rewrite A2, B2]; reflexivity. Qed.

Lemma clean_app_inv a b : clean (a ++ b) -> clean a /\ clean b.
Proof.
  intros [H1 H2]. rewrite mem_byte_app in H1, H2.
  apply orb_false_iff in H1 as [? ?]. apply orb_false_iff in H2 as [? ?]. repeat split; assumption.
Qed.

Lemma clean_sp_clean l : clean_sp l -> clean l.
Proof. intros [H _]. exact H. Qed.

Lemma clean_sp_app a b : clean_sp a -> clean_sp b -> clean_sp (a ++ b).
Proof.
  intros [A A3] [B B3]. split; [apply clean_app; assumption|].
  rewrite mem_byte_app, A3, B3. reflexivity.
Qed.

(* [clean] / [clean_sp] of a constant *)
Ltac clean_const := repeat split; reflexivity.

Lemma valid_line_clean s : valid_line s = true <-> clean s.
Proof.
  unfold valid_line, clean. rewrite negb_true_iff, orb_false_iff. tauto.
Qed.

Lemma valid_line_false s : valid_line s = false -> ~ clean s.
Proof. intros H C. apply valid_line_clean in C. congruence. Qed.

Definition at_most (line : bytes) (own : list bytes) : Prop := own = [] \/ own = [line].

Lemma at_most_Forall (P : bytes -> Prop) line own : P line -> at_most line own -> Forall P own.
Proof. intros H [->| ->]; repeat constructor. exact H. Qed.

Lemma at_most_length line own : at_most line own -> (List.length own <= 1)%nat.
Proof. intros [->| ->]; cbn; lia. Qed.

(* the control part of the state: everything but the write side and the
   unread input *)
Definition ctl (c : client) :=
  (c_lmtp c, c_local c, c_did_greet c, c_greet_err c, c_did_hello c, c_hello_err c, c_ext c,
   c_rcpts c, c_tls c, c_closed c, c_tls_in c, c_cbs c).

Lemma ctl_fields c c' :
  ctl c' = ctl c ->
  c_lmtp c' = c_lmtp c /\ c_local c' = c_local c /\ c_did_hello c' = c_did_hello c
  /\ c_hello_err c' = c_hello_err c /\ c_ext c' = c_ext c /\ c_rcpts c' = c_rcpts c
  /\ c_tls c' = c_tls c /\ c_closed c' = c_closed c /\ c_cbs c' = c_cbs c.
Proof. unfold ctl. intros H. inversion H. repeat split; reflexivity. Qed.

(* nothing that could still reach the wire is pending, and no dotWriter is
   open: the state between two API calls when the data writer is used
   according to its contract (Close before the next command, no Write after
   Close).  A writer whose sticky error is set never writes again. *)
Definition dot_shut (c : client) : Prop :=
  match c_dw c with Some d => d_open d = false | None => True end.

Definition quiet (c : client) : Prop :=
  c_werr c = true \/ (c_wbuf c = [] /\ dot_shut c).

(* projections through the setters *)
Ltac csimpl :=
  cbn [c_lmtp c_local c_did_greet c_greet_err c_did_hello c_hello_err c_ext c_rcpts c_tls
       c_closed c_werr c_in c_tls_in c_out c_wbuf c_dw c_cbs
       set_local set_greet set_did_hello set_hello_err set_ext set_rcpts set_closed set_werr
       set_in set_out_wbuf set_wbuf set_dw add_cb fst snd] in *.

Lemma bufio_push_concat pending new :
  let '(fl, pend) := bufio_push pending new in fl ++ pend = pending ++ new.
Proof.
  unfold bufio_push. destruct (blen (pending ++ new) <=? 4096)%N; [reflexivity|].
  apply firstn_skipn.
Qed.

Definition alive (c : client) : Prop := c_werr c = false /\ c_closed c = false.

(* the state after successfully writing [o] with nothing pending *)
Definition wrote (c : client) (o : bytes) : client := set_out_wbuf c (c_out c ++ o) [].

(* Write then Flush in any state: only the write side changes; the pending
   octets and [o] reach the wire together or not at all, and a failure
   sticks *)
Lemma write_flush_spec c o ok c' :
  bw_flush (bw_write c o) = (ok, c') ->
  c_dw c' = c_dw c /\ ctl c' = ctl c /\ c_in c' = c_in c
  /\ c_out c' = c_out c ++ (if ok then c_wbuf c ++ o else [])
  /\ (if ok then c_werr c' = false /\ c_wbuf c' = [] else c_werr c' = true)
  /\ (alive c -> ok = true).
Proof.
  unfold bw_write, alive. destruct (c_werr c) eqn:We.
  { unfold bw_flush. rewrite We. intros [= <- <-]. rewrite app_nil_r.
    repeat split; try assumption. intros [X _]. discriminate X. }
  pose proof (bufio_push_concat (c_wbuf c) o) as P. destruct (bufio_push (c_wbuf c) o) as [fl pend].
  rewrite <- P.
  (* nothing / something flushed by Write, nothing / something left for Flush,
     connection closed or not *)
  destruct fl as [|x fl], pend as [|y pend], (c_closed c) eqn:Cl;
    unfold bw_flush; csimpl; rewrite ?We, ?Cl; intros [= <- <-];
    unfold ctl; csimpl; rewrite ?Cl, ?app_nil_r, <- ?app_assoc;
    repeat split; try assumption; intros [_ X]; discriminate X.
Qed.

(* on a working connection with nothing pending the outcome is a state we
   can name *)
Lemma write_flush_alive c o :
  alive c -> c_wbuf c = [] ->
  bw_flush (bw_write c o) = (true, wrote c o).
Proof.
  intros A Wb. destruct (bw_flush (bw_write c o)) as [ok c'] eqn:E.
  apply write_flush_spec in E as (D & Ct & I & O & W & Al). rewrite (Al A) in *.
  destruct W as [We' Wb'], A as [We _]. f_equal.
  destruct c, c'. unfold ctl, wrote in *. cbn in *. inversion Ct. subst. reflexivity.
Qed.

Lemma write_flush_dead c o :
  c_werr c = true -> bw_flush (bw_write c o) = (false, c).
Proof. intros We. unfold bw_write, bw_flush. rewrite We. rewrite We. reflexivity. Qed.

Lemma bw_write_frame c o :
  c_dw (bw_write c o) = c_dw c /\ ctl (bw_write c o) = ctl c /\ c_in (bw_write c o) = c_in c
  /\ (alive c -> alive (bw_write c o)).
Proof.
  unfold bw_write, ctl, alive. destruct (c_werr c) eqn:We; [repeat split; intuition congruence|].
  destruct (bufio_push (c_wbuf c) o) as [fl pend]. destruct fl; [csimpl; repeat split; tauto|].
  destruct (c_closed c) eqn:Cl; csimpl; rewrite ?Cl; repeat split; tauto.
Qed.

Lemma close_dot_shut c : dot_shut c -> close_dot c = c.
Proof.
  unfold dot_shut, close_dot. destruct (c_dw c) as [d|]; [|reflexivity].
  intros ->. reflexivity.
Qed.

Lemma close_dot_ctl c : ctl (close_dot c) = ctl c /\ c_in (close_dot c) = c_in c.
Proof.
  unfold close_dot. destruct (c_dw c) as [d|]; [|split; reflexivity].
  destruct (d_open d); [|split; reflexivity].
  destruct (bw_flush _) as [ok c1] eqn:Ef. apply write_flush_spec in Ef as (_ & Ct & I & _).
  split; assumption.
Qed.

Lemma close_dot_dead c :
  c_werr c = true -> c_werr (close_dot c) = true /\ c_out (close_dot c) = c_out c.
Proof.
  intros We. unfold close_dot. destruct (c_dw c) as [d|]; [|split; [assumption|reflexivity]].
  destruct (d_open d); [|split; [assumption|reflexivity]].
  rewrite write_flush_dead by exact We. split; [exact We|reflexivity].
Qed.

Lemma close_dot_quiet c : quiet c -> c_out (close_dot c) = c_out c.
Proof.
  intros [We|[_ Sh]]; [apply close_dot_dead, We|]. rewrite close_dot_shut by exact Sh. reflexivity.
Qed.

Lemma printf_line_ctl c line ok c' :
  printf_line c line = (ok, c') -> ctl c' = ctl c /\ c_in c' = c_in c.
Proof.
  intros E. apply write_flush_spec in E as (_ & Ct & I & _).
  destruct (close_dot_ctl c) as [Ct0 I0]. rewrite Ct, I. split; assumption.
Qed.

(* on a quiet state PrintfLine puts the whole line on the wire or nothing,
   and leaves a quiet state *)
Lemma printf_line_quiet c line ok c' :
  quiet c -> printf_line c line = (ok, c') ->
  c_out c' = c_out c ++ (if ok then line ++ crlf else []) /\ quiet c'.
Proof.
  unfold printf_line. intros [We | [Wb Sh]] E.
  - destruct (close_dot_dead c We) as [We' O]. rewrite write_flush_dead in E by exact We'.
    injection E as <- <-. rewrite app_nil_r. split; [exact O|left; exact We'].
  - rewrite close_dot_shut in E by exact Sh.
    apply write_flush_spec in E as (D & _ & _ & O & W & _). rewrite Wb in O. split; [exact O|].
    destruct ok; [right|left; exact W]. split; [apply W|]. unfold dot_shut. rewrite D. exact Sh.
Qed.

(* [c'] extends the output of [c] by exactly the lines [ls]; the writer is
   quiet again; name, protocol flavour and TLS flag are unchanged.  Setters
   of other fields do not show: [ext_by c (set_ext c' x) ls] IS
   [ext_by c c' ls]. *)
Definition ext_by (c c' : client) (ls : list bytes) : Prop :=
  c_out c' = c_out c ++ lines ls /\ quiet c'
  /\ c_local c' = c_local c /\ c_lmtp c' = c_lmtp c /\ c_tls c' = c_tls c.

Lemma ext_by_refl c : quiet c -> ext_by c c [].
Proof. intros Q. unfold ext_by. cbn [lines flat_map]. rewrite app_nil_r. repeat split. exact Q. Qed.

Lemma ext_by_trans c c1 c2 a b : ext_by c c1 a -> ext_by c1 c2 b -> ext_by c c2 (a ++ b).
Proof.
  intros (O1 & _ & L1 & M1 & T1) (O2 & Q2 & L2 & M2 & T2). unfold ext_by.
  rewrite O2, O1, lines_app, app_assoc, L2, L1, M2, M1, T2, T1. repeat split. exact Q2.
Qed.

Lemma c_cmd_ctl c expect line r c' : c_cmd c expect line = (r, c') -> ctl c' = ctl c.
Proof.
  unfold c_cmd. destruct (printf_line c line) as [ok c1] eqn:Ep.
  destruct (printf_line_ctl _ _ _ _ Ep) as [Ct _]. destruct ok.
  - unfold c_read. destruct (client_read_response expect (c_in c1)) as [[[code msg] e] rest].
    intros [= _ <-]. exact Ct.
  - intros [= _ <-]. exact Ct.
Qed.

(* Client.cmd: exactly the line, or - and then it returns an I/O error -
   nothing *)
Lemma c_cmd_ext c expect line r c' :
  quiet c -> c_cmd c expect line = (r, c') ->
  exists own, ext_by c c' own /\ at_most line own /\ (own = [] -> r = (0%Z, [], RIo)).
Proof.
  intros Q E. destruct (ctl_fields _ _ (c_cmd_ctl _ _ _ _ _ E)) as (M & L & _ & _ & _ & _ & T & _).
  unfold c_cmd in E. destruct (printf_line c line) as [ok c1] eqn:Ep.
  destruct (printf_line_quiet _ _ _ _ Q Ep) as [O Q1]. destruct ok.
  - unfold c_read in E. destruct (client_read_response expect (c_in c1)) as [[[code msg] e] rest].
    injection E as _ <-. exists [line]. rewrite <- lines_one in O.
    split; [repeat split; assumption|]. split; [right; reflexivity|discriminate].
  - injection E as <- <-. exists []. split; [repeat split; assumption|]. split; [left|]; reflexivity.
Qed.

Lemma cmd_err_ext c expect line r c' :
  quiet c -> cmd_err c expect line = (r, c') -> exists own, ext_by c c' own /\ at_most line own.
Proof.
  unfold cmd_err. intros Q E. destruct (c_cmd c expect line) as [[[code msg] e] c1] eqn:Ec.
  injection E as _ <-. destruct (c_cmd_ext _ _ _ _ _ Q Ec) as (own & X & A & _). exists own. tauto.
Qed.

Lemma c_greet_ext c r c' : quiet c -> c_greet c = (r, c') -> ext_by c c' [].
Proof.
  intros Q. unfold c_greet. destruct (c_did_greet c).
  - intros [= _ <-]. apply ext_by_refl, Q.
  - unfold c_read. destruct (client_read_response 220 (c_in c)) as [[[code msg] e] rest].
    destruct e; intros [= _ <-]; exact (ext_by_refl c Q).
Qed.

Definition hello_verb (c : client) : bytes := if c_lmtp c then bs "LHLO " else bs "EHLO ".

Lemma c_ehlo_ext c r c' :
  quiet c -> c_ehlo c = (r, c') ->
  exists own, ext_by c c' own /\ at_most (hello_verb c ++ c_local c) own.
Proof.
  intros Q. unfold c_ehlo, hello_verb. cbv zeta.
  destruct (c_cmd c 250 _) as [[[code msg] e] c1] eqn:Ec.
  destruct (c_cmd_ext _ _ _ _ _ Q Ec) as (own & X & A & _).
  intros E. exists own. split; [|exact A]. destruct e; injection E as _ <-; exact X.
Qed.

Lemma c_helo_ext c r c' :
  quiet c -> c_helo c = (r, c') ->
  exists own, ext_by c c' own /\ at_most (bs "HELO " ++ c_local c) own.
Proof.
  intros Q. unfold c_helo.
  destruct (c_cmd (set_ext c None) 250 (bs "HELO " ++ c_local c)) as [[[code msg] e] c1] eqn:Ec.
  intros [= _ <-]. destruct (c_cmd_ext _ _ _ _ _ (Q : quiet (set_ext c None)) Ec) as (own & X & A & _).
  exists own. split; [exact X|exact A].
Qed.

(* the lines hello() can write *)
Definition hello_line (c : client) (l : bytes) : Prop :=
  l = hello_verb c ++ c_local c \/ l = bs "HELO " ++ c_local c.

Lemma hello_line_ext c c1 ls l : ext_by c c1 ls -> hello_line c1 l -> hello_line c l.
Proof. unfold hello_line, hello_verb. intros (_ & _ & -> & -> & _). tauto. Qed.

Definition hello_ext (c c' : client) : Prop :=
  exists ls, ext_by c c' ls /\ Forall (hello_line c) ls /\ (List.length ls <= 2)%nat.

(* hello(): nothing, EHLO, or EHLO then HELO *)
Lemma c_hello_ext c r c' : quiet c -> c_hello c = (r, c') -> hello_ext c c'.
Proof.
  intros Q. unfold c_hello.
  assert (Nil : ext_by c c' [] -> hello_ext c c').
  { intros X. exists []. split; [exact X|]. split; [constructor|cbn; lia]. }
  destruct (c_did_hello c); [intros [= _ <-]; apply Nil, ext_by_refl, Q|].
  destruct (c_greet c) as [g c1] eqn:Eg. pose proof (c_greet_ext _ _ _ Q Eg) as X1.
  destruct g; try (intros [= _ <-]; apply Nil, X1).
  destruct (c_ehlo (set_did_hello c1 true)) as [e c2] eqn:Ee.
  destruct (c_ehlo_ext _ _ _ (proj1 (proj2 X1) : quiet (set_did_hello c1 true)) Ee) as (o1 & X2 & A1).
  pose proof (ext_by_trans _ _ _ _ _ X1 X2 : ext_by c c2 o1) as X12.
  assert (F1 : Forall (hello_line c) o1).
  { eapply at_most_Forall; [|exact A1]. apply (hello_line_ext c c1 [] _ X1). left. reflexivity. }
  pose proof (at_most_length _ _ A1) as N1.
  assert (Ehlo : c' = c2 \/ c' = set_hello_err c2 e -> hello_ext c c').
  { intros [->| ->]; exists o1; (split; [exact X12|]); (split; [exact F1|lia]). }
  destruct e; try (intros [= _ <-]; apply Ehlo; auto).
  (* an SMTP error: fall back to HELO on 500 / 502 *)
  cbn [is_500_502].
  destruct ((code =? 500)%Z || (code =? 502)%Z); [|intros [= _ <-]; apply Ehlo; auto].
  destruct (c_helo c2) as [h c3] eqn:Eh. intros [= _ <-].
  destruct (c_helo_ext _ _ _ (proj1 (proj2 X2)) Eh) as (o2 & X3 & A2).
  exists (o1 ++ o2). split; [exact (ext_by_trans _ _ _ _ _ X12 X3)|]. split.
  - apply Forall_app. split; [exact F1|]. eapply at_most_Forall; [|exact A2].
    apply (hello_line_ext c c2 o1 _ X12). right. reflexivity.
  - rewrite app_length. pose proof (at_most_length _ _ A2). lia.
Qed.

Lemma clean_sp_of l :
  mem_byte CR l = false /\ mem_byte LF l = false /\ mem_byte " " l = false -> clean_sp l.
Proof. intros (A & B & C). repeat split; assumption. Qed.

(* octets of a class that excludes CR, LF and SP *)
Lemma forallb_clean_sp (P : ascii -> bool) s :
  P CR = false -> P LF = false -> P " " = false -> forallb P s = true -> clean_sp s.
Proof. intros A B C H. apply clean_sp_of. repeat split; eapply forallb_not_mem; eassumption. Qed.

Lemma clean_sp_dec_of_Z z : clean_sp (dec_of_Z z).
Proof. apply (forallb_clean_sp zch); try reflexivity. apply dec_of_Z_zch. Qed.

Lemma clean_sp_join sep ts : clean_sp sep -> Forall clean_sp ts -> clean_sp (join sep ts).
Proof.
  intros [[S1 S2] S3] F. apply clean_sp_of.
  repeat split; apply mem_byte_join; try assumption; (eapply Forall_impl; [|exact F]);
    intros t [[A B] C]; assumption.
Qed.

(* the octets of Time.Format(time.RFC3339) *)
Definition timech (c : ascii) : bool :=
  is_digit c || Ascii.eqb c "-" || Ascii.eqb c ":" || Ascii.eqb c "T" || Ascii.eqb c "Z" || Ascii.eqb c "+".

Lemma forallb_repeat (P : ascii -> bool) x n : P x = true -> forallb P (repeat x n) = true.
Proof. intros H. induction n as [|n IH]; cbn [repeat forallb]; [reflexivity|]. rewrite H, IH. reflexivity. Qed.

Lemma append_int_timech x w : forallb timech (append_int x w) = true.
Proof.
  unfold append_int. rewrite !forallb_app. repeat (apply andb_true_iff; split).
  - destruct (x <? 0)%Z; reflexivity.
  - apply forallb_repeat. reflexivity.
  - eapply forallb_impl; [|apply dec_of_N_digits]. intros c Hc. unfold timech. rewrite Hc. reflexivity.
Qed.

Lemma format_rfc3339_timech t : forallb timech (format_rfc3339 t) = true.
Proof.
  unfold format_rfc3339. destruct (civil_from_days _) as [[y m] d].
  repeat (rewrite forallb_app || rewrite append_int_timech || cbn [forallb andb]).
  change (timech "-") with true. change (timech "T") with true. change (timech ":") with true.
  cbn [andb].
  destruct (rt_off t =? 0)%Z; [reflexivity|].
  destruct (Z.quot (rt_off t) 60 <? 0)%Z; cbn [forallb];
    repeat (rewrite forallb_app || rewrite append_int_timech || cbn [forallb andb]); reflexivity.
Qed.

(* keyword -> extension key that licenses it *)
Definition kw_table : list (bytes * bytes) :=
  [ (bs "BODY", bs "8BITMIME"); (bs "SIZE", bs "SIZE"); (bs "REQUIRETLS", bs "REQUIRETLS");
    (bs "SMTPUTF8", bs "SMTPUTF8"); (bs "RET", bs "DSN"); (bs "ENVID", bs "DSN");
    (bs "NOTIFY", bs "DSN"); (bs "ORCPT", bs "DSN"); (bs "AUTH", bs "AUTH"); (bs "RRVS", bs "RRVS") ].

Fixpoint kw_key (kw : bytes) (t : list (bytes * bytes)) : option bytes :=
  match t with
  | [] => None
  | (k, e) :: r => if bytes_eqb k kw then Some e else kw_key kw r
  end.

(* the extension key that licenses the parameter kw (a flag: v = []) or kw=v:
   the table's, except that BODY=BINARYMIME needs BINARYMIME *)
Definition ext_for (kw v : bytes) : option bytes :=
  if bytes_eqb kw (bs "BODY") && bytes_eqb v (bs "BINARYMIME") then Some (bs "BINARYMIME")
  else kw_key kw kw_table.

(* [p] is "KEYWORD" or "KEYWORD=value", KEYWORD in the table, the extension
   key that licenses it in [ext], and no CR / LF / SP anywhere in it *)
Definition param_ok (ext : option extmap) (p : bytes) : Prop :=
  clean_sp p /\
  exists kw k v, ext_for kw v = Some k /\ has_ext ext k = true /\
                 ((p = kw /\ v = []) \/ p = kw ++ "=" :: v).

(* the two ways to establish [param_ok]; for a constant keyword the first
   premise is a table lookup and the third a look at the keyword *)
Lemma param_kv ext kw k v :
  ext_for kw v = Some k -> has_ext ext k = true -> clean_sp kw -> clean_sp v ->
  param_ok ext (kw ++ "=" :: v).
Proof.
  intros I H Ck Cv. split; [|exists kw, k, v; tauto].
  apply clean_sp_app; [exact Ck|]. apply (clean_sp_app ["="]); [clean_const|exact Cv].
Qed.

Lemma param_flag ext kw k :
  ext_for kw [] = Some k -> has_ext ext k = true -> clean_sp kw -> param_ok ext kw.
Proof. intros I H C. split; [exact C|]. exists kw, k, []. tauto. Qed.

Lemma Forall_one {A} (P : A -> Prop) x : P x -> Forall P [x].
Proof. intros H. constructor; [exact H|constructor]. Qed.

(* Mail and Rcpt build their parameter lists by appending under a condition *)
Lemma Forall_snoc_if {A} (P : A -> Prop) (b : bool) l x :
  Forall P l -> (b = true -> P x) -> Forall P (if b then l ++ [x] else l).
Proof.
  intros H Hx. destruct b; [|exact H]. apply Forall_app. split; [exact H|exact (Forall_one _ _ (Hx eq_refl))].
Qed.

Lemma mail_dsn_params_ok ext o ps :
  has_ext ext (key "DSN") = true ->
  mail_dsn_params o = inl ps -> Forall (param_ok ext) ps.
Proof.
  intros Hd. unfold mail_dsn_params.
  destruct (if bytes_eqb (mo_ret o) (bs "FULL") || _ then _ else _) as [p|] eqn:Er; [|discriminate].
  assert (R : Forall (param_ok ext) p).
  { destruct (bytes_eqb (mo_ret o) (bs "FULL") || bytes_eqb (mo_ret o) (bs "HDRS")) eqn:E.
    - injection Er as <-. apply Forall_one.
      apply (param_kv ext (bs "RET") (bs "DSN")); [reflexivity|exact Hd|clean_const|].
      apply orb_true_iff in E as [E|E]; apply bytes_eqb_eq in E; rewrite E; clean_const.
    - destruct (mo_ret o); [|discriminate]. injection Er as <-. constructor. }
  destruct (mo_envid o) as [|x r]; [intros [= <-]; exact R|].
  destruct (is_printable_ascii (x :: r)); [|discriminate]. intros [= <-].
  apply (Forall_snoc_if _ true); [exact R|intros _].
  apply (param_kv ext (bs "ENVID") (bs "DSN")); [reflexivity|exact Hd|clean_const|].
  apply clean_sp_of, encode_xtext_no_crlf_sp.
Qed.

Lemma mail_body_param_ok ext opts p1 :
  mail_body_param ext opts = inl p1 -> Forall (param_ok ext) p1.
Proof.
  unfold mail_body_param.
  assert (Body : forall v k, ext_for (bs "BODY") v = Some k -> has_ext ext k = true -> clean_sp v ->
                             Forall (param_ok ext) [bs "BODY=" ++ v]).
  { intros v k I H C. apply Forall_one, (param_kv ext (bs "BODY") k v I H); [clean_const|exact C]. }
  assert (Dflt : Forall (param_ok ext) (if has_ext ext (key "8BITMIME") then [bs "BODY=8BITMIME"] else [])).
  { destruct (has_ext ext (key "8BITMIME")) eqn:E; [|constructor].
    apply (Body (bs "8BITMIME") (bs "8BITMIME")); [reflexivity|exact E|clean_const]. }
  destruct opts as [o|]; [|intros [= <-]; exact Dflt].
  destruct (mo_body o) as [|b0 bt]; [intros [= <-]; exact Dflt|].
  destruct (bytes_eqb (b0 :: bt) (bs "7BIT") || bytes_eqb (b0 :: bt) (bs "8BITMIME")) eqn:E8.
  - destruct (has_ext ext (key "8BITMIME")) eqn:E; [|discriminate]. intros [= <-].
    apply orb_true_iff in E8 as [E8|E8]; apply bytes_eqb_eq in E8; rewrite E8;
      (apply (Body _ (bs "8BITMIME")); [reflexivity|exact E|clean_const]).
  - destruct (bytes_eqb (b0 :: bt) (bs "BINARYMIME")) eqn:Eb; [|discriminate].
    destruct (has_ext ext (key "BINARYMIME")) eqn:E; [|discriminate]. intros [= <-].
    apply bytes_eqb_eq in Eb. rewrite Eb.
    apply (Body _ (bs "BINARYMIME")); [reflexivity|exact E|clean_const].
Qed.

(* every parameter Mail renders is one clean token whose keyword the server
   offered in the EHLO reply [ext] *)
Lemma mail_params_ok ext opts ps :
  mail_params ext opts = inl ps -> Forall (param_ok ext) ps.
Proof.
  unfold mail_params.
  destruct (mail_body_param ext opts) as [p1|] eqn:Eb; [|discriminate].
  apply mail_body_param_ok in Eb. destruct opts as [o|]; [|intros [= <-]; exact Eb].
  (* requested and not offered: the call has failed *)
  destruct (mo_requiretls o && negb (has_ext ext (key "REQUIRETLS"))) eqn:E3; [discriminate|].
  destruct (mo_utf8 o && negb (has_ext ext (key "SMTPUTF8"))) eqn:E4; [discriminate|].
  destruct (if has_ext ext (key "DSN") then mail_dsn_params o else inl []) as [d|] eqn:Ed; [|discriminate].
  intros [= <-].
  (* the list is BODY, [SIZE], [REQUIRETLS], [SMTPUTF8], the DSN block, [AUTH] *)
  set (p5 := _ ++ d). assert (P5 : Forall (param_ok ext) p5).
  { apply Forall_app. split.
    - apply Forall_snoc_if; [apply Forall_snoc_if; [apply Forall_snoc_if; [exact Eb|]|]|].
      + intros E. apply andb_true_iff in E as [E _].
        apply (param_kv ext (bs "SIZE") (bs "SIZE")); [reflexivity|exact E|clean_const|apply clean_sp_dec_of_Z].
      + intros E. rewrite E in E3. apply negb_false_iff in E3.
        apply (param_flag ext (bs "REQUIRETLS") (bs "REQUIRETLS")); [reflexivity|exact E3|clean_const].
      + intros E. rewrite E in E4. apply negb_false_iff in E4.
        apply (param_flag ext (bs "SMTPUTF8") (bs "SMTPUTF8")); [reflexivity|exact E4|clean_const].
    - destruct (has_ext ext (key "DSN")) eqn:E; [exact (mail_dsn_params_ok _ _ _ E Ed)|].
      injection Ed as <-. constructor. }
  clearbody p5. destruct (mo_auth o) as [a|]; [|exact P5]. apply Forall_snoc_if; [exact P5|intros E].
  apply (param_kv ext (bs "AUTH") (bs "AUTH")); [reflexivity|exact E|clean_const|].
  destruct a; [clean_const|apply clean_sp_of, encode_xtext_no_crlf_sp].
Qed.

Definition body_err (e : bytes) : Prop := e = err_8bitmime \/ e = err_binarymime \/ e = err_body.

Lemma mail_body_param_err ext opts e : mail_body_param ext opts = inr e -> body_err e.
Proof.
  unfold mail_body_param, body_err. destruct opts as [o|]; [|discriminate].
  destruct (mo_body o) as [|b0 bt]; [discriminate|].
  destruct (bytes_eqb (b0 :: bt) (bs "7BIT") || bytes_eqb (b0 :: bt) (bs "8BITMIME")).
  - destruct (has_ext ext (key "8BITMIME")); [discriminate|]. intros [= <-]. tauto.
  - destruct (bytes_eqb (b0 :: bt) (bs "BINARYMIME")).
    + destruct (has_ext ext (key "BINARYMIME")); [discriminate|]. intros [= <-]. tauto.
    + intros [= <-]. tauto.
Qed.

(* Body = 7BIT / 8BITMIME without 8BITMIME offered, Body = BINARYMIME without
   BINARYMIME offered, any other non-empty Body: a local error *)
Definition body_refused (ext : option extmap) (o : mail_opts) : Prop :=
  ((mo_body o = bs "7BIT" \/ mo_body o = bs "8BITMIME") /\ has_ext ext (key "8BITMIME") = false)
  \/ (mo_body o = bs "BINARYMIME" /\ has_ext ext (key "BINARYMIME") = false)
  \/ (mo_body o <> [] /\ mo_body o <> bs "7BIT" /\ mo_body o <> bs "8BITMIME"
      /\ mo_body o <> bs "BINARYMIME").

Lemma mail_body_param_refused ext o :
  body_refused ext o ->
  exists e, mail_body_param ext (Some o) = inr e
            /\ ((mo_body o = bs "7BIT" \/ mo_body o = bs "8BITMIME") -> e = err_8bitmime)
            /\ (mo_body o = bs "BINARYMIME" -> e = err_binarymime)
            /\ (mo_body o <> bs "7BIT" -> mo_body o <> bs "8BITMIME" -> mo_body o <> bs "BINARYMIME"
                -> e = err_body).
Proof.
  unfold body_refused, mail_body_param.
  intros [[[E|E] H]|[[E H]|(N0 & N1 & N2 & N3)]];
    try (rewrite E, H; eexists; (split; [reflexivity|]); repeat split; intros;
         try reflexivity; intuition (discriminate || congruence)).
  destruct (mo_body o) as [|b0 bt] eqn:Eb; [congruence|].
  destruct (bytes_eqb (b0 :: bt) (bs "7BIT")) eqn:E1; [apply bytes_eqb_eq in E1; congruence|].
  destruct (bytes_eqb (b0 :: bt) (bs "8BITMIME")) eqn:E2; [apply bytes_eqb_eq in E2; congruence|].
  destruct (bytes_eqb (b0 :: bt) (bs "BINARYMIME")) eqn:E3; [apply bytes_eqb_eq in E3; congruence|].
  eexists. split; [reflexivity|]. repeat split; intros; try reflexivity; intuition congruence.
Qed.

Lemma notify_ok_clean vals : notify_ok vals = true -> Forall clean_sp vals.
Proof.
  unfold notify_ok. destruct vals as [|v0 r0]; [discriminate|].
  intros H. apply andb_true_iff in H as [H _]. apply andb_true_iff in H as [H _].
  apply Forall_forall. intros v Hv. rewrite forallb_forall in H. specialize (H v Hv).
  repeat (apply orb_true_iff in H as [H|H]); apply bytes_eqb_eq in H; rewrite H; clean_const.
Qed.

Lemma rcpt_dsn_params_ok ext o ps :
  has_ext ext (key "DSN") = true ->
  rcpt_dsn_params ext o = inl ps -> Forall (param_ok ext) ps.
Proof.
  intros Hd. unfold rcpt_dsn_params.
  destruct (match ro_notify o with [] => inl [] | _ :: _ => _ end) as [p|] eqn:En; [|discriminate].
  assert (N : Forall (param_ok ext) p).
  { destruct (ro_notify o) as [|x r]; [injection En as <-; constructor|].
    destruct (notify_ok (x :: r)) eqn:Ok; [|discriminate]. injection En as <-. apply Forall_one.
    apply (param_kv ext (bs "NOTIFY") (bs "DSN")); [reflexivity|exact Hd|clean_const|].
    refine (clean_sp_join (bs ",") (x :: r) _ (notify_ok_clean _ Ok)). clean_const. }
  assert (Orcpt : forall v, clean_sp v -> Forall (param_ok ext) (p ++ [bs "ORCPT=" ++ v])).
  { intros v C. apply (Forall_snoc_if _ true); [exact N|intros _].
    apply (param_kv ext (bs "ORCPT") (bs "DSN")); [reflexivity|exact Hd|clean_const|exact C]. }
  destruct (ro_orcpt o) as [|x r]; [intros [= <-]; exact N|].
  destruct (bytes_eqb (ro_orcpt_type o) (bs "RFC822")).
  - destruct (is_printable_ascii (x :: r)); [|discriminate]. intros [= <-].
    apply (Orcpt (bs "RFC822;" ++ _)), clean_sp_app; [clean_const|apply clean_sp_of, encode_xtext_no_crlf_sp].
  - destruct (bytes_eqb (ro_orcpt_type o) (bs "UTF-8")); [|discriminate]. intros [= <-].
    match goal with |- context [if ?b then _ else _] => destruct b end;
      apply (Orcpt (bs "UTF-8;" ++ _)), clean_sp_app;
      try clean_const; apply clean_sp_of;
      [apply encode_utf8_addr_unitext_no_crlf_sp|apply encode_utf8_addr_xtext_no_crlf_sp].
Qed.

Lemma rcpt_params_ok ext opts ps :
  rcpt_params ext opts = inl ps -> Forall (param_ok ext) ps.
Proof.
  unfold rcpt_params. destruct opts as [o|]; [|intros [= <-]; constructor].
  destruct (if has_ext ext (key "DSN") then rcpt_dsn_params ext o else inl []) as [d|] eqn:Ed; [|discriminate].
  assert (D : Forall (param_ok ext) d).
  { destruct (has_ext ext (key "DSN")) eqn:E; [exact (rcpt_dsn_params_ok _ _ _ E Ed)|].
    injection Ed as <-. constructor. }
  intros [= <-]. destruct (ro_rrvs o) as [t|]; [|exact D]. apply Forall_snoc_if; [exact D|intros E].
  apply andb_true_iff in E as [E _].
  apply (param_kv ext (bs "RRVS") (bs "RRVS")); [reflexivity|exact E|clean_const|].
  apply (forallb_clean_sp timech); try reflexivity. apply format_rfc3339_timech.
Qed.

Lemma render_params_clean ext ps : Forall (param_ok ext) ps -> clean (render_params ps).
Proof.
  induction 1 as [|p r [Hp _] _ IH]; [clean_const|].
  unfold render_params. cbn [flat_map]. apply (clean_app [" "]); [clean_const|].
  apply clean_app; [apply Hp|exact IH].
Qed.

(* the MAIL and RCPT lines: a constant, the address, ">", the parameters *)
Lemma addr_line_clean ext pre a ps :
  clean pre -> clean a -> Forall (param_ok ext) ps -> clean (pre ++ a ++ bs ">" ++ render_params ps).
Proof.
  intros Cp Ca P. apply clean_app; [exact Cp|]. apply clean_app; [exact Ca|].
  apply clean_app; [clean_const|]. eapply render_params_clean; exact P.
Qed.

Lemma c_hello_quiet c h c1 : quiet c -> c_hello c = (h, c1) -> quiet c1.
Proof. intros Q E. destruct (c_hello_ext _ _ _ Q E) as (ls & X & _). apply X. Qed.

(* what a call puts on the wire: at most two hello lines of the client [c0]
   (none unless [hello]), then own lines of the shape [S]; and whose name the
   client bears afterwards *)
Definition says (c0 c c' : client) (hello : bool) (S : list bytes -> Prop) : Prop :=
  exists hl own,
    c_out c' = c_out c ++ lines (hl ++ own)
    /\ Forall (hello_line c0) hl /\ (List.length hl <= 2)%nat /\ (hello = false -> hl = [])
    /\ S own
    /\ (c_local c' = c_local c \/ c_local c' = c_local c0).

Lemma says_own c0 c c' hello own (S : list bytes -> Prop) :
  ext_by c c' own -> S own -> says c0 c c' hello S /\ quiet c'.
Proof. intros (O & Q' & L & _) A. split; [|exact Q']. exists [], own. repeat split; auto. Qed.

(* a method that says hello first: the hello lines are those of the client as
   it is, and the state is quiet afterwards *)
Definition hello_then (c c' : client) (S : list bytes -> Prop) : Prop :=
  says c c c' true S /\ quiet c'.

Lemma hello_then_intro c h c1 c' own (S : list bytes -> Prop) :
  quiet c -> c_hello c = (h, c1) -> ext_by c1 c' own -> S own -> hello_then c c' S.
Proof.
  intros Q Eh X So. destruct (c_hello_ext _ _ _ Q Eh) as (hl & Xh & F & Ln).
  destruct (ext_by_trans _ _ _ _ _ Xh X) as (O & Q' & L & _). split; [|exact Q'].
  exists hl, own. repeat split; auto. discriminate.
Qed.

Lemma with_hello_ext c k r c' (S : list bytes -> Prop) :
  quiet c -> with_hello c k = (r, c') -> S [] ->
  (forall c1 r1 c2, quiet c1 -> k c1 = (r1, c2) -> exists own, ext_by c1 c2 own /\ S own) ->
  hello_then c c' S.
Proof.
  intros Q E S0 K. unfold with_hello in E. destruct (c_hello c) as [h c1] eqn:Eh.
  pose proof (c_hello_quiet _ _ _ Q Eh) as Q1.
  destruct h; try (injection E as _ <-; exact (hello_then_intro _ _ _ _ [] S Q Eh (ext_by_refl _ Q1) S0)).
  destruct (K c1 r c' Q1 E) as (own & X & So). exact (hello_then_intro _ _ _ _ own S Q Eh X So).
Qed.

Lemma c_verify_ext c addr r c' :
  quiet c -> clean addr -> c_verify c addr = (r, c') ->
  hello_then c c' (at_most (bs "VRFY " ++ addr)).
Proof.
  intros Q C. unfold c_verify. apply valid_line_clean in C. rewrite C. cbn [negb].
  intros E. eapply with_hello_ext; [exact Q|exact E|left; reflexivity|].
  intros c1 r1 c2 Q1 E1. exact (cmd_err_ext _ _ _ _ _ Q1 E1).
Qed.

Lemma c_noop_ext c r c' : quiet c -> c_noop c = (r, c') -> hello_then c c' (at_most (bs "NOOP")).
Proof.
  intros Q E. eapply with_hello_ext; [exact Q|exact E|left; reflexivity|].
  intros c1 r1 c2 Q1 E1. exact (cmd_err_ext _ _ _ _ _ Q1 E1).
Qed.

Lemma c_reset_ext c r c' : quiet c -> c_reset c = (r, c') -> hello_then c c' (at_most (bs "RSET")).
Proof.
  intros Q E. eapply with_hello_ext; [exact Q|exact E|left; reflexivity|].
  intros c1 r1 c2 Q1 E1. unfold c_reset_step in E1.
  destruct (cmd_err c1 250 (bs "RSET")) as [e c3] eqn:Ec.
  destruct (cmd_err_ext _ _ _ _ _ Q1 Ec) as (own & X & A). exists own. split; [|exact A].
  destruct e; injection E1 as _ <-; exact X.
Qed.

Lemma c_quit_ext c r c' : quiet c -> c_quit c = (r, c') -> hello_then c c' (at_most (bs "QUIT")).
Proof.
  intros Q E. eapply with_hello_ext; [exact Q|exact E|left; reflexivity|].
  intros c1 r1 c2 Q1 E1. unfold c_quit_step in E1.
  destruct (cmd_err c1 221 (bs "QUIT")) as [e c3] eqn:Ec.
  destruct (cmd_err_ext _ _ _ _ _ Q1 Ec) as (own & X & A). exists own. split; [|exact A].
  destruct e; injection E1 as _ <-; exact X.
Qed.

Lemma c_extension_ext c name x c' :
  quiet c -> c_extension c name = (x, c') -> hello_then c c' (fun own => own = []).
Proof.
  intros Q. unfold c_extension. destruct (c_hello c) as [h c1] eqn:Eh. intros E.
  assert (c' = c1) as ->.
  { destruct h; try (injection E as _ <-; reflexivity).
    destruct (c_ext c1) as [m|]; [destruct (ext_get (to_upper name) m)|]; injection E as _ <-; reflexivity. }
  exact (hello_then_intro _ _ _ _ [] _ Q Eh (ext_by_refl _ (c_hello_quiet _ _ _ Q Eh)) eq_refl).
Qed.

(* Hello: refused without a trace, or hello() under the new name *)
Lemma c_hello_api_ext c name r c' :
  quiet c -> clean name -> c_hello_api c name = (r, c') ->
  c' = c \/ hello_ext (set_local c name) c'.
Proof.
  intros Q C. unfold c_hello_api. apply valid_line_clean in C. rewrite C. cbn [negb].
  destruct (c_did_hello c); [intros [= _ <-]; left; reflexivity|].
  intros E. right. exact (c_hello_ext _ _ _ (Q : quiet (set_local c name)) E).
Qed.

(* Mail after hello: a local error with nothing written, or at most the one
   MAIL line whose parameters are all negotiated *)
Lemma c_mail_step_ext from opts c r c' :
  quiet c -> c_mail_step from opts c = (r, c') ->
  (exists e, mail_params (c_ext c) opts = inr e /\ r = RLocal e /\ ext_by c c' [])
  \/ (exists ps own, mail_params (c_ext c) opts = inl ps /\ ext_by c c' own
                     /\ at_most (mail_line from ps) own).
Proof.
  intros Q. unfold c_mail_step. change (c_ext (set_rcpts c [])) with (c_ext c).
  destruct (mail_params (c_ext c) opts) as [ps|e].
  - intros E. right. exists ps.
    destruct (cmd_err_ext _ _ _ _ _ (Q : quiet (set_rcpts c [])) E) as (own & X & A).
    exists own. split; [reflexivity|]. split; [exact X|exact A].
  - intros [= <- <-]. left. exists e. split; [reflexivity|]. split; [reflexivity|exact (ext_by_refl c Q)].
Qed.

Lemma c_rcpt_ext c to opts r c' :
  quiet c -> clean to -> c_rcpt c to opts = (r, c') ->
  (exists e, rcpt_params (c_ext c) opts = inr e /\ r = RLocal e /\ c' = c)
  \/ (exists ps own, rcpt_params (c_ext c) opts = inl ps /\ ext_by c c' own
                     /\ at_most (rcpt_line to ps) own).
Proof.
  intros Q C. unfold c_rcpt. apply valid_line_clean in C. rewrite C. cbn [negb].
  destruct (rcpt_params (c_ext c) opts) as [ps|e].
  - destruct (cmd_err c 25 (rcpt_line to ps)) as [e1 c1] eqn:Ec. intros E. right. exists ps.
    destruct (cmd_err_ext _ _ _ _ _ Q Ec) as (own & X & A).
    exists own. split; [reflexivity|]. split; [|exact A].
    destruct e1; injection E as _ <-; exact X.
  - intros [= <- <-]. left. exists e. repeat split.
Qed.

(* Data, and LMTPData on an LMTP client.  Opening the data writer leaves the
   output as it is, but the state is not quiet any more: a writer is open *)
Lemma data_ext c cb r c' :
  quiet c ->
  (let '(e, c1) := cmd_err c 354 (bs "DATA") in
   match e with RNil => (RNil, open_writer c1 cb) | _ => (e, c1) end) = (r, c') ->
  exists own, c_out c' = c_out c ++ lines own /\ at_most (bs "DATA") own
              /\ c_local c' = c_local c /\ (r <> RNil -> quiet c').
Proof.
  intros Q. destruct (cmd_err c 354 (bs "DATA")) as [e c1] eqn:Ec.
  destruct (cmd_err_ext _ _ _ _ _ Q Ec) as (own & (O & Q1 & L & _) & A).
  intros E. exists own.
  destruct e; injection E as <- <-;
    try (split; [exact O|]; split; [exact A|]; split; [exact L|]; intros _; exact Q1).
  unfold open_writer. csimpl.
  destruct (ctl_fields _ _ (proj1 (close_dot_ctl c1))) as (_ & L2 & _).
  rewrite (close_dot_quiet c1 Q1), L2. repeat split; try assumption. congruence.
Qed.

Definition mail_own (from : bytes) (own : list bytes) : Prop :=
  own = [] \/ exists ext ps, own = [mail_line from ps] /\ Forall (param_ok ext) ps.
Definition rcpt_own (to : bytes) (own : list bytes) : Prop :=
  own = [] \/ exists ext ps, own = [rcpt_line to ps] /\ Forall (param_ok ext) ps.

(* Mail = validateLine, hello(), then the step above on the state hello left *)
Lemma c_mail_unfold c from opts :
  clean from -> c_mail c from opts = with_hello c (c_mail_step from opts).
Proof. intros C. unfold c_mail. apply valid_line_clean in C. rewrite C. reflexivity. Qed.

Lemma c_mail_ext c from opts r c' :
  quiet c -> clean from -> c_mail c from opts = (r, c') -> hello_then c c' (mail_own from).
Proof.
  intros Q C. rewrite c_mail_unfold by exact C.
  intros E. eapply with_hello_ext; [exact Q|exact E|left; reflexivity|].
  intros c1 r1 c2 Q1 E1.
  destruct (c_mail_step_ext _ _ _ _ _ Q1 E1) as [(e & _ & _ & X)|(ps & own & Ep & X & A)].
  - exists []. split; [exact X|left; reflexivity].
  - exists own. split; [exact X|]. destruct A as [->| ->]; [left; reflexivity|].
    right. exists (c_ext c1), ps. split; [reflexivity|]. eapply mail_params_ok; exact Ep.
Qed.

Definition auth_reply_line (l : bytes) : Prop := l = bs "*" \/ exists x, l = b64_encode x.

(* what Auth writes after its AUTH line, given [n] scripted steps *)
Definition auth_tail (c c' : client) (n : nat) : Prop :=
  exists own, ext_by c c' own /\ Forall auth_reply_line own /\ (List.length own <= S n)%nat.

(* how the loop of Auth ends: with the state as it is, or after the line "*" *)
Lemma auth_stop c c' n : quiet c -> c' = c \/ c' = auth_abort c -> auth_tail c c' n.
Proof.
  intros Q [->| ->].
  - exists []. split; [apply ext_by_refl, Q|]. split; [constructor|cbn; lia].
  - unfold auth_abort. destruct (c_cmd c 501 (bs "*")) as [x c1] eqn:E.
    destruct (c_cmd_ext _ _ _ _ _ Q E) as (own & X & A & _). exists own. split; [exact X|].
    split; [eapply at_most_Forall; [left; reflexivity|exact A]|].
    pose proof (at_most_length _ _ A). lia.
Qed.

Lemma auth_loop_ext steps : forall c code msg64 got r got' c',
  quiet c -> auth_loop steps c code msg64 got = (r, got', c') -> auth_tail c c' (List.length steps).
Proof.
  (* by the reply code: every exit of the loop but one returns the state as it
     is or after the abort line *)
  induction steps as [|s steps IH]; intros c code msg64 got r got' c' Q E; cbn [auth_loop] in E;
    (destruct (code =? 334)%Z;
     [destruct (b64_decode msg64) as [msg|]
     |destruct (code =? 235)%Z; [|destruct (to_smtp_err code msg64) as [[c0 ec] m]]]);
    try (injection E as _ _ <-; apply auth_stop; auto).
  (* a challenge and steps left: only a response is followed by another round *)
  destruct s as [[x|]|t]; try (injection E as _ _ <-; apply auth_stop; auto).
  destruct (c_cmd c 0 (b64_encode x)) as [[[code' msg'] e] c1] eqn:Ec.
  destruct (c_cmd_ext _ _ _ _ _ Q Ec) as (o1 & X1 & A1 & _).
  assert (auth_tail c1 c' (List.length steps)) as (o2 & X2 & F2 & L2).
  { destruct e; try (injection E as _ _ <-; apply auth_stop; [apply X1|auto]).
    exact (IH _ _ _ _ _ _ _ (proj1 (proj2 X1)) E). }
  exists (o1 ++ o2). split; [exact (ext_by_trans _ _ _ _ _ X1 X2)|]. split.
  - apply Forall_app. split; [|exact F2]. eapply at_most_Forall; [|exact A1]. right. eexists. reflexivity.
  - rewrite app_length. pose proof (at_most_length _ _ A1). cbn [List.length]. lia.
Qed.

Definition auth_own (s : cscript) (own : list bytes) : Prop :=
  own = [] \/ exists rest, own = auth_line s :: rest /\ Forall auth_reply_line rest
                           /\ (List.length rest <= S (List.length (cs_steps s)))%nat.

Lemma c_auth_ext c s r got c' :
  quiet c -> c_auth c s = (r, got, c') -> hello_then c c' (auth_own s).
Proof.
  intros Q. unfold c_auth. destruct (c_hello c) as [h c1] eqn:Eh.
  pose proof (c_hello_quiet _ _ _ Q Eh) as Q1.
  assert (Stop : c' = c1 -> hello_then c c' (auth_own s)).
  { intros ->. exact (hello_then_intro _ _ _ _ [] _ Q Eh (ext_by_refl _ Q1) (or_introl eq_refl)). }
  intros E. destruct h; try (injection E as _ _ <-; apply Stop; reflexivity).
  unfold c_auth_step in E. destruct (cs_start_err s); [injection E as _ _ <-; apply Stop; reflexivity|].
  destruct (c_cmd c1 0 (auth_line s)) as [[[code msg64] e] c2] eqn:Ec.
  destruct (c_cmd_ext _ _ _ _ _ Q1 Ec) as (o1 & X1 & [->| ->] & Io).
  - (* the AUTH line could not be written: an I/O error, the loop is not entered *)
    injection (Io eq_refl) as _ _ ->. injection E as _ _ <-.
    exact (hello_then_intro _ _ _ _ [] _ Q Eh X1 (or_introl eq_refl)).
  - assert (auth_tail c2 c' (List.length (cs_steps s))) as (o2 & X2 & F2 & L2).
    { destruct e; try (injection E as _ _ <-; apply auth_stop; [apply X1|auto]).
      eapply auth_loop_ext; [apply X1|exact E]. }
    apply (hello_then_intro _ _ _ _ ([auth_line s] ++ o2) _ Q Eh (ext_by_trans _ _ _ _ _ X1 X2)).
    right. exists o2. repeat split; assumption.
Qed.

(* strings.TrimSpace only removes octets *)
Lemma In_skipn {A} (x : A) n l : In x (skipn n l) -> In x l.
Proof.
  revert l. induction n as [|n IH]; intros l H; [exact H|].
  destruct l as [|y l]; [exact H|]. right. apply IH. exact H.
Qed.

Lemma trim_left_f_In x fuel s : In x (trim_left_f fuel s) -> In x s.
Proof.
  revert s. induction fuel as [|f IH]; intros s H; [exact H|].
  cbn [trim_left_f] in H. destruct (space_len s); [exact H|].
  apply IH in H. eapply In_skipn; exact H.
Qed.

Lemma trim_right_f_In x fuel s : In x (trim_right_f fuel s) -> In x s.
Proof.
  revert s. induction fuel as [|f IH]; intros s H; [exact H|].
  cbn [trim_right_f] in H. destruct (space_len_rev s); [exact H|].
  apply IH in H. eapply In_skipn; exact H.
Qed.

Lemma trim_space_In x s : In x (trim_space s) -> In x s.
Proof.
  unfold trim_space, trim_right_space, trim_left_space. intros H.
  apply in_rev in H. apply trim_right_f_In in H. apply in_rev in H.
  eapply trim_left_f_In; exact H.
Qed.

Lemma clean_trim_space s : clean s -> clean (trim_space s).
Proof.
  assert (H : forall x, mem_byte x s = false -> mem_byte x (trim_space s) = false).
  { intros x Hx. destruct (mem_byte x (trim_space s)) eqn:E; [|reflexivity].
    apply mem_byte_In, trim_space_In, mem_byte_In in E. congruence. }
  intros [A B]. split; apply H; assumption.
Qed.

Lemma clean_b64 x : clean (b64_encode x).
Proof. destruct (b64_encode_no_crlf x) as [A B]. split; assumption. Qed.

Lemma auth_reply_line_clean l : auth_reply_line l -> clean l.
Proof. intros [->|[x ->]]; [clean_const|apply clean_b64]. Qed.

Lemma auth_line_clean s : clean (cs_mech s) -> clean (auth_line s).
Proof.
  intros M. unfold auth_line. apply clean_trim_space.
  apply clean_app; [clean_const|]. apply clean_app; [exact M|]. apply (clean_app [" "]); [clean_const|].
  destruct (cs_ir s) as [[|a ir]|]; [clean_const|apply clean_b64|clean_const].
Qed.

(* the argument that validateLine checks *)
Definition line_arg (k : call) : option bytes :=
  match k with
  | KHello n => Some n | KVerify a => Some a | KMail f _ => Some f | KRcpt t _ => Some t
  | _ => None
  end.

(* the methods of C15: all but the data writer's Write / Close, the composite
   SendMail and the constructor NewClientStartTLS (see C10).  For Auth the
   mechanism NAME (supplied by the sasl.Client implementation) must not
   contain CR or LF: Auth does not check it. *)
Definition cmd_call (k : call) : Prop :=
  match k with
  | KWrite _ | KClose | KSendMail _ _ _ | KStartTLS => False
  | KAuth s => clean (cs_mech s)
  | _ => True
  end.

Definition says_hello (k : call) : bool :=
  match k with KRcpt _ _ | KData | KLmtpData _ => false | _ => true end.

(* the method's own protocol steps *)
Definition own_shape (k : call) (own : list bytes) : Prop :=
  match k with
  | KHello _ | KExtension _ => own = []
  | KVerify a => at_most (bs "VRFY " ++ a) own
  | KMail f _ => mail_own f own
  | KRcpt t _ => rcpt_own t own
  | KData | KLmtpData _ => at_most (bs "DATA") own
  | KReset => at_most (bs "RSET") own
  | KNoop => at_most (bs "NOOP") own
  | KQuit => at_most (bs "QUIT") own
  | KAuth s => auth_own s own
  | _ => True
  end.

Definition hello_client (c : client) (k : call) : client :=
  match k with KHello n => set_local c n | _ => c end.

Lemma hello_client_clean c k :
  clean (c_local c) -> (forall a, line_arg k = Some a -> clean a) -> clean (c_local (hello_client c k)).
Proof. intros CL Ca. destruct k; try exact CL. apply Ca. reflexivity. Qed.

Lemma hello_line_clean c l : clean (c_local c) -> hello_line c l -> clean l.
Proof.
  intros C [->| ->]; apply clean_app; try exact C; try clean_const.
  unfold hello_verb. destruct (c_lmtp c); clean_const.
Qed.

Lemma own_shape_clean k own :
  cmd_call k -> (forall a, line_arg k = Some a -> clean a) -> own_shape k own -> Forall clean own.
Proof.
  intros Ck Ca. destruct k; cbn [own_shape cmd_call line_arg] in *; try contradiction;
    try (apply at_most_Forall; clean_const). (* the constant command lines *)
  - intros ->. constructor.
  - apply at_most_Forall. apply clean_app; [clean_const|]. apply Ca. reflexivity.
  - intros [->|(ext & ps & -> & P)]; constructor; [|constructor].
    apply (addr_line_clean ext (bs "MAIL FROM:<")); [clean_const|apply Ca; reflexivity|exact P].
  - intros [->|(ext & ps & -> & P)]; constructor; [|constructor].
    apply (addr_line_clean ext (bs "RCPT TO:<")); [clean_const|apply Ca; reflexivity|exact P].
  - intros [->|(rest & -> & F & _)]; constructor; [apply auth_line_clean; exact Ck|].
    eapply Forall_impl; [|exact F]. apply auth_reply_line_clean.
  - intros ->. constructor.
Qed.

Lemma run_call_ext c k :
  quiet c -> cmd_call k -> (forall a, line_arg k = Some a -> clean a) ->
  says (hello_client c k) c (snd (run_call c k)) (says_hello k) (own_shape k)
  /\ match k with
     | KData | KLmtpData _ => r_err (fst (run_call c k)) <> RNil -> quiet (snd (run_call c k))
     | _ => quiet (snd (run_call c k))
     end.
Proof.
  intros Q Ck Ca. destruct k; cbn [cmd_call] in Ck; try contradiction; cbn [run_call].
  - destruct (c_hello_api c name) as [r c'] eqn:E.
    destruct (c_hello_api_ext _ _ _ _ Q (Ca _ eq_refl) E) as [->|(hl & (O & Q' & L & _) & F & Ln)].
    + exact (says_own _ c c _ [] _ (ext_by_refl c Q) eq_refl).
    + split; [|exact Q']. exists hl, []. rewrite app_nil_r. repeat split; auto. discriminate.
  - destruct (c_verify c addr) as [r c'] eqn:E.
    exact (c_verify_ext _ _ _ _ Q (Ca _ eq_refl) E).
  - destruct (c_mail c from opts) as [r c'] eqn:E.
    exact (c_mail_ext _ _ _ _ _ Q (Ca _ eq_refl) E).
  - destruct (c_rcpt c to opts) as [r c'] eqn:E.
    destruct (c_rcpt_ext _ _ _ _ _ Q (Ca _ eq_refl) E) as [(e & _ & _ & ->)|(ps & own & Ep & X & A)].
    + exact (says_own c c c _ [] _ (ext_by_refl c Q) (or_introl eq_refl)).
    + apply (says_own c c c' _ own _ X). destruct A as [->| ->]; [left; reflexivity|].
      right. exists (c_ext c), ps. split; [reflexivity|exact (rcpt_params_ok _ _ _ Ep)].
  - destruct (c_data c) as [r c'] eqn:E.
    destruct (data_ext c false r c' Q E) as (own & O & A & L & Q').
    split; [|exact Q']. exists [], own. repeat split; auto.
  - destruct (c_lmtp_data c cb) as [r c'] eqn:E.
    unfold c_lmtp_data in E. destruct (c_lmtp c); cbn [negb] in E.
    + destruct (data_ext c cb r c' Q E) as (own & O & A & L & Q').
      split; [|exact Q']. exists [], own. repeat split; auto.
    + injection E as <- <-. split; [|intros _; exact Q].
      exact (proj1 (says_own c c c _ [] _ (ext_by_refl c Q) (or_introl eq_refl))).
  - destruct (c_reset c) as [r c'] eqn:E. exact (c_reset_ext _ _ _ Q E).
  - destruct (c_noop c) as [r c'] eqn:E. exact (c_noop_ext _ _ _ Q E).
  - destruct (c_quit c) as [r c'] eqn:E. exact (c_quit_ext _ _ _ Q E).
  - destruct (c_auth c s) as [[r got] c'] eqn:E. exact (c_auth_ext _ _ _ _ _ Q E).
  - destruct (c_extension c name) as [x c'] eqn:E.
    exact (c_extension_ext _ _ _ _ Q E).
Qed.

(* C15, first half.  For EVERY client state in which no data writer is open
   and nothing is pending in the write buffer, EVERY method of the list and
   ALL argument values (all octet strings, all option records, every SASL
   script): the octets the call puts on the wire are exactly the lines
   [hl ++ own], one per protocol step, each WITHOUT CR or LF inside:
   [hl] - at most two hello lines (EHLO/LHLO name, HELO name; none for Rcpt,
   Data, LMTPData, which never say hello), [own] - the method's own step(s):
   nothing or exactly its command line carrying the argument verbatim (for
   Auth: the AUTH line, then one base64 line or "*" per further step). *)
Theorem C15_one_line c k :
  quiet c -> clean (c_local c) -> cmd_call k ->
  (forall a, line_arg k = Some a -> clean a) ->
  exists hl own,
    c_out (snd (run_call c k)) = c_out c ++ lines (hl ++ own)
    /\ Forall clean (hl ++ own)
    /\ Forall (hello_line (hello_client c k)) hl /\ (List.length hl <= 2)%nat
    /\ (says_hello k = false -> hl = [])
    /\ own_shape k own.
Proof.
  intros Q CL Ck Ca. destruct (run_call_ext c k Q Ck Ca) as ((hl & own & O & F & Ln & Sh & A & _) & _).
  exists hl, own. repeat split; try assumption. apply Forall_app. split.
  - eapply Forall_impl; [|exact F]. intros l. apply hello_line_clean, hello_client_clean; assumption.
  - eapply own_shape_clean; eassumption.
Qed.

(* the hypotheses of C15_one_line are an invariant of the API: every command
   method re-establishes them (Data / LMTPData open a data writer when they
   succeed; its Close re-establishes them: dw_close_quiet) *)
Theorem C15_invariant c k :
  quiet c -> clean (c_local c) -> cmd_call k ->
  (forall a, line_arg k = Some a -> clean a) ->
  clean (c_local (snd (run_call c k)))
  /\ (match k with
      | KData | KLmtpData _ => r_err (fst (run_call c k)) <> RNil -> quiet (snd (run_call c k))
      | _ => quiet (snd (run_call c k))
      end).
Proof.
  intros Q CL Ck Ca. destruct (run_call_ext c k Q Ck Ca) as ((hl & own & _ & _ & _ & _ & _ & L) & Qk).
  split; [|exact Qk]. destruct L as [->| ->]; [exact CL|apply hello_client_clean; assumption].
Qed.

(* an argument that cannot be sent on one line: a local error, the state
   (in particular the output) untouched *)
Theorem C15_invalid_argument c k a :
  line_arg k = Some a -> ~ clean a ->
  run_call c k = (mkR (RLocal err_line) None [], c).
Proof.
  intros La Nc.
  assert (V : valid_line a = false).
  { destruct (valid_line a) eqn:E; [|reflexivity]. exfalso. apply Nc, valid_line_clean, E. }
  destruct k; try discriminate La; injection La as ->; cbn [run_call];
    unfold c_hello_api, c_verify, c_mail, c_rcpt; rewrite V; reflexivity.
Qed.

(* the keyword of one EHLO reply line: up to the first SP *)
Definition ext_key (line : bytes) : bytes :=
  match cut_byte " " line with Some (k, _) => k | None => line end.

(* the lines of an EHLO reply text that announce extensions: all but the first *)
Definition ext_lines (msg : bytes) : list bytes := tl (split_byte LF msg).

(* one line of the reply adds its keyword to the map *)
Lemma has_ext_line k m x :
  has_ext (Some (ext_line m x)) k = bytes_eqb k (ext_key x) || has_ext (Some m) k.
Proof.
  unfold has_ext, ext_line, ext_key.
  destruct (cut_byte " " x) as [[kx vx]|]; cbn [ext_get]; destruct (bytes_eqb k _); reflexivity.
Qed.

Lemma has_ext_fold k l : forall m,
  has_ext (Some (fold_left ext_line l m)) k = true
  <-> In k (map ext_key l) \/ has_ext (Some m) k = true.
Proof.
  induction l as [|x l IH]; intros m; cbn [fold_left map In]; [tauto|].
  rewrite IH, has_ext_line, orb_true_iff, bytes_eqb_eq. intuition congruence.
Qed.

(* an extension key is "in ext" iff it is the keyword of one of the
   extension lines of the EHLO reply the map was parsed from *)
Lemma has_ext_parse_ext msg k :
  has_ext (Some (parse_ext msg)) k = true <-> In k (map ext_key (ext_lines msg)).
Proof.
  unfold parse_ext, ext_lines.
  destruct (split_byte LF msg) as [|l0 [|l1 r]]; cbn [tl]; try (split; [discriminate|intros []]).
  rewrite has_ext_fold. cbn [has_ext ext_get]. intuition discriminate.
Qed.

(* ehlo(): on success ext is the parse of THIS reply *)
Lemma c_ehlo_parsed c c' :
  c_ehlo c = (RNil, c') ->
  exists c1 code msg rest,
    printf_line c (hello_verb c ++ c_local c) = (true, c1)
    /\ client_read_response 250 (c_in c1) = ((code, msg, CNil), rest)
    /\ c_ext c' = Some (parse_ext msg) /\ c_in c' = rest.
Proof.
  unfold c_ehlo, hello_verb, c_cmd. cbv zeta.
  destruct (printf_line c _) as [ok c1] eqn:Ep. destruct ok.
  - unfold c_read. destruct (client_read_response 250 (c_in c1)) as [[[code msg] e] rest] eqn:Er.
    destruct e; cbn [res_of_cerr]; intros E; try discriminate. injection E as <-.
    exists c1, code, msg, rest. csimpl. repeat split. exact Er.
  - intros E. discriminate.
Qed.

(* C15, second half.  Mail (after the lazy hello) and Rcpt, for ALL option
   records and ALL states: either a local error - and then not one octet is
   written - or at most the one command line, in which every parameter is a
   clean token "KEYWORD[=value]" whose extension key is in [c_ext], the map
   parsed from the most recent EHLO reply (c_ehlo_parsed, has_ext_parse_ext).
   A requested RequireTLS / UTF8 that was not offered is such a local error. *)
Theorem C15_only_negotiated_mail from opts c r c' :
  quiet c -> c_mail_step from opts c = (r, c') ->
  (exists e, mail_params (c_ext c) opts = inr e /\ r = RLocal e /\ c_out c' = c_out c)
  \/ (exists ps own, c_out c' = c_out c ++ lines own /\ at_most (mail_line from ps) own
                     /\ Forall (param_ok (c_ext c)) ps).
Proof.
  intros Q E. destruct (c_mail_step_ext _ _ _ _ _ Q E) as [(e & Ep & -> & (O & _))|(ps & own & Ep & (O & _) & A)].
  - left. exists e. cbn [lines flat_map] in O. rewrite app_nil_r in O. tauto.
  - right. exists ps, own. repeat split; try assumption. eapply mail_params_ok; exact Ep.
Qed.

Theorem C15_only_negotiated_rcpt c to opts r c' :
  quiet c -> clean to -> c_rcpt c to opts = (r, c') ->
  (exists e, rcpt_params (c_ext c) opts = inr e /\ r = RLocal e /\ c' = c)
  \/ (exists ps own, c_out c' = c_out c ++ lines own /\ at_most (rcpt_line to ps) own
                     /\ Forall (param_ok (c_ext c)) ps).
Proof.
  intros Q C E. destruct (c_rcpt_ext _ _ _ _ _ Q C E) as [H|(ps & own & Ep & (O & _) & A)]; [left; exact H|].
  right. exists ps, own. repeat split; try assumption. eapply rcpt_params_ok; exact Ep.
Qed.

Theorem C15_requested_not_offered from o c :
  body_refused (c_ext c) o
  \/ (mo_requiretls o = true /\ has_ext (c_ext c) (key "REQUIRETLS") = false)
  \/ (mo_utf8 o = true /\ has_ext (c_ext c) (key "SMTPUTF8") = false) ->
  exists e, c_mail_step from (Some o) c = (RLocal e, set_rcpts c [])
            /\ (body_err e \/ e = err_requiretls \/ e = err_smtputf8).
Proof.
  intros H. unfold c_mail_step, mail_params. change (c_ext (set_rcpts c [])) with (c_ext c).
  destruct (mail_body_param (c_ext c) (Some o)) as [p1|e] eqn:Eb.
  2:{ exists e. split; [reflexivity|]. left. exact (mail_body_param_err _ _ _ Eb). }
  destruct H as [Hb|[[A B]|[A B]]].
  - destruct (mail_body_param_refused _ _ Hb) as (e & Eb' & _). congruence.
  - rewrite A, B. eexists. split; [reflexivity|tauto].
  - rewrite A, B. destruct (mo_requiretls o && negb (has_ext (c_ext c) (key "REQUIRETLS")));
      eexists; (split; [reflexivity|tauto]).
Qed.

(* the BODY refusals one by one: which error each gives *)
Theorem C15_body_not_offered from o c :
  body_refused (c_ext c) o ->
  exists e, c_mail_step from (Some o) c = (RLocal e, set_rcpts c [])
            /\ ((mo_body o = bs "7BIT" \/ mo_body o = bs "8BITMIME") -> e = err_8bitmime)
            /\ (mo_body o = bs "BINARYMIME" -> e = err_binarymime)
            /\ (mo_body o <> bs "7BIT" -> mo_body o <> bs "8BITMIME" -> mo_body o <> bs "BINARYMIME"
                -> e = err_body).
Proof.
  intros Hb. unfold c_mail_step, mail_params. change (c_ext (set_rcpts c [])) with (c_ext c).
  destruct (mail_body_param_refused _ _ Hb) as (e & -> & He). exists e. split; [reflexivity|exact He].
Qed.

Lemma kw_key_in kw t k : kw_key kw t = Some k -> In (kw, k) t.
Proof.
  induction t as [|[a e] t IH]; cbn [kw_key]; [discriminate|].
  destruct (bytes_eqb a kw) eqn:E.
  - intros H. injection H as <-. apply bytes_eqb_eq in E. subst a. now left.
  - intros H. right. exact (IH H).
Qed.

(* no keyword contains "=": in "KEYWORD=value" the keyword is what stands
   before the first "=" *)
Lemma ext_for_no_eq kw v k : ext_for kw v = Some k -> mem_byte "=" kw = false.
Proof.
  unfold ext_for. destruct (bytes_eqb kw (bs "BODY")) eqn:E.
  - intros _. apply bytes_eqb_eq in E. rewrite E. reflexivity.
  - cbn [andb]. intros H. apply kw_key_in in H.
    assert (T : forallb (fun p => negb (mem_byte "=" (fst p))) kw_table = true) by reflexivity.
    rewrite forallb_forall in T. apply T, negb_true_iff in H. exact H.
Qed.

(* what param_ok says: the parameter KEYWORD=value is licensed by the key that
   [ext_for] gives for this keyword and value *)
Lemma param_ok_licence ext kw v :
  mem_byte "=" kw = false -> param_ok ext (kw ++ "=" :: v) ->
  exists k, ext_for kw v = Some k /\ has_ext ext k = true.
Proof.
  intros Nk (_ & kw' & k & v' & He & Hx & Hp). pose proof (ext_for_no_eq _ _ _ He) as N.
  assert (kw' = kw /\ v' = v) as [-> ->].
  { destruct Hp as [[Hp _]|Hp].
    - rewrite <- Hp, mem_byte_app, Nk in N. discriminate N.
    - pose proof (cut_byte_app "=" kw v Nk) as C.
      rewrite Hp, (cut_byte_app "=" kw' v' N) in C. injection C as -> ->. split; reflexivity. }
  exists k. split; assumption.
Qed.

(* for BODY: BODY=BINARYMIME only with BINARYMIME offered, every other BODY
   value only with 8BITMIME offered *)
Theorem C15_body_param_licensed ext v :
  param_ok ext (bs "BODY" ++ "=" :: v) ->
  if bytes_eqb v (bs "BINARYMIME") then has_ext ext (bs "BINARYMIME") = true
  else has_ext ext (bs "8BITMIME") = true.
Proof.
  intros H. destruct (param_ok_licence ext (bs "BODY") v eq_refl H) as (k & He & Hx).
  unfold ext_for in He. change (bytes_eqb (bs "BODY") (bs "BODY")) with true in He. cbn [andb] in He.
  destruct (bytes_eqb v (bs "BINARYMIME")); injection He as <-; exact Hx.
Qed.

(* the stream [s] begins with replies that readResponse(250) returns as the
   verdicts [vs] (nil for a 250, the SMTPError otherwise), followed by [rest] *)
Inductive serves250 : bytes -> list result -> bytes -> Prop :=
| S250_nil s : serves250 s [] s
| S250_ok s code msg s1 vs rest :
    client_read_response 250 s = ((code, msg, CNil), s1) ->
    serves250 s1 vs rest -> serves250 s (RNil :: vs) rest
| S250_err s code msg c ec m s1 vs rest :
    client_read_response 250 s = ((code, msg, CSmtp c ec m), s1) ->
    serves250 s1 vs rest -> serves250 s (RSmtp c ec m :: vs) rest.

(* the first negative verdict, nil if there is none *)
Fixpoint first_neg (first : result) (vs : list result) : result :=
  match vs with
  | [] => first
  | v :: r => first_neg (if is_nil first then v else first) r
  end.

(* everything but the unread input and the callback log is unchanged *)
Definition keeps (c c' : client) : Prop :=
  c_lmtp c' = c_lmtp c /\ c_local c' = c_local c /\ c_did_greet c' = c_did_greet c
  /\ c_greet_err c' = c_greet_err c /\ c_did_hello c' = c_did_hello c
  /\ c_hello_err c' = c_hello_err c /\ c_ext c' = c_ext c /\ c_rcpts c' = c_rcpts c
  /\ c_tls c' = c_tls c /\ c_closed c' = c_closed c /\ c_werr c' = c_werr c
  /\ c_tls_in c' = c_tls_in c /\ c_out c' = c_out c /\ c_wbuf c' = c_wbuf c /\ c_dw c' = c_dw c.

Lemma keeps_refl c : keeps c c.
Proof. unfold keeps. repeat split. Qed.

(* the LMTP reply loop only consumes input and records callbacks *)
Lemma lmtp_replies_keeps rcpts cb : forall c first r c',
  lmtp_replies rcpts cb c first = (r, c') -> keeps c c'.
Proof.
  induction rcpts as [|x rs IH]; intros c first r c' E; cbn [lmtp_replies] in E.
  - injection E as _ <-. apply keeps_refl.
  - unfold c_read in E. destruct (client_read_response 250 (c_in c)) as [[[code msg] e] rest].
    destruct e; try (injection E as _ <-; exact (keeps_refl c)); destruct cb; exact (IH _ _ _ _ E).
Qed.

(* Close of an unclosed data writer, whatever the connection does: the writer
   is marked closed and nothing stays pending *)
Lemma dw_close_frame c d r c' :
  c_dw c = Some d -> d_closed d = false -> dw_close c = (r, c') ->
  c_dw c' = Some (mkDW (d_st d) true (d_cb d) false)
  /\ (c_werr c' = true \/ c_wbuf c' = []) /\ c_local c' = c_local c.
Proof.
  intros Hd Hc E. unfold dw_close in E. rewrite Hd, Hc in E.
  destruct (bw_flush _) as [ok c2] eqn:Ef. apply write_flush_spec in Ef as (D & Ct & _ & _ & W & _).
  apply ctl_fields in Ct as (_ & L & _).
  (* after the flush only replies are read *)
  assert (K : keeps c2 c').
  { destruct ok; cbn [negb] in E; [destruct (c_lmtp c2)|].
    - exact (lmtp_replies_keeps _ _ _ _ _ _ E).
    - unfold c_read in E. destruct (client_read_response 250 (c_in c2)) as [[[code msg] e] rest].
      injection E as _ <-. exact (keeps_refl c2).
    - injection E as _ <-. apply keeps_refl. }
  destruct K as (_ & L' & _ & _ & _ & _ & _ & _ & _ & _ & We & _ & _ & Wb & D').
  rewrite D', D, We, Wb, L', L. split; [reflexivity|]. split; [|reflexivity].
  destruct ok; [right; apply W|left; exact W].
Qed.

Lemma dw_close_quiet c d r c' :
  c_dw c = Some d -> d_closed d = false -> dw_close c = (r, c') ->
  quiet c' /\ c_local c' = c_local c.
Proof.
  intros Hd Hc E. destruct (dw_close_frame _ _ _ _ Hd Hc E) as (D & [W|W] & L); (split; [|exact L]).
  - left. exact W.
  - right. split; [exact W|]. unfold dot_shut. rewrite D. reflexivity.
Qed.

(* C16: after ANY Close (whatever it returned: nil, the server's refusal, an
   I/O error, "closed twice") a further Close returns the local error
   "smtp: data writer closed twice" and leaves the whole state - in
   particular the octets written - untouched: no second exchange. *)
Theorem C16_close_twice c r c1 :
  (exists d, c_dw c = Some d) -> dw_close c = (r, c1) ->
  dw_close c1 = (RLocal err_closed_twice, c1) /\ c_out (snd (dw_close c1)) = c_out c1.
Proof.
  intros [d Hd] E.
  assert (H : dw_close c1 = (RLocal err_closed_twice, c1)).
  { destruct (d_closed d) eqn:Hc.
    - unfold dw_close in E. rewrite Hd, Hc in E. injection E as _ <-.
      unfold dw_close. rewrite Hd, Hc. reflexivity.
    - destruct (dw_close_frame _ _ _ _ Hd Hc E) as (M & _).
      unfold dw_close. rewrite M. reflexivity. }
  rewrite H. split; reflexivity.
Qed.

(* the LMTP reply loop: exactly one reply per entry of [rcpts] is consumed;
   with a callback each is reported with its recipient, in order; without,
   the first negative one becomes Close's error *)
Lemma lmtp_replies_spec rcpts cb : forall vs c first rest,
  serves250 (c_in c) vs rest -> List.length vs = List.length rcpts ->
  exists c', lmtp_replies rcpts cb c first = ((if cb then first else first_neg first vs), c')
    /\ c_in c' = rest
    /\ c_cbs c' = c_cbs c ++ (if cb then combine rcpts vs else []).
Proof.
  induction rcpts as [|a rs IH]; intros [|v vs] c first rest S L; try discriminate.
  - inversion S; subst. exists c. cbn [lmtp_replies first_neg combine].
    destruct cb; rewrite app_nil_r; repeat split.
  - (* the next reply is the verdict [v]: reported to the callback, or kept if
       it is the first negative one *)
    injection L as L. cbn [lmtp_replies first_neg]. unfold c_read.
    inversion S as [|s code msg s1 vs' rest' Hr S'|s code msg c0 ec m s1 vs' rest' Hr S']; subst;
      rewrite Hr; destruct cb.
    + destruct (IH vs (add_cb (set_in c s1) a RNil) first rest S' L) as (c' & E & I & Cb).
      exists c'. rewrite E, Cb. csimpl. cbn [combine]. rewrite <- app_assoc. repeat split. exact I.
    + destruct (IH vs (set_in c s1) first rest S' L) as (c' & E & I & Cb).
      exists c'. rewrite E.
      replace (if is_nil first then RNil else first) with first by (destruct first; reflexivity).
      repeat split; assumption.
    + destruct (IH vs (add_cb (set_in c s1) a (RSmtp c0 ec m)) first rest S' L) as (c' & E & I & Cb).
      exists c'. rewrite E, Cb. csimpl. cbn [combine]. rewrite <- app_assoc. repeat split. exact I.
    + destruct (IH vs (set_in c s1) (if is_nil first then RSmtp c0 ec m else first) rest S' L)
        as (c' & E & I & Cb).
      exists c'. rewrite E. repeat split; assumption.
Qed.

(* the connection works, nothing is pending, no data writer is open *)
Definition io_ready (c : client) : Prop := alive c /\ c_wbuf c = [] /\ dot_shut c.
Definition hello_done (c : client) : Prop := c_did_hello c = true /\ c_hello_err c = RNil.

(* readResponse(expect) on [s] yields the error value [e], leaving [s'] *)
Definition reads (s : bytes) (expect : Z) (e : cerr) (s' : bytes) : Prop :=
  exists code msg, client_read_response expect s = ((code, msg, e), s').

Lemma printf_line_ready c line :
  io_ready c -> printf_line c line = (true, wrote c (line ++ crlf)).
Proof.
  intros (A & Wb & Sh). unfold printf_line. rewrite close_dot_shut by exact Sh.
  apply write_flush_alive; assumption.
Qed.

(* the state after a command line was written and its reply consumed *)
Definition next (c : client) (line rest : bytes) : client := set_in (wrote c (line ++ crlf)) rest.

Lemma c_cmd_ready c expect line code msg e rest :
  io_ready c -> client_read_response expect (c_in c) = ((code, msg, e), rest) ->
  c_cmd c expect line = ((code, msg, res_of_cerr e), next c line rest).
Proof.
  intros R Hr. unfold c_cmd. rewrite printf_line_ready by exact R.
  unfold c_read. change (c_in (wrote c (line ++ crlf))) with (c_in c). rewrite Hr. reflexivity.
Qed.

Lemma cmd_err_ready c expect line e rest :
  io_ready c -> reads (c_in c) expect e rest ->
  cmd_err c expect line = (res_of_cerr e, set_in (wrote c (line ++ crlf)) rest).
Proof.
  intros R (code & msg & Hr). unfold cmd_err. rewrite (c_cmd_ready _ _ _ _ _ _ _ R Hr). reflexivity.
Qed.

Lemma io_ready_step c o rest : io_ready c -> io_ready (set_in (wrote c o) rest).
Proof. intros (A & Wb & Sh). unfold io_ready, alive, dot_shut, wrote in *. csimpl. tauto. Qed.

Lemma c_hello_done c : hello_done c -> c_hello c = (RNil, c).
Proof. intros [A B]. unfold c_hello. rewrite A, B. reflexivity. Qed.

(* what the commands of a transaction leave alone: the callback log, the
   protocol flavour, a hello that has succeeded *)
Definition session (c c' : client) : Prop :=
  c_cbs c' = c_cbs c /\ c_lmtp c' = c_lmtp c /\ (hello_done c -> hello_done c').

Lemma session_same c c' :
  c_cbs c' = c_cbs c -> c_lmtp c' = c_lmtp c -> c_did_hello c' = c_did_hello c ->
  c_hello_err c' = c_hello_err c -> session c c'.
Proof. unfold session, hello_done. intros -> -> -> ->. tauto. Qed.

Lemma session_trans c c1 c2 : session c c1 -> session c1 c2 -> session c c2.
Proof. intros (A1 & B1 & H1) (A2 & B2 & H2). split; [congruence|]. split; [congruence|auto]. Qed.

Lemma ctl_session c c' : ctl c' = ctl c -> c_rcpts c' = c_rcpts c /\ session c c'.
Proof.
  intros Ct. apply ctl_fields in Ct as (L & _ & Dh & He & _ & Rc & _ & _ & Cb).
  split; [exact Rc|apply session_same; assumption].
Qed.

Lemma c_mail_ready c from e rest :
  io_ready c -> hello_done c -> clean from -> reads (c_in c) 250 e rest ->
  exists c', c_mail c from None = (res_of_cerr e, c')
    /\ io_ready c' /\ c_in c' = rest /\ c_rcpts c' = [] /\ session c c'.
Proof.
  intros R H C Hr. rewrite c_mail_unfold by exact C. unfold with_hello.
  rewrite c_hello_done by exact H. unfold c_mail_step.
  change (c_ext (set_rcpts c [])) with (c_ext c). cbn [mail_params mail_body_param].
  rewrite (cmd_err_ready _ _ _ e rest (R : io_ready (set_rcpts c []))) by exact Hr.
  eexists. split; [reflexivity|]. split; [apply io_ready_step; exact R|].
  split; [reflexivity|]. split; [reflexivity|apply session_same; reflexivity].
Qed.

(* Rcpt(to, nil): the recipient is recorded iff the reply is positive *)
Lemma c_rcpt_ready c to e rest :
  io_ready c -> clean to -> reads (c_in c) 25 e rest ->
  exists c', c_rcpt c to None = (res_of_cerr e, c')
    /\ io_ready c' /\ c_in c' = rest
    /\ c_rcpts c' = (match e with CNil => c_rcpts c ++ [to] | _ => c_rcpts c end)
    /\ session c c'.
Proof.
  intros R C Hr. unfold c_rcpt. apply valid_line_clean in C. rewrite C. cbn [negb rcpt_params].
  rewrite (cmd_err_ready _ _ _ e rest R) by exact Hr.
  pose proof (io_ready_step c (rcpt_line to [] ++ crlf) rest R) as R1.
  destruct e; cbn [res_of_cerr]; eexists; (split; [reflexivity|]); (split; [exact R1|]);
    (split; [reflexivity|]); (split; [reflexivity|apply session_same; reflexivity]).
Qed.

(* Data, and LMTPData on an LMTP client, answered 354: a fresh data writer *)
Lemma data_ready c cb rest :
  io_ready c -> reads (c_in c) 354 CNil rest ->
  exists c', (let '(e, c1) := cmd_err c 354 (bs "DATA") in
              match e with RNil => (RNil, open_writer c1 cb) | _ => (e, c1) end) = (RNil, c')
    /\ alive c' /\ c_wbuf c' = [] /\ c_dw c' = Some (mkDW WBegin false cb true)
    /\ (hello_done c -> hello_done c') /\ c_in c' = rest /\ c_rcpts c' = c_rcpts c
    /\ c_cbs c' = c_cbs c /\ c_lmtp c' = c_lmtp c.
Proof.
  intros R Hr. rewrite (cmd_err_ready _ _ _ CNil rest R) by exact Hr. cbn [res_of_cerr].
  pose proof (io_ready_step c (bs "DATA" ++ crlf) rest R) as (A2 & W2 & S2).
  eexists. split; [reflexivity|]. unfold open_writer. rewrite close_dot_shut by exact S2.
  unfold hello_done, alive in *. csimpl. repeat split; tauto.
Qed.

Lemma c_data_ready c rest :
  io_ready c -> reads (c_in c) 354 CNil rest ->
  exists c', c_data c = (RNil, c')
    /\ alive c' /\ c_wbuf c' = [] /\ c_dw c' = Some (mkDW WBegin false false true)
    /\ (hello_done c -> hello_done c') /\ c_in c' = rest /\ c_rcpts c' = c_rcpts c
    /\ c_cbs c' = c_cbs c /\ c_lmtp c' = c_lmtp c.
Proof. exact (data_ready c false rest). Qed.

(* the state while a data writer is open on a working connection *)
Definition writing (c : client) (cb : bool) : Prop :=
  alive c /\ exists st, c_dw c = Some (mkDW st false cb true).

Lemma dw_write_writing c cb part :
  writing c cb ->
  writing (snd (dw_write c part)) cb
  /\ c_in (snd (dw_write c part)) = c_in c /\ c_rcpts (snd (dw_write c part)) = c_rcpts c
  /\ session c (snd (dw_write c part)).
Proof.
  intros (A & st & Hd). unfold dw_write. rewrite Hd. cbn [d_st d_closed d_cb d_open].
  destruct (DotWriter.dw_write st part) as [st' o].
  destruct (bw_write_frame (set_dw c (Some (mkDW st' false cb true))) o) as (D & Ct & I & A1).
  destruct part; cbn [snd]; (split; [split; [exact (A1 A)|exists st'; exact D]|]);
    (split; [exact I|exact (ctl_session _ _ Ct)]).
Qed.

Fixpoint writes (c : client) (parts : list bytes) : client :=
  match parts with
  | [] => c
  | p :: r => writes (snd (dw_write c p)) r
  end.

Lemma writes_writing parts : forall c cb,
  writing c cb ->
  writing (writes c parts) cb
  /\ c_in (writes c parts) = c_in c /\ c_rcpts (writes c parts) = c_rcpts c
  /\ session c (writes c parts).
Proof.
  induction parts as [|p r IH]; intros c cb W; cbn [writes].
  { split; [exact W|]. split; [reflexivity|]. split; [reflexivity|apply session_same; reflexivity]. }
  destruct (dw_write_writing c cb p W) as (W1 & I1 & R1 & S1).
  destruct (IH _ _ W1) as (W2 & I2 & R2 & S2).
  split; [exact W2|]. split; [congruence|]. split; [congruence|exact (session_trans _ _ _ S1 S2)].
Qed.

(* Close on a working connection, up to the replies: the terminator is out *)
Lemma dw_close_ready c cb :
  writing c cb ->
  exists c2, dw_close c = (if c_lmtp c then lmtp_replies (c_rcpts c) cb c2 RNil
                           else let '((_, _, e), c3) := c_read c2 250 in (res_of_cerr e, c3))
    /\ io_ready c2 /\ ctl c2 = ctl c /\ c_in c2 = c_in c.
Proof.
  intros (A & st & Hd). unfold dw_close. rewrite Hd. cbn [d_closed d_st d_cb].
  destruct (bw_flush _) as [ok c2] eqn:Ef. apply write_flush_spec in Ef as (D & Ct & I & _ & W & Al).
  rewrite (Al A) in *. cbn [negb].
  destruct (ctl_fields _ _ Ct) as (L & _ & _ & _ & _ & Rc & _ & Cl & _). csimpl.
  exists c2. rewrite L, Rc. split; [reflexivity|]. split; [|split; assumption].
  destruct W as [We Wb], A as [_ Ac]. unfold io_ready, alive, dot_shut. rewrite D, Cl. repeat split; assumption.
Qed.

Lemma dw_close_lmtp c cb vs rest :
  writing c cb -> c_lmtp c = true ->
  serves250 (c_in c) vs rest -> List.length vs = List.length (c_rcpts c) ->
  exists c', dw_close c = ((if cb then RNil else first_neg RNil vs), c')
    /\ io_ready c' /\ c_in c' = rest
    /\ c_cbs c' = c_cbs c ++ (if cb then combine (c_rcpts c) vs else [])
    /\ c_lmtp c' = true /\ (hello_done c -> hello_done c').
Proof.
  intros W L S Ln. destruct (dw_close_ready c cb W) as (c2 & E & R2 & Ct & I). rewrite L in E.
  destruct (ctl_session _ _ Ct) as (_ & Cb2 & L2 & H2). rewrite <- I in S.
  destruct (lmtp_replies_spec (c_rcpts c) cb vs c2 RNil rest S Ln) as (c' & E' & I' & Cb).
  destruct (lmtp_replies_keeps _ _ _ _ _ _ E')
    as (K1 & _ & _ & _ & K5 & K6 & _ & _ & _ & K10 & K11 & _ & _ & K14 & K15).
  exists c'. rewrite E, E'. split; [reflexivity|]. split.
  { unfold io_ready, alive, dot_shut in *. rewrite K11, K10, K14, K15. exact R2. }
  split; [exact I'|]. split; [rewrite Cb, Cb2; reflexivity|]. split; [congruence|].
  unfold hello_done in *. rewrite K5, K6. exact H2.
Qed.

(* one transaction as the server sees it: sender, recipients each with the
   outcome of its RCPT as the client will read it (CNil: accepted), the body
   in Write-call portions, and the per-recipient verdicts after the final dot *)
Record txn := mkT {
  t_from : bytes;
  t_rcpts : list (bytes * cerr);
  t_parts : list bytes;
  t_verdicts : list result
}.

Definition rcpt_accepted (p : bytes * cerr) : bool :=
  match snd p with CNil => true | _ => false end.
Definition accepted_of (rs : list (bytes * cerr)) : list bytes := map fst (filter rcpt_accepted rs).
Definition accepted (t : txn) : list bytes := accepted_of (t_rcpts t).

(* the server's part of the stream: one reply per RCPT ... *)
Fixpoint rcpts_stream (rs : list (bytes * cerr)) (s s' : bytes) : Prop :=
  match rs with
  | [] => s = s'
  | (_, e) :: r => exists s1, reads s 25 e s1 /\ rcpts_stream r s1 s'
  end.

(* ... inside: 250 for MAIL, the RCPT replies, 354 for DATA, then exactly one
   well-formed reply per ACCEPTED recipient *)
Definition txn_stream (t : txn) (s s' : bytes) : Prop :=
  exists s1 s2 s3,
    reads s 250 CNil s1 /\ rcpts_stream (t_rcpts t) s1 s2 /\ reads s2 354 CNil s3
    /\ serves250 s3 (t_verdicts t) s'.

Definition txn_ok (t : txn) : Prop :=
  clean (t_from t) /\ Forall (fun p => clean (fst p)) (t_rcpts t)
  /\ List.length (t_verdicts t) = List.length (accepted t).

Definition rcpt_each (c : client) (addrs : list bytes) : client :=
  fold_left (fun c a => snd (c_rcpt c a None)) addrs c.

(* Mail; Rcpt for every recipient (refused ones included); LMTPData(cb);
   Write per portion; Close *)
Definition run_txn (cb : bool) (c : client) (t : txn) : result * client :=
  let c1 := snd (c_mail c (t_from t) None) in
  let c2 := rcpt_each c1 (map fst (t_rcpts t)) in
  let c3 := snd (c_lmtp_data c2 cb) in
  dw_close (writes c3 (t_parts t)).

Definition lmtp_ready (c : client) : Prop := io_ready c /\ hello_done c /\ c_lmtp c = true.

Lemma rcpt_each_ready rs : forall c s',
  io_ready c -> Forall (fun p => clean (fst p)) rs -> rcpts_stream rs (c_in c) s' ->
  let c' := rcpt_each c (map fst rs) in
  io_ready c' /\ c_in c' = s' /\ c_rcpts c' = c_rcpts c ++ accepted_of rs /\ session c c'.
Proof.
  induction rs as [|[a e] r IH]; intros c s' R F S; cbn [rcpts_stream] in S.
  - subst s'. cbn [map rcpt_each fold_left accepted_of filter]. rewrite app_nil_r.
    split; [exact R|]. split; [reflexivity|]. split; [reflexivity|apply session_same; reflexivity].
  - destruct S as (s1 & Hr & S). inversion F as [|? ? Fa Fr]; subst.
    destruct (c_rcpt_ready c a e s1 R Fa Hr) as (c1 & E & R1 & I1 & Rc1 & S1).
    cbn [map fst rcpt_each fold_left]. rewrite E. cbn [snd].
    rewrite <- I1 in S. destruct (IH c1 s' R1 Fr S) as (R2 & I2 & Rc2 & S2). cbv zeta.
    split; [exact R2|]. split; [exact I2|]. split; [|exact (session_trans _ _ _ S1 S2)].
    unfold rcpt_each in Rc2. rewrite Rc2, Rc1. unfold accepted_of. cbn [filter rcpt_accepted snd].
    destruct e; cbn [map fst]; rewrite <- ?app_assoc; reflexivity.
Qed.

Lemma run_txn_spec cb c t s' :
  lmtp_ready c -> txn_ok t -> txn_stream t (c_in c) s' ->
  exists c', run_txn cb c t = ((if cb then RNil else first_neg RNil (t_verdicts t)), c')
    /\ lmtp_ready c' /\ c_in c' = s'
    /\ c_cbs c' = c_cbs c ++ (if cb then combine (accepted t) (t_verdicts t) else []).
Proof.
  intros (R & H & L) (Cf & Cr & Ln) (s1 & s2 & s3 & Hm & Hrs & Hd & Hv). unfold run_txn.
  destruct (c_mail_ready c (t_from t) CNil s1 R H Cf Hm) as (c1 & E1 & R1 & I1 & Rc1 & S1).
  rewrite E1. cbn [snd]. rewrite <- I1 in Hrs.
  destruct (rcpt_each_ready (t_rcpts t) c1 s2 R1 Cr Hrs) as (R2 & I2 & Rc2 & S2).
  set (c2 := rcpt_each c1 (map fst (t_rcpts t))) in *. rewrite <- I2 in Hd.
  pose proof (session_trans _ _ _ S1 S2) as (Cb2 & L2 & H2).
  unfold c_lmtp_data. rewrite L2, L. cbn [negb].
  destruct (data_ready c2 cb s3 R2 Hd) as (c3 & E3 & A3 & _ & D3 & H3 & I3 & Rc3 & Cb3 & L3).
  rewrite E3. cbn [snd].
  destruct (writes_writing (t_parts t) c3 cb (conj A3 (ex_intro _ WBegin D3)))
    as (W4 & I4 & Rc4 & Cb4 & L4 & H4).
  set (c4 := writes c3 (t_parts t)) in *.
  assert (Rc : c_rcpts c4 = accepted t) by (rewrite Rc4, Rc3, Rc2, Rc1; reflexivity).
  assert (Lc4 : c_lmtp c4 = true) by congruence.
  rewrite <- I3, <- I4 in Hv. rewrite <- Rc in Ln.
  destruct (dw_close_lmtp c4 cb (t_verdicts t) s' W4 Lc4 Hv Ln) as (c5 & E5 & R5 & I5 & Cb5 & L5 & H5).
  exists c5. rewrite E5. split; [reflexivity|]. split; [|split; [exact I5|]].
  - split; [exact R5|]. split; [auto|exact L5].
  - rewrite Cb5, Rc, Cb4, Cb3, Cb2. reflexivity.
Qed.

Fixpoint run_txns (cb : bool) (c : client) (ts : list txn) : list result * client :=
  match ts with
  | [] => ([], c)
  | t :: r =>
      let '(x, c1) := run_txn cb c t in
      let '(xs, c2) := run_txns cb c1 r in (x :: xs, c2)
  end.

Fixpoint txns_stream (ts : list txn) (s s' : bytes) : Prop :=
  match ts with
  | [] => s = s'
  | t :: r => exists s1, txn_stream t s s1 /\ txns_stream r s1 s'
  end.

(* C18.  For EVERY sequence of LMTP transactions on one client (any number,
   the second and later ones included), every recipient list with arbitrary
   accept / refuse at RCPT, every partition of the body into Write calls and
   every per-recipient verdict vector, provided the server's stream consists
   of well-formed replies, one per RCPT and - after the final dot - exactly
   one per recipient ACCEPTED IN THAT TRANSACTION, followed by anything
   ([rest], e.g. the next command's reply):
   - with a status callback, Close of transaction t invokes it exactly once
     per recipient accepted in t, in RCPT order, with that recipient's own
     reply (RNil for a 250), and returns nil;
   - without a callback, Close returns the first negative per-recipient
     reply (nil only if all are 250) and invokes nothing;
   - after the last Close the unread input is exactly [rest]: every Close
     consumed exactly its replies - it neither ate the next command's reply
     nor waited for replies that were never due;
   - the client is ready for the next transaction. *)
Theorem C18_callbacks cb ts : forall c rest,
  lmtp_ready c -> Forall txn_ok ts -> txns_stream ts (c_in c) rest ->
  exists c',
    run_txns cb c ts
    = (map (fun t => if cb then RNil else first_neg RNil (t_verdicts t)) ts, c')
    /\ c_cbs c' = c_cbs c ++ (if cb then flat_map (fun t => combine (accepted t) (t_verdicts t)) ts else [])
    /\ c_in c' = rest /\ lmtp_ready c'.
Proof.
  induction ts as [|t r IH]; intros c rest R F S; cbn [txns_stream] in S.
  - subst rest. exists c. cbn [run_txns map flat_map].
    split; [reflexivity|]. split; [destruct cb; rewrite app_nil_r; reflexivity|]. split; [reflexivity|exact R].
  - destruct S as (s1 & St & Sr). inversion F as [|? ? Ft Fr]; subst.
    destruct (run_txn_spec cb c t s1 R Ft St) as (c1 & E1 & R1 & I1 & Cb1).
    rewrite <- I1 in Sr. destruct (IH c1 rest R1 Fr Sr) as (c2 & E2 & Cb2 & I2 & R2).
    exists c2. cbn [run_txns]. rewrite E1, E2. cbn [map]. split; [reflexivity|].
    split; [|split; assumption]. rewrite Cb2, Cb1. cbn [flat_map].
    destruct cb; rewrite <- ?app_assoc, ?app_nil_r; reflexivity.
Qed.

Lemma first_neg_stays first vs : first <> RNil -> first_neg first vs = first.
Proof.
  intros N. induction vs as [|v r IH]; cbn [first_neg]; [reflexivity|].
  destruct first; [contradiction|exact IH..].
Qed.

Lemma first_neg_nil vs : first_neg RNil vs = RNil <-> Forall (fun v => v = RNil) vs.
Proof.
  induction vs as [|v r IH]; cbn [first_neg is_nil]; [split; [constructor|reflexivity]|].
  destruct v; [rewrite IH; split; [constructor; [reflexivity|assumption]|inversion 1; assumption]|..];
    rewrite first_neg_stays by discriminate; (split; [discriminate|inversion 1; discriminate]).
Qed.

Lemma first_neg_first pre code ec msg post :
  Forall (fun v => v = RNil) pre ->
  first_neg RNil (pre ++ RSmtp code ec msg :: post) = RSmtp code ec msg.
Proof.
  induction 1 as [|v r -> _ IH]; cbn [app first_neg is_nil]; [|exact IH].
  apply first_neg_stays. discriminate.
Qed.

(* C18, no callback: a negative per-recipient reply is not lost *)
Corollary C18_no_callback c t s' pre code ec msg post :
  lmtp_ready c -> txn_ok t -> txn_stream t (c_in c) s' ->
  t_verdicts t = pre ++ RSmtp code ec msg :: post -> Forall (fun v => v = RNil) pre ->
  fst (run_txn false c t) = RSmtp code ec msg.
Proof.
  intros R F S Ev Fp. destruct (run_txn_spec false c t s' R F S) as (c' & E & _).
  rewrite E. cbn [fst]. rewrite Ev. apply first_neg_first. exact Fp.
Qed.

(* SMTP: Close returns exactly what the final reply is: nil for a 250, the
   SMTPError otherwise; the reply is consumed and nothing more *)
Theorem C16_close_verdict_smtp c cb e rest :
  writing c cb -> c_lmtp c = false -> reads (c_in c) 250 e rest ->
  fst (dw_close c) = res_of_cerr e /\ c_in (snd (dw_close c)) = rest.
Proof.
  intros W L (code & msg & Hr). destruct (dw_close_ready c cb W) as (c2 & E & _ & _ & I).
  rewrite E, L. unfold c_read. rewrite I, Hr. split; reflexivity.
Qed.

(* LMTP without callback: nil iff every per-recipient reply is a 250, else
   the first negative one *)
Theorem C16_close_verdict_lmtp c vs rest :
  writing c false -> c_lmtp c = true ->
  serves250 (c_in c) vs rest -> List.length vs = List.length (c_rcpts c) ->
  fst (dw_close c) = first_neg RNil vs
  /\ (fst (dw_close c) = RNil <-> Forall (fun v => v = RNil) vs)
  /\ c_in (snd (dw_close c)) = rest.
Proof.
  intros W L S Ln. destruct (dw_close_lmtp c false vs rest W L S Ln) as (c' & E & _ & I & _).
  rewrite E. cbn [fst snd]. split; [reflexivity|]. split; [apply first_neg_nil|exact I].
Qed.

(* what the client makes of a per-recipient status the go-smtp server renders
   with writeResponse(dataErrorToStatus(e)) *)
Definition verdict_of (e : berr) : result :=
  match e with
  | BNil => RNil
  | BSmtp c ec m => RSmtp c (default_ec c ec) m
  | BPlain m => RSmtp 554 (5, 0, 0)%Z (bs "Error: transaction failed: " ++ m)
  end.

Definition status_ok (e : berr) : Prop :=
  match e with
  | BSmtp c ec m => (400 <= c <= 599)%Z /\ ec_eqb ec no_ec = false /\ ec_int ec
  | _ => True
  end.

(* the per-recipient replies emitted by the server (Lmtp.v / C13) are a
   stream in the sense of [serves250] *)
Lemma serves250_data_replies statuses rest :
  Forall status_ok statuses ->
  serves250 (flat_map data_reply statuses ++ rest) (map verdict_of statuses) rest.
Proof.
  induction 1 as [|e r He _ IH]; cbn [flat_map map app]; [constructor|].
  rewrite <- app_assoc. destruct e as [|c ec m|m]; cbn [verdict_of status_ok] in *.
  - eapply S250_ok; [|exact IH].
    change (data_reply BNil) with (write_response 250 (2, 0, 0)%Z [bs "OK: queued"]).
    rewrite (roundtrip_response 250 (2, 0, 0)%Z (bs "OK: queued") 250); [reflexivity|lia|reflexivity|].
    cbn. unfold int_ok, int_min, int_max. lia.
  - destruct He as (Hc & Hn & Hi).
    eapply S250_err; [|exact IH].
    apply (C17_roundtrip c ec m 250); try assumption.
    apply expect_mismatch_4xx5xx; [exact Hc|lia].
  - eapply S250_err; [|exact IH].
    apply (C17_generic m 250). reflexivity.
Qed.

(* a reply rendered by writeResponse, as read with any expectCode *)
Lemma reads_rendered code ec msg expect rest :
  (100 <= code <= 999)%Z ->
  ec_eqb (default_ec code ec) no_ec = false -> ec_int (default_ec code ec) ->
  reads (write_response code ec [msg] ++ rest) expect
        (if expect_mismatch expect code then CSmtp code (default_ec code ec) msg else CNil) rest.
Proof.
  intros Hc Hn Hi. eexists. eexists. apply roundtrip_response; assumption.
Qed.

(* non-vacuity of C18_callbacks: two consecutive LMTP transactions on one
   client (the second with a recipient refused at RCPT), verdicts mixed *)
Definition ex18_t1 : txn :=
  mkT (bs "s1@x") [(bs "a@x", CNil); (bs "b@x", CNil)] [bs "hello"; [LF]]
      [RNil; RSmtp 550 (5, 1, 1)%Z (bs "no such user")].
Definition ex18_t2 : txn :=
  mkT (bs "s2@x") [(bs "c@x", CSmtp 550 (5, 1, 1)%Z (bs "refused")); (bs "d@x", CNil)] [bs ".x"]
      [RSmtp 451 (4, 3, 0)%Z (bs "later")].
Definition ex18_txns_wire : bytes :=
  bs "250 2.1.0 ok" ++ crlf ++ bs "250 2.1.5 ok" ++ crlf ++ bs "250 2.1.5 ok" ++ crlf ++
  bs "354 go" ++ crlf ++ bs "250 2.0.0 delivered" ++ crlf ++ bs "550 5.1.1 no such user" ++ crlf ++
  bs "250 2.1.0 ok" ++ crlf ++ bs "550 5.1.1 refused" ++ crlf ++ bs "250 2.1.5 ok" ++ crlf ++
  bs "354 go" ++ crlf ++ bs "451 4.3.0 later" ++ crlf.
Definition ex18_rest : bytes := bs "250 2.0.0 reply to the next command" ++ crlf.
Definition ex18_client : client :=
  snd (c_noop (new_client true
         (bs "220 hi" ++ crlf ++ bs "250-srv" ++ crlf ++ bs "250 PIPELINING" ++ crlf ++
          bs "250 ok" ++ crlf ++ ex18_txns_wire ++ ex18_rest) None)).

Example ex18_hypotheses :
  lmtp_ready ex18_client /\ Forall txn_ok [ex18_t1; ex18_t2]
  /\ txns_stream [ex18_t1; ex18_t2] (c_in ex18_client) ex18_rest.
Proof.
  split; [vm_compute; repeat split; reflexivity|].
  split; [repeat constructor; vm_compute; reflexivity|].
  cbn [txns_stream].
  eexists. split.
  { unfold txn_stream. do 3 eexists. split; [do 2 eexists; vm_compute; reflexivity|].
    split; [cbn [rcpts_stream ex18_t1 t_rcpts]; eexists; split; [do 2 eexists; vm_compute; reflexivity|];
            eexists; split; [do 2 eexists; vm_compute; reflexivity|reflexivity]|].
    split; [do 2 eexists; vm_compute; reflexivity|].
    cbn [ex18_t1 t_verdicts].
    eapply S250_ok; [vm_compute; reflexivity|].
    eapply S250_err; [vm_compute; reflexivity|]. apply S250_nil. }
  eexists. split; [|reflexivity].
  unfold txn_stream. do 3 eexists. split; [do 2 eexists; vm_compute; reflexivity|].
  split; [cbn [rcpts_stream ex18_t2 t_rcpts]; eexists; split; [do 2 eexists; vm_compute; reflexivity|];
          eexists; split; [do 2 eexists; vm_compute; reflexivity|reflexivity]|].
  split; [do 2 eexists; vm_compute; reflexivity|].
  cbn [ex18_t2 t_verdicts].
  eapply S250_err; [vm_compute; reflexivity|]. apply S250_nil.
Qed.

Example ex18_conclusion :
  let '(rs, c') := run_txns true ex18_client [ex18_t1; ex18_t2] in
  rs = [RNil; RNil]
  /\ c_cbs c' = [(bs "a@x", RNil); (bs "b@x", RSmtp 550 (5, 1, 1)%Z (bs "no such user"));
                 (bs "d@x", RSmtp 451 (4, 3, 0)%Z (bs "later"))]
  /\ c_in c' = ex18_rest
  /\ fst (run_txns false ex18_client [ex18_t1; ex18_t2])
     = [RSmtp 550 (5, 1, 1)%Z (bs "no such user"); RSmtp 451 (4, 3, 0)%Z (bs "later")].
Proof. vm_compute. repeat split. Qed.

(* EHLO leaves didHello alone; HELO changes nothing in the control part but
   [ext], which it clears *)
Lemma c_ehlo_did_hello c r c' : c_ehlo c = (r, c') -> c_did_hello c' = c_did_hello c.
Proof.
  unfold c_ehlo. cbv zeta. destruct (c_cmd c 250 _) as [[[cd mg] e] c1] eqn:Ec.
  destruct (ctl_fields _ _ (c_cmd_ctl _ _ _ _ _ Ec)) as (_ & _ & D & _).
  destruct e; intros [= _ <-]; exact D.
Qed.

Lemma c_helo_ctl c r c' : c_helo c = (r, c') -> ctl c' = ctl (set_ext c None).
Proof.
  unfold c_helo. destruct (c_cmd (set_ext c None) 250 _) as [[[cd mg] e] c1] eqn:Ec.
  intros [= _ <-]. exact (c_cmd_ctl _ _ _ _ _ Ec).
Qed.

Lemma c_hello_RNil_done c c' : c_hello c = (RNil, c') -> hello_done c'.
Proof.
  unfold c_hello, hello_done. destruct (c_did_hello c) eqn:Dh; [intros [= E <-]; tauto|].
  destruct (c_greet c) as [g c1]. destruct g; try discriminate.
  destruct (c_ehlo (set_did_hello c1 true)) as [e c2] eqn:Ee.
  pose proof (c_ehlo_did_hello _ _ _ Ee) as D2.
  destruct e; cbn [is_500_502]; try discriminate.
  - intros [= E <-]. tauto.
  - destruct ((code =? 500)%Z || (code =? 502)%Z); [|discriminate].
    destruct (c_helo c2) as [h c3] eqn:Eh. intros [= -> <-].
    destruct (ctl_fields _ _ (c_helo_ctl _ _ _ Eh)) as (_ & _ & D3 & _).
    csimpl. split; [congruence|reflexivity].
Qed.

(* readResponse(220) without error means the reply code IS 220 *)
Lemma cerr_nil_tp e : cerr_of_tp e = CNil -> e = TPNone.
Proof.
  destruct e; cbn [cerr_of_tp]; try discriminate; [reflexivity|].
  destruct (to_smtp_err code msg) as [[a b] d]. discriminate.
Qed.

Lemma parse_code_line_ok line expect code cont m :
  parse_code_line line expect = (code, cont, m, TPNone) -> expect_mismatch expect code = false.
Proof.
  unfold parse_code_line. destruct line as [|a [|b [|c [|d m0]]]]; try discriminate.
  destruct (Ascii.eqb d " " || Ascii.eqb d "-"); [|discriminate].
  destruct (atoi [a; b; c]) as [z|]; [|discriminate].
  destruct (z <? 100)%Z; [discriminate|].
  destruct (expect_mismatch expect z) eqn:E; [discriminate|].
  intros H. injection H as <- _ _. exact E.
Qed.

Lemma read_ok_expected expect s code msg rest :
  client_read_response expect s = ((code, msg, CNil), rest) -> expect_mismatch expect code = false.
Proof.
  unfold client_read_response. destruct (read_response expect s) as [[[c0 m0] e0] r0] eqn:Er.
  intros H. injection H as <- <- He <-. apply cerr_nil_tp in He. subst e0.
  revert Er. unfold read_response. destruct (read_line s) as [[line rest']|]; [|discriminate].
  destruct (parse_code_line line expect) as [[[c1 cont] m1] e1] eqn:Ep. destruct cont.
  - destruct (read_more _ c1 m1 rest') as [[m' r']|]; [|discriminate].
    intros H. injection H as <- _ He _.
    destruct e1; cbn [tp_is_err andb] in He; try discriminate;
      try (destruct m'; cbn [negb] in He; discriminate).
    eapply parse_code_line_ok; exact Ep.
  - intros H. injection H as <- _ -> _. eapply parse_code_line_ok; exact Ep.
Qed.

Lemma expect_220 code : expect_mismatch 220 code = false -> code = 220%Z.
Proof.
  change (expect_mismatch 220 code) with (negb (code =? 220)%Z).
  intros H. apply negb_false_iff, Z.eqb_eq in H. exact H.
Qed.

Definition tls_line (c : client) (l : bytes) : Prop := hello_line c l \/ l = bs "STARTTLS".

(* an attempt to start TLS: lines of that kind up to a state [c2]; then the
   call fails and leaves [c2], or succeeds and switches *)
Definition tls_attempt (c : client) (r : result) (c' : client) : Prop :=
  exists ls c2, ext_by c c2 ls /\ Forall (tls_line c) ls
    /\ (r <> RNil /\ c' = c2 \/ r = RNil /\ c' = switch_to_tls c2).

Lemma tls_attempt_after c c1 hl r c' :
  ext_by c c1 hl -> Forall (hello_line c) hl -> tls_attempt c1 r c' -> tls_attempt c r c'.
Proof.
  intros X1 F1 (ls & c2 & X2 & F2 & Sw). exists (hl ++ ls), c2.
  split; [exact (ext_by_trans _ _ _ _ _ X1 X2)|]. split; [|exact Sw]. apply Forall_app. split.
  - eapply Forall_impl; [|exact F1]. intros l Hl. left. exact Hl.
  - eapply Forall_impl; [|exact F2].
    intros l [Hl| ->]; [left; exact (hello_line_ext _ _ _ _ X1 Hl)|right; reflexivity].
Qed.

Lemma tls_attempt_fail c r : quiet c -> r <> RNil -> tls_attempt c r c.
Proof. intros Q Ne. exists [], c. split; [exact (ext_by_refl c Q)|]. split; [constructor|tauto]. Qed.

(* Client.startTLS: hello, the STARTTLS line, and the switch exactly when the
   answer is 220 *)
Lemma c_starttls_ext c r c' : quiet c -> c_starttls c = (r, c') -> tls_attempt c r c'.
Proof.
  intros Q. unfold c_starttls, with_hello. destruct (c_hello c) as [h c1] eqn:Eh.
  destruct (c_hello_ext _ _ _ Q Eh) as (hl & X1 & F1 & _). pose proof (proj1 (proj2 X1)) as Q1.
  intros E. apply (tls_attempt_after _ c1 hl _ _ X1 F1).
  destruct h; try (injection E as <- <-; apply tls_attempt_fail; [exact Q1|discriminate]).
  destruct (cmd_err c1 220 (bs "STARTTLS")) as [e c2] eqn:Ec.
  destruct (cmd_err_ext _ _ _ _ _ Q1 Ec) as (own & X2 & A).
  exists own, c2. split; [exact X2|]. split; [eapply at_most_Forall; [right; reflexivity|exact A]|].
  destruct e; injection E as <- <-; [right|left..]; split; reflexivity || discriminate.
Qed.

(* initStartTLS once hello() has succeeded *)
Lemma c_init_starttls_eq c c1 :
  c_hello c = (RNil, c1) ->
  c_init_starttls c = if has_ext (c_ext c1) (bs "STARTTLS") then c_starttls c1
                      else (RLocal err_no_starttls, c1).
Proof.
  intros Eh. unfold c_init_starttls, c_extension.
  rewrite Eh, (c_hello_done _ (c_hello_RNil_done _ _ Eh)).
  change (to_upper (bs "STARTTLS")) with (bs "STARTTLS"). unfold has_ext.
  destruct (c_ext c1) as [m|]; [destruct (ext_get (bs "STARTTLS") m)|]; reflexivity.
Qed.

(* C10, client: no downgrade.  For ALL server streams and all states: what
   initStartTLS (NewClientStartTLS / DialStartTLS) writes is a sequence of
   complete lines, each of them a hello line or "STARTTLS" - never MAIL, RCPT,
   AUTH, DATA or content; on any error the connection is still the plaintext
   one (and NewClientStartTLS closes it and returns no client); on success the
   client has switched and forgotten that it said hello. *)
Theorem C10_client_no_downgrade c r c' :
  quiet c -> c_init_starttls c = (r, c') ->
  exists ls, c_out c' = c_out c ++ lines ls /\ Forall (tls_line c) ls
    /\ (r <> RNil -> c_tls c' = c_tls c)
    /\ (r = RNil -> c_tls c' = true /\ c_did_hello c' = false).
Proof.
  intros Q E. assert (A : tls_attempt c r c').
  { destruct (c_hello c) as [h c1] eqn:Eh.
    destruct (c_hello_ext _ _ _ Q Eh) as (hl & X1 & F1 & _). pose proof (proj1 (proj2 X1)) as Q1.
    apply (tls_attempt_after _ c1 hl _ _ X1 F1).
    destruct h; try (unfold c_init_starttls in E; rewrite Eh in E; injection E as <- <-;
                     apply tls_attempt_fail; [exact Q1|discriminate]).
    rewrite (c_init_starttls_eq _ _ Eh) in E. destruct (has_ext (c_ext c1) (bs "STARTTLS")).
    - exact (c_starttls_ext _ _ _ Q1 E).
    - injection E as <- <-. apply tls_attempt_fail; [exact Q1|discriminate]. }
  destruct A as (ls & c2 & (O & _ & _ & _ & T) & F & Sw). exists ls.
  destruct Sw as [[Ne ->]|[-> ->]]; (split; [exact O|]); (split; [exact F|]).
  - split; [intros _; exact T|contradiction].
  - split; [congruence|intros _; split; reflexivity].
Qed.

(* a command answered without error carries the expected code *)
Lemma c_cmd_ok_code c expect line code msg c' :
  c_cmd c expect line = ((code, msg, RNil), c') -> expect_mismatch expect code = false.
Proof.
  unfold c_cmd. destruct (printf_line c line) as [ok c1]. destruct ok; [|discriminate].
  unfold c_read. destruct (client_read_response expect (c_in c1)) as [[[cd mg] e] rest] eqn:Er.
  intros [= -> _ He _]. destruct e; try discriminate. exact (read_ok_expected _ _ _ _ _ Er).
Qed.

(* C10, client: initStartTLS succeeds ONLY IF the hello succeeded, STARTTLS is
   a key of the EHLO reply and the reply to STARTTLS carried code 220; in
   every other case (not offered: no STARTTLS line is even written; any other
   reply, a malformed reply, end of stream) it returns an error - see
   C10_client_no_downgrade for what was written. *)
Theorem C10_client_needs_offer_and_220 c c' :
  c_init_starttls c = (RNil, c') ->
  exists c1 c2 code msg,
    c_hello c = (RNil, c1)
    /\ has_ext (c_ext c1) (bs "STARTTLS") = true
    /\ c_cmd c1 220 (bs "STARTTLS") = ((code, msg, RNil), c2) /\ code = 220%Z
    /\ c' = switch_to_tls c2.
Proof.
  intros E. destruct (c_hello c) as [h c1] eqn:Eh.
  destruct h; try (unfold c_init_starttls in E; rewrite Eh in E; discriminate).
  rewrite (c_init_starttls_eq _ _ Eh) in E.
  destruct (has_ext (c_ext c1) (bs "STARTTLS")) eqn:Hx; [|discriminate].
  unfold c_starttls, with_hello, cmd_err in E. rewrite (c_hello_done _ (c_hello_RNil_done _ _ Eh)) in E.
  destruct (c_cmd c1 220 (bs "STARTTLS")) as [[[code msg] e] c2] eqn:Ec.
  destruct e; try discriminate. injection E as <-.
  exists c1, c2, code, msg. repeat split; try assumption. apply expect_220. exact (c_cmd_ok_code _ _ _ _ _ _ Ec).
Qed.

Theorem C10_client_not_offered c c1 :
  c_hello c = (RNil, c1) -> has_ext (c_ext c1) (bs "STARTTLS") = false ->
  c_init_starttls c = (RLocal err_no_starttls, c1).
Proof. intros Eh Hx. rewrite (c_init_starttls_eq _ _ Eh), Hx. reflexivity. Qed.

Lemma switch_state c :
  c_tls (switch_to_tls c) = true /\ c_did_hello (switch_to_tls c) = false
  /\ c_did_greet (switch_to_tls c) = c_did_greet c /\ c_greet_err (switch_to_tls c) = c_greet_err c
  /\ c_in (switch_to_tls c) = match c_tls_in c with Some s => s | None => [] end
  /\ c_out (switch_to_tls c) = c_out c.
Proof. repeat split. Qed.

(* C10, client: re-hello.  After a successful startTLS the client is in TLS
   mode with didHello = false (C10_client_no_downgrade) and reads only the TLS
   application stream.  Hence the next method that needs hello() - Mail, Auth,
   Extension, ... - first sends EHLO on the new stream, and [ext], against
   which every parameter decision is made (C15_only_negotiated_mail, _rcpt), is the
   parse of the reply read FROM THAT STREAM (or nil after a HELO fallback):
   nothing learned in plaintext is trusted. *)
Theorem C10_client_rehello c c3 :
  c_did_hello c = false -> c_did_greet c = true ->
  c_hello c = (RNil, c3) ->
  c_ext c3 = None
  \/ exists c1 code msg rest,
       printf_line (set_did_hello c true) (hello_verb c ++ c_local c) = (true, c1)
       /\ client_read_response 250 (c_in c) = ((code, msg, CNil), rest)
       /\ c_ext c3 = Some (parse_ext msg).
Proof.
  intros Dh Dg. unfold c_hello. rewrite Dh. unfold c_greet. rewrite Dg.
  destruct (c_greet_err c); try discriminate.
  destruct (c_ehlo (set_did_hello c true)) as [e c2] eqn:Ee.
  destruct e; cbn [is_500_502]; try discriminate.
  - intros E. injection E as _ <-. right.
    destruct (c_ehlo_parsed _ _ Ee) as (c1 & code & msg & rest & Ep & Er & Ex & _).
    exists c1, code, msg, rest. split; [exact Ep|]. split; [|exact Ex].
    destruct (printf_line_ctl _ _ _ _ Ep) as [_ I]. rewrite I in Er. exact Er.
  - destruct ((code =? 500)%Z || (code =? 502)%Z); [|discriminate].
    destruct (c_helo c2) as [h c4] eqn:Eh. intros E. injection E as -> <-. left.
    destruct (ctl_fields _ _ (c_helo_ctl _ _ _ Eh)) as (_ & _ & _ & _ & X & _). exact X.
Qed.

(* non-vacuity: a server that offers STARTTLS and answers 220, with injected
   plaintext replies behind the 220; the TLS session then offers other
   extensions *)
Example ex10_rehello :
  let plain := bs "220 hi" ++ crlf ++ bs "250-srv" ++ crlf ++ bs "250-STARTTLS" ++ crlf ++
               bs "250 SIZE 1" ++ crlf ++ bs "220 go" ++ crlf ++
               bs "250-injected" ++ crlf ++ bs "250 AUTH PLAIN" ++ crlf in
  let tlsin := bs "250-srv" ++ crlf ++ bs "250 DSN" ++ crlf ++ bs "250 ok" ++ crlf in
  let '(r, c1) := c_init_starttls (new_client false plain (Some tlsin)) in
  let '(x, c2) := c_extension c1 (bs "AUTH") in
  let '(r2, c3) := c_mail c2 (bs "a@b") (Some (mkMO [] 5 false false (bs "FULL") [] None)) in
  (r, c_tls c1, c_did_hello c1, c_did_greet c1, x, r2,
   skipn (List.length (c_out c1)) (c_out c3))
  = (RNil, true, false, true, (false, []), RNil,
     bs "EHLO localhost" ++ crlf ++ bs "MAIL FROM:<a@b> RET=FULL" ++ crlf).
Proof. vm_compute. reflexivity. Qed.

Example ex10_refused :
  let plain := bs "220 hi" ++ crlf ++ bs "250-srv" ++ crlf ++ bs "250 STARTTLS" ++ crlf ++
               bs "454 4.7.0 no" ++ crlf ++ bs "250 ok" ++ crlf in
  let '(r, c1) := c_new_starttls (new_client false plain (Some [])) in
  (r, c_tls c1, c_closed c1, c_out c1)
  = (RSmtp 454 (4, 7, 0)%Z (bs "no"), false, true,
     bs "EHLO localhost" ++ crlf ++ bs "STARTTLS" ++ crlf).
Proof. vm_compute. reflexivity. Qed.

(* one command of the AUTH exchange followed by the rest of the loop *)
Definition auth_from (c : client) (line : bytes) (steps : list cstep) (got : list bytes)
  : result * list bytes * client :=
  let '((code, msg64, e), c1) := c_cmd c 0 line in
  match e with
  | RNil => auth_loop steps c1 code msg64 got
  | _ => (e, got, c1)
  end.

Lemma c_auth_step_from s c :
  cs_start_err s = None -> c_auth_step s c = auth_from c (auth_line s) (cs_steps s) [].
Proof. intros H. unfold c_auth_step, auth_from. rewrite H. reflexivity. Qed.

Lemma auth_loop_resp r steps c msg64 ch got :
  b64_decode msg64 = Some ch ->
  auth_loop (CResp (Some r) :: steps) c 334 msg64 got = auth_from c (b64_encode r) steps (got ++ [ch]).
Proof. intros H. cbn [auth_loop]. change (334 =? 334)%Z with true. cbv iota. rewrite H. reflexivity. Qed.

Lemma next_facts c line rest :
  io_ready c ->
  io_ready (next c line rest) /\ c_in (next c line rest) = rest
  /\ c_out (next c line rest) = c_out c ++ line ++ crlf
  /\ (hello_done c -> hello_done (next c line rest)).
Proof.
  intros R. split; [apply io_ready_step; exact R|]. unfold next, wrote, hello_done. csimpl. tauto.
Qed.

(* a reply read with expectCode 0 (what Auth uses): never an error *)
Definition reads0 (s : bytes) (code : Z) (msg : bytes) (s' : bytes) : Prop :=
  client_read_response 0 s = ((code, msg, CNil), s').

Lemma auth_from_ready c line steps got code msg s1 :
  io_ready c -> reads0 (c_in c) code msg s1 ->
  auth_from c line steps got = auth_loop steps (next c line s1) code msg got.
Proof. intros R Hr. unfold auth_from. rewrite (c_cmd_ready c 0 line code msg CNil s1 R Hr). reflexivity. Qed.

(* the server sends the challenges [chs], each as a 334 reply whose text is
   base64 for it *)
Fixpoint serves334 (chs : list bytes) (s s' : bytes) : Prop :=
  match chs with
  | [] => s = s'
  | ch :: r => exists m s1, reads0 s 334 m s1 /\ b64_decode m = Some ch /\ serves334 r s1 s'
  end.

Definition resp_step (p : bytes * bytes) : cstep := CResp (Some (snd p)).

(* n rounds (challenge_i, response_i): the loop comes back to its entry with
   exactly the responses written and exactly the challenges handed over *)
Lemma auth_rounds rounds : forall c line got steps' sN,
  io_ready c -> serves334 (map fst rounds) (c_in c) sN ->
  exists cN lineN,
    auth_from c line (map resp_step rounds ++ steps') got
    = auth_from cN lineN steps' (got ++ map fst rounds)
    /\ io_ready cN /\ c_in cN = sN
    /\ c_out cN ++ lineN ++ crlf
       = c_out c ++ lines (line :: map (fun p => b64_encode (snd p)) rounds)
    /\ (hello_done c -> hello_done cN).
Proof.
  induction rounds as [|[ch r] rounds IH]; intros c line got steps' sN R S.
  - cbn [map serves334] in S. subst sN. exists c, line. cbn [map app]. rewrite app_nil_r, lines_one.
    split; [reflexivity|]. split; [exact R|]. split; [reflexivity|]. split; [reflexivity|]. intros X; exact X.
  - cbn [map fst serves334] in S. destruct S as (m & s1 & Hr & Hd & S).
    destruct (next_facts c line s1 R) as (R1 & I1 & O1 & H1).
    rewrite <- I1 in S.
    destruct (IH (next c line s1) (b64_encode r) (got ++ [ch]) steps' sN R1 S)
      as (cN & lineN & E & RN & IN & ON & HN).
    exists cN, lineN. split.
    + cbn [map app]. rewrite (auth_from_ready _ _ _ _ _ _ _ R Hr).
      change (resp_step (ch, r)) with (CResp (Some r)).
      rewrite (auth_loop_resp _ _ _ _ ch _ Hd), E, <- app_assoc. reflexivity.
    + split; [exact RN|]. split; [exact IN|]. split; [|tauto].
      rewrite ON, O1. cbn [map snd]. unfold lines. cbn [flat_map]. rewrite <- !app_assoc. reflexivity.
Qed.

Lemma auth_end_ok c line steps got msg s' :
  io_ready c -> reads0 (c_in c) 235 msg s' ->
  auth_from c line steps got = (RNil, got, next c line s').
Proof.
  intros R Hr. rewrite (auth_from_ready _ _ _ _ _ _ _ R Hr). destruct steps; reflexivity.
Qed.

(* the line "*" and its reply, after a command *)
Lemma auth_abort_ready c line s1 e2 s2 :
  io_ready c -> reads s1 501 e2 s2 ->
  auth_abort (next c line s1) = next (next c line s1) (bs "*") s2.
Proof.
  intros R (code & msg & Hr). destruct (next_facts c line s1 R) as (R1 & I1 & _). rewrite <- I1 in Hr.
  unfold auth_abort. rewrite (c_cmd_ready _ 501 (bs "*") code msg e2 s2 R1 Hr). reflexivity.
Qed.

Lemma auth_end_fail c line steps got code msg s1 e2 s2 :
  io_ready c -> reads0 (c_in c) code msg s1 -> code <> 334%Z -> code <> 235%Z ->
  reads s1 501 e2 s2 ->
  auth_from c line steps got
  = (let '(a, b, d) := to_smtp_err code msg in RSmtp a b d, got, next (next c line s1) (bs "*") s2).
Proof.
  intros R Hr N1 N2 Ha. rewrite (auth_from_ready _ _ _ _ _ _ _ R Hr).
  apply Z.eqb_neq in N1, N2.
  destruct steps; cbn [auth_loop]; rewrite N1, N2, (auth_abort_ready _ _ _ _ _ R Ha);
    destruct (to_smtp_err code msg) as [[a b] d]; reflexivity.
Qed.

Lemma auth_end_mech_error c line t steps got m ch s1 e2 s2 :
  io_ready c -> reads0 (c_in c) 334 m s1 -> b64_decode m = Some ch ->
  reads s1 501 e2 s2 ->
  auth_from c line (CErr t :: steps) got
  = (RLocal t, got ++ [ch], next (next c line s1) (bs "*") s2).
Proof.
  intros R Hr Hd Ha. rewrite (auth_from_ready _ _ _ _ _ _ _ R Hr).
  cbn [auth_loop]. change (334 =? 334)%Z with true. cbv iota.
  rewrite Hd, (auth_abort_ready _ _ _ _ _ R Ha). reflexivity.
Qed.

Definition b64_lines (rounds : list (bytes * bytes)) : list bytes :=
  map (fun p => b64_encode (snd p)) rounds.

(* C09, client half.  Auth over an ideal wire, for every client script and
   every server behaviour of the following shape: n >= 0 rounds in which the
   server sends a challenge ch_i (as "334 base64(ch_i)") and the mechanism
   answers r_i - any octet strings, empty and binary included - and then one
   of three endings.  In all of them:
   - the lines written are exactly "AUTH mech [base64(ir) | =]", then
     base64(r_i) per round (and nothing else until the ending);
   - the mechanism's Next receives exactly the challenges, i.e. the
     base64-decoding of the 334 texts, in order;
   and
   (a) final 235: Auth returns nil;
   (b) a final reply other than 334 / 235 (535, ...): Auth returns exactly
       that reply as SMTPError (and sends "*", as the test
       TestAuthFailed of go-smtp's suite requires, consuming the reply to it);
   (c) the mechanism fails on a challenge: exactly one "*" line is written,
       its reply consumed, the mechanism's error returned;
   and afterwards the client is in command mode (io_ready, hello_done: the
   next method writes its command and reads the next reply - cmd_err_ready). *)
Theorem C09_client_faithful c s rounds steps' sN :
  io_ready c -> hello_done c -> cs_start_err s = None ->
  cs_steps s = map resp_step rounds ++ steps' ->
  serves334 (map fst rounds) (c_in c) sN ->
  let sent := auth_line s :: b64_lines rounds in
  let got := map fst rounds in
  (forall msg s', reads0 sN 235 msg s' ->
     exists c', c_auth c s = (RNil, got, c')
       /\ c_out c' = c_out c ++ lines sent /\ c_in c' = s' /\ io_ready c' /\ hello_done c')
  /\ (forall code msg s1 e2 s2,
        reads0 sN code msg s1 -> code <> 334%Z -> code <> 235%Z -> reads s1 501 e2 s2 ->
        exists c', c_auth c s = (let '(a, b, d) := to_smtp_err code msg in RSmtp a b d, got, c')
          /\ c_out c' = c_out c ++ lines (sent ++ [bs "*"]) /\ c_in c' = s2
          /\ io_ready c' /\ hello_done c')
  /\ (forall t rest' m ch s1 e2 s2,
        steps' = CErr t :: rest' -> reads0 sN 334 m s1 -> b64_decode m = Some ch ->
        reads s1 501 e2 s2 ->
        exists c', c_auth c s = (RLocal t, got ++ [ch], c')
          /\ c_out c' = c_out c ++ lines (sent ++ [bs "*"]) /\ c_in c' = s2
          /\ io_ready c' /\ hello_done c').
Proof.
  intros R H Hs Hst S. cbv zeta.
  assert (Ea : c_auth c s = auth_from c (auth_line s) (map resp_step rounds ++ steps') []).
  { unfold c_auth. rewrite c_hello_done by exact H. rewrite c_auth_step_from by exact Hs.
    rewrite Hst. reflexivity. }
  destruct (auth_rounds rounds c (auth_line s) [] steps' sN R S) as (cN & lineN & E & RN & IN & ON & HN).
  cbn [app] in E. rewrite Ea, E. clear Ea E.
  fold (b64_lines rounds) in ON.
  (* endings (b) and (c) leave the same state: "*" sent, its reply consumed *)
  assert (Abort : forall s1 s2 c', c' = next (next cN lineN s1) (bs "*") s2 ->
            c_out c' = c_out c ++ lines ((auth_line s :: b64_lines rounds) ++ [bs "*"]) /\ c_in c' = s2
            /\ io_ready c' /\ hello_done c').
  { intros s1 s2 c' ->. destruct (next_facts cN lineN s1 RN) as (R1 & I1 & O1 & H1).
    destruct (next_facts _ (bs "*") s2 R1) as (R2 & I2 & O2 & H2).
    split; [rewrite O2, O1, ON, lines_app, lines_one, <- app_assoc; reflexivity|].
    split; [exact I2|]. split; [exact R2|apply H2, H1, HN, H]. }
  split; [|split].
  - intros msg s' Hr. rewrite <- IN in Hr.
    rewrite (auth_end_ok cN lineN steps' _ msg s' RN Hr).
    destruct (next_facts cN lineN s' RN) as (R1 & I1 & O1 & H1).
    eexists. split; [reflexivity|]. split; [rewrite O1, ON; reflexivity|].
    split; [exact I1|]. split; [exact R1|apply H1, HN, H].
  - intros code msg s1 e2 s2 Hr N1 N2 Ha. rewrite <- IN in Hr.
    rewrite (auth_end_fail cN lineN steps' _ code msg s1 e2 s2 RN Hr N1 N2 Ha).
    eexists. split; [reflexivity|exact (Abort s1 s2 _ eq_refl)].
  - intros t rest' m ch s1 e2 s2 -> Hr Hd Ha. rewrite <- IN in Hr.
    rewrite (auth_end_mech_error cN lineN t rest' _ m ch s1 e2 s2 RN Hr Hd Ha).
    eexists. split; [reflexivity|exact (Abort s1 s2 _ eq_refl)].
Qed.

(* the hypotheses are satisfiable: a single-line reply "code text CRLF" *)
Lemma reads0_wire code text rest :
  (100 <= code <= 999)%Z -> mem_byte LF text = false ->
  reads0 (dec_of_Z code ++ " " :: text ++ crlf ++ rest) code text rest.
Proof.
  intros Hc Ht. unfold reads0, client_read_response, read_response.
  assert (E : dec_of_Z code ++ " " :: text ++ crlf ++ rest
              = (dec_of_Z code ++ " " :: text) ++ crlf ++ rest).
  { rewrite <- app_assoc. reflexivity. }
  rewrite E. rewrite read_line_crlf.
  - rewrite parse_code_line_code by (try assumption; left; reflexivity).
    change (Ascii.eqb " " "-") with false. cbv iota. rewrite expect_mismatch_0. reflexivity.
  - rewrite mem_byte_app. cbn [mem_byte]. rewrite Ht.
    rewrite (forallb_not_mem zch LF (dec_of_Z code) (dec_of_Z_zch code) eq_refl). reflexivity.
Qed.

(* the server's challenges as go-smtp writes them: "334 " base64(challenge).
   The mechanism gets back exactly the challenge: b64_decode_encode. *)
Lemma serves334_wire chs rest :
  serves334 chs (flat_map (fun ch => bs "334 " ++ b64_encode ch ++ crlf) chs ++ rest) rest.
Proof.
  induction chs as [|ch r IH]; cbn [flat_map serves334 app]; [reflexivity|].
  exists (b64_encode ch), (flat_map (fun ch => bs "334 " ++ b64_encode ch ++ crlf) r ++ rest).
  split; [|split; [apply b64_decode_encode|exact IH]].
  pose proof (reads0_wire 334 (b64_encode ch)
                (flat_map (fun ch => bs "334 " ++ b64_encode ch ++ crlf) r ++ rest)
                ltac:(lia) (proj2 (b64_encode_no_crlf ch))) as H.
  rewrite <- !app_assoc. exact H.
Qed.

(* non-vacuity of C09_client_faithful: a two-round mechanism with an empty
   and a binary response, initial response "=", success *)
Example ex09 :
  let s := mkCS (bs "X") (Some []) None [CResp (Some []); CResp (Some [NUL; CR; LF; n_byte 255])] in
  let stream := bs "220 hi" ++ crlf ++ bs "250 srv" ++ crlf ++
                bs "334 " ++ b64_encode (bs "one") ++ crlf ++ bs "334 " ++ crlf ++
                bs "235 2.7.0 ok" ++ crlf ++ bs "250 next" ++ crlf in
  let '(r, got, c') := c_auth (new_client false stream None) s in
  (r, got, c_out c', c_in c')
  = (RNil, [bs "one"; []],
     bs "EHLO localhost" ++ crlf ++ bs "AUTH X =" ++ crlf ++ crlf ++ bs "AA0K/w==" ++ crlf,
     bs "250 next" ++ crlf).
Proof. vm_compute. reflexivity. Qed.

(* ... and a mechanism error after one round: one "*", then command mode *)
Example ex09_abort :
  let s := mkCS (bs "X") None None [CResp (Some (bs "r1")); CErr (bs "boom")] in
  let stream := bs "220 hi" ++ crlf ++ bs "250 srv" ++ crlf ++
                bs "334 " ++ b64_encode (bs "c1") ++ crlf ++ bs "334 " ++ b64_encode (bs "c2") ++ crlf ++
                bs "501 5.0.0 cancelled" ++ crlf ++ bs "250 next" ++ crlf in
  let '(r, got, c') := c_auth (new_client false stream None) s in
  let '(r2, c2) := c_noop c' in
  (r, got, skipn 16 (c_out c2), r2)
  = (RLocal (bs "boom"), [bs "c1"; bs "c2"],
     bs "AUTH X" ++ crlf ++ bs "cjE=" ++ crlf ++ bs "*" ++ crlf ++ bs "NOOP" ++ crlf, RNil).
Proof. vm_compute. reflexivity. Qed.

(* non-vacuity of C15: the initial state satisfies the hypotheses, and a
   hostile option value stays on one line *)
Example ex15_hypotheses lmtp s t : quiet (new_client lmtp s t) /\ clean (c_local (new_client lmtp s t)).
Proof. split; [right; split; reflexivity|clean_const]. Qed.

Example ex15_hostile :
  let stream := bs "220 hi" ++ crlf ++ bs "250-srv" ++ crlf ++ bs "250-DSN" ++ crlf ++
                bs "250 AUTH X" ++ crlf ++ bs "250 ok" ++ crlf in
  let evil := bs "x" ++ crlf ++ bs "RSET" in
  let '(r, c') := c_mail (new_client false stream None) (bs "a@b")
                    (Some (mkMO [] 0 false false [] [] (Some evil))) in
  (r, c_out c') = (RNil, bs "EHLO localhost" ++ crlf ++ bs "MAIL FROM:<a@b> AUTH=x+0D+0ARSET" ++ crlf).
Proof. vm_compute. reflexivity. Qed.

Print Assumptions C15_invariant.
Print Assumptions C15_one_line.
Print Assumptions C15_invalid_argument.
Print Assumptions C15_only_negotiated_mail.
Print Assumptions C15_only_negotiated_rcpt.
Print Assumptions C15_requested_not_offered.
Print Assumptions C15_body_not_offered.
Print Assumptions C15_body_param_licensed.
Print Assumptions C18_callbacks.
Print Assumptions C18_no_callback.
Print Assumptions C16_close_twice.
Print Assumptions C16_close_verdict_smtp.
Print Assumptions C16_close_verdict_lmtp.
Print Assumptions C10_client_no_downgrade.
Print Assumptions C10_client_needs_offer_and_220.
Print Assumptions C10_client_not_offered.
Print Assumptions C10_client_rehello.
Print Assumptions C09_client_faithful.
