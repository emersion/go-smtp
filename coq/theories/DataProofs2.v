(* The DATA reader beyond C01: the end marker and its look-alikes (spec level),
   reads with any stopping point, the post-delivery drain (C02), the size
   limit (C06) and cut streams (C07). *)
From Smtp Require Import Bytes Transport DataReader DotSpec DataProofs.

(* the end-of-data marker line ".CRLF" *)
Definition end_marker : bytes := [DOT; CR; LF].

(* a position at a line start: nothing before it, or a CRLF just before it *)
Definition ends_crlf (p : bytes) : Prop := p = [] \/ exists p', p = p' ++ [CR; LF].

Lemma prepend_complete_inv l r b rest :
  prepend l r = Complete b rest -> exists b', r = Complete b' rest /\ b = l ++ b'.
Proof. destruct r; cbn; intros H; inversion H; subst. eexists; split; reflexivity. Qed.

Lemma prepend_incomplete_inv l r b :
  prepend l r = Incomplete b -> exists b', r = Incomplete b' /\ b = l ++ b'.
Proof. destruct r; cbn; intros H; inversion H; subst. eexists; split; reflexivity. Qed.

Lemma is_marker_some s r : is_marker s = Some r -> s = DOT :: CR :: LF :: r.
Proof.
  destruct s as [|a [|b [|c rest]]]; cbn; try discriminate.
  destruct (Ascii.eqb_spec a DOT) as [->|]; [|discriminate].
  destruct (Ascii.eqb_spec b CR) as [->|]; [|discriminate].
  destruct (Ascii.eqb_spec c LF) as [->|]; [|discriminate].
  intros H; inversion H; reflexivity.
Qed.

Lemma is_marker_dot_nocr c u : Ascii.eqb c CR = false -> is_marker (DOT :: c :: u) = None.
Proof. intros E. destruct u as [|y u]; cbn; try reflexivity. rewrite E. reflexivity. Qed.

Lemma spec_complete_app x : forall q s b r,
  spec_of q s = Complete b r -> spec_of q (s ++ x) = Complete b (r ++ x).
Proof.
  apply (reader_ind (fun q s => forall b r, spec_of q s = Complete b r ->
                                            spec_of q (s ++ x) = Complete b (r ++ x))).
  - intros q b r H. destruct q; try discriminate. inversion H. reflexivity.
  - intros s b r H. inversion H. reflexivity.
  - intros q c s Hq IH b r H. cbn [app].
    pose proof (step_spec q c s Hq) as E. pose proof (step_spec q c (s ++ x) Hq) as E'.
    destruct (dr_step q c) as [q'|q' y|q' y]; rewrite E in H; rewrite E'; [exact (IH b r H)| |];
      apply prepend_complete_inv in H as (b' & H & ->); apply IH in H; cbn [app] in H;
      rewrite H; reflexivity.
Qed.

Theorem unstuff_complete_app s body rest x :
  unstuff s = Complete body rest -> unstuff (s ++ x) = Complete body (rest ++ x).
Proof. apply (spec_complete_app x SBeginLine). Qed.

(* whatever the reader is in the middle of, CRLF.CRLF ends the data: the
   last step, on the five octets alone, is a computation *)
Lemma marker_ahead : forall q s pre,
  s = pre ++ [CR; LF; DOT; CR; LF] -> exists b r, spec_of q s = Complete b r.
Proof.
  apply (reader_ind (fun q s => forall pre, s = pre ++ [CR; LF; DOT; CR; LF] ->
                                            exists b r, spec_of q s = Complete b r)).
  - intros q [|c pre]; discriminate.
  - intros s pre _. cbn. eauto.
  - intros q c s Hq IH [|c' pre] E; injection E as -> ->.
    + destruct q; cbn; eauto.
    + pose proof (step_spec q c' (pre ++ [CR; LF; DOT; CR; LF]) Hq) as E.
      destruct (dr_step q c') as [q'|q' y|q' y]; rewrite E;
        [destruct (IH pre eq_refl) as (b & r & ->)|destruct (IH pre eq_refl) as (b & r & ->)
        |destruct (IH (c' :: pre) eq_refl) as (b & r & ->)]; cbn; eauto.
Qed.

Lemma marker_completes pre x :
  ends_crlf pre -> exists b r, unstuff (pre ++ end_marker ++ x) = Complete b (r ++ x).
Proof.
  intros [->|(p & ->)].
  - exists [], []. apply unstuff_marker.
  - destruct (marker_ahead SBeginLine _ p eq_refl) as (b & r & H).
    apply (spec_complete_app x) in H. rewrite <- !app_assoc in *. eauto.
Qed.

Lemma ends_crlf_app l p : ends_crlf p -> ends_crlf ((l ++ [CR; LF]) ++ p).
Proof.
  intros [->|(p' & ->)]; right.
  - exists l. apply app_nil_r.
  - exists ((l ++ [CR; LF]) ++ p'). apply app_assoc.
Qed.

(* line by line: the marker itself, or a line (ending in CRLF, possibly
   behind a stuffed dot) followed by a stream that stems from a marker *)
Lemma complete_marker n : forall s b r,
  unstuff_f n s = Complete b r -> exists pre, s = pre ++ end_marker ++ r /\ ends_crlf pre.
Proof.
  induction n as [|n IH]; intros s b r; [discriminate|]. cbn [unstuff_f].
  destruct (is_marker s) as [r0|] eqn:Em.
  - intros H; inversion H; subst. apply is_marker_some in Em.
    exists []. split; [exact Em|left; reflexivity].
  - destruct (cut_crlf (strip_dot s)) as [[l r']|] eqn:Ec; [|discriminate]. intros H.
    apply prepend_complete_inv in H as (b' & H & _). apply IH in H as (pre & -> & Hp).
    apply cut_crlf_line in Ec as (Hs & l' & ->).
    destruct (strip_dot_cases s) as [E|E]; rewrite Hs in E.
    + exists ((l' ++ [CR; LF]) ++ pre).
      split; [rewrite <- E; apply app_assoc|apply ends_crlf_app, Hp].
    + exists (((DOT :: l') ++ [CR; LF]) ++ pre).
      split; [rewrite E; apply (app_assoc (DOT :: l' ++ [CR; LF]))|apply ends_crlf_app, Hp].
Qed.

(* C02 (spec): the data ends at the FIRST ".CRLF" that stands at a line start *)
Theorem unstuff_marker_first s body rest :
  unstuff s = Complete body rest ->
  exists pre, s = pre ++ end_marker ++ rest /\ ends_crlf pre /\
    forall pre' x, s = pre' ++ end_marker ++ x -> ends_crlf pre' ->
                   List.length pre <= List.length pre'.
Proof.
  intros H. destruct (complete_marker _ s body rest H) as (pre & Hs & Hp).
  exists pre. split; [exact Hs|]. split; [exact Hp|].
  intros pre' x Hs' Hp'.
  destruct (marker_completes pre' x Hp') as (b & r & Hge). rewrite <- Hs', H in Hge.
  injection Hge as _ ->. rewrite Hs in Hs'. apply (f_equal (@List.length ascii)) in Hs'.
  rewrite !app_length in Hs'. lia.
Qed.

(* C02 (spec): no ".CRLF" at the very start and no "CRLF.CRLF" anywhere: the
   data never ends *)
Theorem unstuff_lookalikes s :
  (forall x, s <> end_marker ++ x) ->
  (forall p x, s <> p ++ [CR; LF] ++ end_marker ++ x) ->
  exists body, unstuff s = Incomplete body.
Proof.
  intros H1 H2. destruct (unstuff s) as [b r|b] eqn:E; [|eauto].
  destruct (unstuff_marker_first _ _ _ E) as (pre & Hs & [->|(p & ->)] & _).
  - exfalso. apply (H1 r). exact Hs.
  - exfalso. apply (H2 p r). rewrite Hs, <- app_assoc. reflexivity.
Qed.

(* the number of octets up to and including the end marker *)
Lemma unstuff_consumed s body rest :
  unstuff s = Complete body rest ->
  exists m, s = m ++ rest /\ unstuff m = Complete body [] /\
            exists pre, m = pre ++ end_marker /\ ends_crlf pre.
Proof.
  intros H. destruct (unstuff_marker_first _ _ _ H) as (pre & Hs & Hp & _).
  exists (pre ++ end_marker). split; [rewrite <- app_assoc; exact Hs|]. split; [|eauto].
  destruct (unstuff (pre ++ end_marker)) as [b r|b] eqn:E.
  - pose proof (unstuff_complete_app _ _ _ rest E) as E2.
    rewrite <- app_assoc, <- Hs, H in E2. inversion E2; subst.
    apply (f_equal (@List.length ascii)) in H2. rewrite app_length in H2.
    destruct r; [reflexivity|cbn in H2; lia].
  - destruct (marker_completes pre [] Hp) as (b' & r & G). rewrite app_nil_r, E in G. discriminate.
Qed.

(* C07 (spec): every proper prefix of the stream up to and including its end
   marker is Incomplete - whatever the cut point, also inside the marker *)
Theorem unstuff_prefix_incomplete s body rest k :
  unstuff s = Complete body rest ->
  k < List.length s - List.length rest ->
  exists b, unstuff (firstn k s) = Incomplete b.
Proof.
  intros H Hk. destruct (unstuff (firstn k s)) as [b r|b] eqn:E; [|eauto].
  exfalso. apply (unstuff_complete_app _ _ _ (skipn k s)) in E.
  rewrite firstn_skipn, H in E. inversion E; subst.
  rewrite app_length, skipn_length in Hk. lia.
Qed.

Corollary unstuff_strict_prefix_incomplete p q body rest :
  unstuff (p ++ q ++ rest) = Complete body rest -> q <> [] ->
  exists b, unstuff p = Incomplete b.
Proof.
  intros H Hq.
  assert (Hk : List.length p < List.length (p ++ q ++ rest) - List.length rest).
  { rewrite !app_length. destruct q; [congruence|cbn; lia]. }
  destruct (unstuff_prefix_incomplete _ _ _ _ H Hk) as (b & Hb).
  rewrite firstn_app, firstn_all, Nat.sub_diag in Hb. cbn in Hb. rewrite app_nil_r in Hb. eauto.
Qed.

(* The specification run over text without CR (and LF): what the four
   look-alikes of the end marker (props/C02.v) are computed with. *)

Definition plainb (a : bytes) : bool :=
  forallb (fun c => negb (Ascii.eqb c CR) && negb (Ascii.eqb c LF)) a.

Definition no_lead_dot (s : bytes) : Prop :=
  match s with c :: _ => Ascii.eqb c DOT = false | [] => True end.

Lemma plainb_app a b : plainb (a ++ b) = plainb a && plainb b.
Proof. apply forallb_app. Qed.

Definition nocrb (a : bytes) : bool := forallb (fun c => negb (Ascii.eqb c CR)) a.

Lemma plainb_nocrb a : plainb a = true -> nocrb a = true.
Proof.
  induction a as [|c a IH]; [reflexivity|]. cbn [plainb nocrb forallb]. intros H.
  apply andb_true_iff in H as [H1 H2]. apply andb_true_iff in H1 as [H1 _].
  rewrite H1. exact (IH H2).
Qed.

(* inside a line, octets other than CR are copied *)
Lemma mid_nocr_app a s : nocrb a = true -> mid (a ++ s) = prepend a (mid s).
Proof.
  induction a as [|c a IH]; intros H; cbn [app].
  - rewrite prepend_nil. reflexivity.
  - cbn [nocrb forallb] in H. apply andb_true_iff in H as [H1 H2].
    apply negb_true_iff in H1.
    rewrite mid_cons, H1, (IH H2), prepend_app. reflexivity.
Qed.

Lemma mid_plain_app a s : plainb a = true -> mid (a ++ s) = prepend a (mid s).
Proof. intros H. apply mid_nocr_app, plainb_nocrb, H. Qed.

(* in a line, after a CR: text goes on like anywhere in the line *)
Lemma midCR_plain b s : plainb b = true -> midCR (b ++ CR :: s) = mid (b ++ CR :: s).
Proof.
  destruct b as [|c b]; [reflexivity|]. cbn [plainb forallb app]. intros H.
  apply midCR_nonLF. apply andb_true_iff in H as [H _]. apply andb_true_iff in H as [_ H].
  apply negb_true_iff, H.
Qed.

(* at a line start: the text a, then the line goes on with c *)
Lemma unstuff_text a c s :
  plainb a = true -> no_lead_dot a -> Ascii.eqb c DOT = false ->
  unstuff (a ++ c :: s) = prepend a (mid (c :: s)).
Proof.
  intros Ha Hd Hc. rewrite <- mid_plain_app by exact Ha.
  destruct a; apply unstuff_nondot; assumption.
Qed.

(* in a line: the text b, the end of the line and the end marker *)
Lemma mid_last_line b rest :
  plainb b = true -> mid (b ++ CR :: LF :: end_marker ++ rest) = Complete (b ++ [CR; LF]) rest.
Proof.
  intros Hb. rewrite mid_plain_app by exact Hb.
  rewrite mid_crlf. cbn [app end_marker]. rewrite unstuff_marker. reflexivity.
Qed.

(* a stream that becomes complete only by appending CRLF.CRLF is not *)
Lemma incomplete_before_marker p body :
  unstuff (p ++ [CR; LF] ++ end_marker ++ []) = Complete body [] ->
  exists b, unstuff p = Incomplete b.
Proof.
  intros H. apply (unstuff_strict_prefix_incomplete p ([CR; LF] ++ end_marker) body []);
    [exact H|discriminate].
Qed.

(* what has been handed out is a prefix of what the specification owed *)
Lemma outcome_owes d t o d' t' e :
  outcome d t o d' t' e -> exists r, spec_of (d_state d) (tstream t) = prepend o r.
Proof.
  intros [[A _] _|[A _] _ _|x _ _ _ [A _]|(_ & A & _) _];
    try rewrite <- prepend_app in A; eauto.
Qed.

(* ... and never exceeds the budget *)
Lemma outcome_budget d t o d' t' e :
  outcome d t o d' t' e -> d_limited d = true -> (Z.of_nat (List.length o) <= d_n d)%Z.
Proof.
  intros [_ C|_ _ C|x _ E _ _|_ C] Hl; try (eapply charged_le; eassumption). lia.
Qed.

(* the reader is still on the stream (mid-message or just behind it), or it
   has met the schedule's failure *)
Lemma outcome_cases d t o d' t' e :
  outcome d t o d' t' e ->
  (exists o', adv (d_state d) t o' (d_state d') t' /\
              (e = None \/ e = Some REOF \/ e = Some RTooLarge)) \/
  (failed (d_state d) t o (d_state d') t' /\ e = Some (rerr_of_terr (tterm t))).
Proof. intros [A _|A _ _|x _ _ _ A|F _]; [left|left|left|right]; eauto 6. Qed.

Lemma outcome_limit d t o d' t' e : outcome d t o d' t' e -> t_limit t' = t_limit t.
Proof.
  intros H. apply outcome_cases in H as [(o' & [_ L] & _)|[(_ & _ & S) _]]; [apply L|apply S].
Qed.

Lemma new_data_reader_limited mx :
  d_limited (new_data_reader mx) = true ->
  (0 < mx)%Z /\ d_n (new_data_reader mx) = mx.
Proof.
  unfold new_data_reader. destruct (0 <? mx)%Z eqn:E; cbn; intros H; [|discriminate].
  apply Z.ltb_lt in E. auto.
Qed.

Lemma new_data_reader_pos mx : (0 < mx)%Z -> new_data_reader mx = mkDR SBeginLine true mx.
Proof. intros H. unfold new_data_reader. apply Z.ltb_lt in H. rewrite H. reflexivity. Qed.

Lemma new_data_reader_state mx : d_state (new_data_reader mx) = SBeginLine.
Proof. unfold new_data_reader. destruct (0 <? mx)%Z; reflexivity. Qed.

Definition dres_body (r : dres) : bytes :=
  match r with Complete b _ => b | Incomplete b => b end.

Lemma dres_body_prepend o r : dres_body (prepend o r) = o ++ dres_body r.
Proof. destruct r; reflexivity. Qed.

(* what the backend holds is always a prefix of the specified body, within
   the size limit; a stop by itself happens only when asked for; the line
   limit of the transport is untouched *)
Theorem backend_reads_prefix (mx : Z) (sizes : list nat) (stop : option N) (t : transport) :
  transparent t ->
  let '(out, e, d', t') := backend_reads sizes stop (new_data_reader mx) t in
  (exists w, dres_body (unstuff (tstream t)) = out ++ w) /\
  ((0 < mx)%Z -> (Z.of_nat (List.length out) <= mx)%Z) /\
  (e = None -> exists k, stop = Some k /\ (k <= blen out)%N) /\
  t_limit t' = t_limit t.
Proof.
  intros Htr. pose proof (backend_reads_spec sizes stop _ t Htr (budget_ok_new mx)) as H.
  destruct (backend_reads sizes stop (new_data_reader mx) t) as [[[out e] d'] t'].
  destruct H as [H Hstop].
  split; [|split; [|split; [exact Hstop|exact (outcome_limit _ _ _ _ _ _ H)]]].
  - destruct (outcome_owes _ _ _ _ _ _ H) as (r & A).
    rewrite new_data_reader_state in A. cbn [spec_of] in A.
    rewrite A, dres_body_prepend. eauto.
  - intros Hmx. pose proof (outcome_budget _ _ _ _ _ _ H) as B.
    rewrite (new_data_reader_pos mx Hmx) in B. exact (B eq_refl).
Qed.

(* the post-delivery drain, r.limited = false; io.Copy(Discard, r), from ANY
   reader state (mid-line, budget exhausted d_n = 0, after
   ErrDataTooLarge d_n = -1, already at EOF, ...) *)
Theorem dr_drain_spec (d : dreader) (t : transport) :
  transparent t ->
  let '(de, d2, t2) := dr_drain d t in
  d_limited d2 = false /\ d_n d2 = d_n d /\ t_limit t2 = t_limit t /\
  match spec_of (d_state d) (tstream t) with
  | Complete _ rest =>
      de = Some REOF /\ d_state d2 = SEOF /\ tstream t2 = rest /\ transparent t2 /\
      tterm t2 = tterm t /\ raws_after (t_raw t2) = raws_after (t_raw t)
  | Incomplete _ =>
      de = Some (rerr_of_terr (tterm t)) /\ d_state d2 <> SEOF /\
      t_buf t2 = [] /\ t_raw t2 = raws_after (t_raw t) /\
      t_closed t2 = false /\ too_long t2 = false
  end.
Proof.
  intros Htr. unfold dr_drain.
  pose (d0 := mkDR (d_state d) false (d_n d)).
  assert (Hb0 : budget_ok d0) by (intros X; discriminate X).
  pose proof (backend_reads_spec [4096] None d0 t Htr Hb0) as H. unfold backend_reads in H.
  (* the size [4096] is a unary numeral: it is met here and nowhere else *)
  destruct (be_read _ _ _ _ _ _ _) as [[[out e] d'] t'].
  change (d_state d) with (d_state d0).
  destruct H as [[_ _|[A (T & Te & L & R)] Q (Cl & Cn & _)|x Hl|(Q & A & L & S) (Cl & Cn & _)] Hstop].
  - destruct (Hstop eq_refl) as (k & X & _). discriminate.
  - rewrite A, Q. cbn [spec_of prepend]. auto 10.
  - discriminate.
  - rewrite A. cbn [prepend]. auto 10.
Qed.

(* C02, reader level: whatever the backend did - read all, part or nothing,
   with or without a size limit, message within or over the limit - after
   the drain the transport stands exactly behind the end marker *)
Theorem drain_resume_gen (sizes : list nat) (stop : option N) (d : dreader) (t : transport) body rest :
  transparent t -> budget_ok d ->
  spec_of (d_state d) (tstream t) = Complete body rest ->
  let '(out, e, d1, t1) := backend_reads sizes stop d t in
  let '(de, d2, t2) := dr_drain d1 t1 in
  tstream t2 = rest /\ transparent t2 /\ tterm t2 = tterm t /\ t_limit t2 = t_limit t /\
  raws_after (t_raw t2) = raws_after (t_raw t) /\
  de = Some REOF /\ d_state d2 = SEOF /\
  (e = None \/ e = Some REOF \/ e = Some RTooLarge).
Proof.
  intros Htr Hb Hc. pose proof (backend_reads_spec sizes stop d t Htr Hb) as H.
  destruct (backend_reads sizes stop d t) as [[[out e] d1] t1]. destruct H as [H _].
  apply outcome_cases in H as [(o' & [A (T & Te & L & R)] & He)|[(_ & A & _) _]].
  - pose proof (dr_drain_spec d1 t1 T) as Hd. destruct (dr_drain d1 t1) as [[de d2] t2].
    rewrite Hc in A. symmetry in A. apply prepend_complete_inv in A as (b' & A & _).
    rewrite A in Hd. destruct Hd as (_ & _ & L2 & H1 & H2 & H3 & H4 & H5 & H6).
    split; [exact H3|]. split; [exact H4|]. repeat split; try assumption; congruence.
  - rewrite Hc in A. discriminate.
Qed.

(* the stream is cut before its end marker: the first failing Read - the
   backend's, or else the drain's - reports the schedule's failure (never
   EOF), and by then every octet of the stream has been consumed *)
Theorem drain_incomplete_gen (sizes : list nat) (stop : option N) (d : dreader) (t : transport) body :
  transparent t -> budget_ok d ->
  spec_of (d_state d) (tstream t) = Incomplete body ->
  let '(out, e, d1, t1) := backend_reads sizes stop d t in
  let '(de, d2, t2) := dr_drain d1 t1 in
  t_limit t1 = t_limit t /\
  ((e = Some (rerr_of_terr (tterm t)) /\ d_state d1 <> SEOF /\
    t_buf t1 = [] /\ t_raw t1 = raws_after (t_raw t) /\
    t_closed t1 = false /\ too_long t1 = false)
   \/
   ((e = None \/ e = Some RTooLarge) /\
    de = Some (rerr_of_terr (tterm t)) /\ d_state d2 <> SEOF /\
    t_buf t2 = [] /\ t_raw t2 = raws_after (t_raw t) /\ t_limit t2 = t_limit t)).
Proof.
  intros Htr Hb Hc. pose proof (backend_reads_spec sizes stop d t Htr Hb) as H.
  destruct (backend_reads sizes stop d t) as [[[out e] d1] t1].
  destruct H as [H _]. pose proof (outcome_limit _ _ _ _ _ _ H) as Hl.
  assert (Hne : e <> Some REOF).
  { intros ->. inversion H as [|[A _] Q _| |]; subst.
    - rewrite Hc, Q in A. discriminate.
    - eapply rerr_of_terr_not_eof; eauto. }
  apply outcome_cases in H as [(o' & [A (T & Te & L & R)] & He)|[(Q & _ & _ & S) He]].
  - pose proof (dr_drain_spec d1 t1 T) as Hd. destruct (dr_drain d1 t1) as [[de d2] t2].
    rewrite Hc in A. symmetry in A. apply prepend_incomplete_inv in A as (b' & A & _).
    rewrite A in Hd. destruct Hd as (_ & _ & L2 & H1 & H2 & H3 & H4 & _).
    split; [exact Hl|]. right.
    split; [destruct He as [He|[He|He]]; [auto|contradiction|auto]|].
    repeat split; try assumption; congruence.
  - destruct (dr_drain d1 t1) as [[de d2] t2]. split; [exact Hl|]. left. auto 10.
Qed.

(* when nothing follows the failure in the schedule (the connection is gone),
   the drain cannot report EOF either *)
Corollary drain_incomplete_never_eof (mx : Z) (sizes : list nat) (stop : option N) (t : transport) body :
  transparent t ->
  unstuff (tstream t) = Incomplete body ->
  raws_after (t_raw t) = [] ->
  let '(out, e, d1, t1) := backend_reads sizes stop (new_data_reader mx) t in
  let '(de, d2, t2) := dr_drain d1 t1 in
  e <> Some REOF /\ (exists x, de = Some (rerr_of_terr x)) /\ t_buf t2 = [] /\ t_raw t2 = [].
Proof.
  intros Htr Hc Hra.
  pose proof (drain_incomplete_gen sizes stop _ t body Htr (budget_ok_new mx)) as H.
  rewrite new_data_reader_state in H. specialize (H Hc).
  destruct (backend_reads sizes stop (new_data_reader mx) t) as [[[out e] d1] t1].
  destruct (dr_drain d1 t1) as [[de d2] t2] eqn:Hdr.
  destruct H as (Hl & [(He & Hq & Hb & Hr & Hcl & Htl)|(He & Hde & Hq & Hb & Hr & Hl2)]).
  - (* the backend met the failure; the drain reads on an exhausted transport *)
    rewrite Hra in Hr.
    assert (Htr1 : transparent t1) by (unfold transparent; rewrite Hr; cbn; auto).
    assert (Hs1 : tstream t1 = []) by (unfold tstream; rewrite Hb, Hr; reflexivity).
    pose proof (dr_drain_spec d1 t1 Htr1) as Hd. rewrite Hdr, Hs1 in Hd.
    rewrite (spec_of_nil _ Hq) in Hd.
    destruct Hd as (_ & _ & _ & D1 & D2 & D3 & D4 & _).
    split; [rewrite He; intros X; inversion X; eapply rerr_of_terr_not_eof; eauto|].
    split; [eauto|]. split; [exact D3|]. rewrite D4, Hr. reflexivity.
  - split; [destruct He as [-> | ->]; discriminate|].
    split; [eauto|]. split; [exact Hb|]. rewrite Hr. exact Hra.
Qed.

Lemma firstn_length_app {A} (p q : list A) : firstn (List.length p) (p ++ q) = p.
Proof. rewrite firstn_app, firstn_all, Nat.sub_diag. cbn. apply app_nil_r. Qed.

(* C06, reader level: a complete message read to the end under a size limit *)
Theorem data_limit_complete (lim : Z) (sizes : list nat) (t : transport) body rest :
  (0 < lim)%Z -> transparent t ->
  unstuff (tstream t) = Complete body rest ->
  let '(out, e, d', t') := backend_reads sizes None (new_data_reader lim) t in
  if (Z.of_nat (List.length body) <=? lim)%Z
  then out = body /\ e = Some REOF /\ tstream t' = rest /\ transparent t' /\
       tterm t' = tterm t /\ t_limit t' = t_limit t
  else out = firstn (Z.to_nat lim) body /\ e = Some RTooLarge /\ d_n d' = (-1)%Z.
Proof.
  intros HN Htr Hc. pose proof (backend_reads_spec sizes None _ t Htr (budget_ok_new lim)) as H.
  destruct (backend_reads sizes None (new_data_reader lim) t) as [[[out e] d'] t'].
  change (unstuff (tstream t)) with (spec_of SBeginLine (tstream t)) in Hc.
  rewrite (new_data_reader_pos lim HN) in H.
  destruct H as [[_ _|[A (T & Te & L & _)] Q C|x _ Hn Hn' [A _]|(_ & A & _) _] Hstop];
    cbn [d_state d_limited d_n] in *.
  - destruct (Hstop eq_refl) as (k & X & _). discriminate.
  - (* EOF: the whole body, within the budget *)
    rewrite Hc, Q in A. cbn in A. rewrite app_nil_r in A. injection A as -> ->.
    apply charged_le in C; [|reflexivity]. cbn in C.
    apply Z.leb_le in C. rewrite C. auto 10.
  - (* too large: exactly lim octets, then one more message octet *)
    rewrite Hc in A. symmetry in A. apply prepend_complete_inv in A as (b' & _ & ->).
    destruct (Z.of_nat (List.length ((out ++ [x]) ++ b')) <=? lim)%Z eqn:El.
    + apply Z.leb_le in El. rewrite !app_length in El. cbn [List.length] in El. lia.
    + split; [|auto]. rewrite <- Hn, Nat2Z.id, <- app_assoc. symmetry. apply firstn_length_app.
  - rewrite Hc in A. discriminate.
Qed.

(* C07, reader level: a stream cut before its end marker never yields io.EOF *)
Theorem data_incomplete_never_eof (mx : Z) (sizes : list nat) (stop : option N) (t : transport) body :
  transparent t ->
  unstuff (tstream t) = Incomplete body ->
  let '(out, e, d', t') := backend_reads sizes stop (new_data_reader mx) t in
  e <> Some REOF /\ d_state d' <> SEOF /\
  ((exists k, stop = Some k /\ e = None) \/
   e = Some (rerr_of_terr (tterm t)) \/
   (e = Some RTooLarge /\ (0 < mx)%Z /\ (mx < Z.of_nat (List.length body))%Z)).
Proof.
  intros Htr Hc. pose proof (backend_reads_spec sizes stop _ t Htr (budget_ok_new mx)) as H.
  destruct (backend_reads sizes stop (new_data_reader mx) t) as [[[out e] d'] t'].
  change (unstuff (tstream t)) with (spec_of SBeginLine (tstream t)) in Hc.
  rewrite <- (new_data_reader_state mx) in Hc.
  (* as long as the reader advances it cannot reach its end state *)
  assert (Hq : forall o', adv (d_state (new_data_reader mx)) t o' (d_state d') t' ->
                          d_state d' <> SEOF).
  { intros o' (A & _) Hq. rewrite Hc, Hq in A. discriminate. }
  destruct H as [[A _|A Q _|x Hl Hn _ A|F _] Hstop].
  - split; [discriminate|]. split; [eapply Hq; eauto|]. left.
    destruct (Hstop eq_refl) as (k & X & _). eauto.
  - exfalso. eapply Hq; eauto.
  - split; [discriminate|]. split; [eapply Hq; eauto|]. right. right.
    destruct (new_data_reader_limited mx Hl) as [Hmx Hmn]. split; [reflexivity|]. split; [exact Hmx|].
    destruct A as (A & _). rewrite Hc in A. symmetry in A.
    apply prepend_incomplete_inv in A as (b' & _ & ->).
    rewrite !app_length. cbn [List.length]. lia.
  - split; [intros X; inversion X; eapply rerr_of_terr_not_eof; eauto|].
    split; [apply F|]. right. left. reflexivity.
Qed.

(* Non-vacuity: concrete instances of the hypotheses, with the results. *)

(* "ab" CRLF "." CRLF "NOOP" CRLF : marker after the first line; a bait
   ".CRLF"-free prefix; unstuff_marker_first's pre = "ab" CRLF *)
Example marker_first_witness :
  let s := bs "ab" ++ [CR; LF] ++ end_marker ++ bs "NOOP" ++ [CR; LF] in
  unstuff s = Complete (bs "ab" ++ [CR; LF]) (bs "NOOP" ++ [CR; LF]) /\
  s = (bs "ab" ++ [CR; LF]) ++ end_marker ++ (bs "NOOP" ++ [CR; LF]) /\
  ends_crlf (bs "ab" ++ [CR; LF]).
Proof. split; [reflexivity|]. split; [reflexivity|]. right. exists (bs "ab"). reflexivity. Qed.

(* the hypotheses of unstuff_lookalikes hold for a stream full of look-alikes
   (checked through the characterisation) and its result is Incomplete *)
Example lookalikes_witness :
  let s := bs "a" ++ [LF; DOT; LF] ++ bs "b" ++ [LF; DOT; CR; LF] ++ bs "c" ++
           [CR; LF; DOT; LF] ++ bs "d" ++ [CR; DOT; CR] ++ bs "e" ++ [CR; LF] in
  unstuff s = Incomplete (bs "a" ++ [LF; DOT; LF] ++ bs "b" ++ [LF; DOT; CR; LF] ++ bs "c" ++
                          [CR; LF; LF] ++ bs "d" ++ [CR; DOT; CR] ++ bs "e" ++ [CR; LF]).
Proof. reflexivity. Qed.

Example lookalike_hyps_witness :
  plainb (bs "Subject: x") = true /\ plainb (bs "MAIL FROM:<bait>") = true /\
  no_lead_dot (bs "Subject: x") /\ no_lead_dot (bs "MAIL FROM:<bait>").
Proof. repeat split; reflexivity. Qed.

(* every cut point of a 12-octet stream whose marker ends at offset 9 *)
Example prefix_incomplete_witness :
  let s := bs "ab" ++ [CR; LF] ++ bs ".c" ++ [CR; LF] ++ end_marker ++ bs "Q" in
  unstuff s = Complete (bs "ab" ++ [CR; LF] ++ bs "c" ++ [CR; LF]) (bs "Q") /\
  List.length s - List.length (bs "Q") = 11 /\
  forallb (fun k => match unstuff (firstn k s) with Incomplete _ => true | _ => false end)
          (seq 0 11) = true /\
  unstuff (firstn 11 s) = Complete (bs "ab" ++ [CR; LF] ++ bs "c" ++ [CR; LF]) [].
Proof. repeat split; reflexivity. Qed.

(* A two-segment schedule under a line limit, message "abc" CRLF (5 octets),
   follow-up command "NOOP" CRLF.  Limits below / at / above the size, backend
   reading all / two octets / nothing: the hypotheses of C02_resume,
   data_limit_complete and of C06_data_same_as_unlimited, C06_data_exceeded
   hold, and the transport resumes at "NOOP" every time. *)
Definition wit_t : transport :=
  mkT [] [RData "a" (bs "bc" ++ [CR]); RData LF (end_marker ++ bs "NOOP" ++ [CR; LF])]
      0%N 12%N false.

Definition wit_run (mx : Z) (sizes : list nat) (stop : option N) :=
  let '(out, e, d1, t1) := backend_reads sizes stop (new_data_reader mx) wit_t in
  let '(de, d2, t2) := dr_drain d1 t1 in
  (out, e, d_n d1, de, tstream t2).

Example drain_resume_witness :
  transparent wit_t /\
  unstuff (tstream wit_t) = Complete (bs "abc" ++ [CR; LF]) (bs "NOOP" ++ [CR; LF]) /\
  (* no limit, read all *)
  wit_run 0 [3] None = (bs "abc" ++ [CR; LF], Some REOF, 0%Z, Some REOF, bs "NOOP" ++ [CR; LF]) /\
  (* limit above *)
  wit_run 6 [3] None = (bs "abc" ++ [CR; LF], Some REOF, 1%Z, Some REOF, bs "NOOP" ++ [CR; LF]) /\
  (* limit exactly the size: accepted through the probe state d_n = 0 *)
  wit_run 5 [3] None = (bs "abc" ++ [CR; LF], Some REOF, 0%Z, Some REOF, bs "NOOP" ++ [CR; LF]) /\
  (* limit below: N octets, then ErrDataTooLarge (d_n = -1), drain resumes *)
  wit_run 4 [3] None = (bs "abc" ++ [CR], Some RTooLarge, (-1)%Z, Some REOF, bs "NOOP" ++ [CR; LF]) /\
  wit_run 1 [7] None = (bs "a", Some RTooLarge, (-1)%Z, Some REOF, bs "NOOP" ++ [CR; LF]) /\
  (* the backend stops after two octets; with the budget just used up (d_n = 0) *)
  wit_run 0 [2] (Some 2%N) = (bs "ab", None, 0%Z, Some REOF, bs "NOOP" ++ [CR; LF]) /\
  wit_run 2 [2] (Some 2%N) = (bs "ab", None, 0%Z, Some REOF, bs "NOOP" ++ [CR; LF]) /\
  (* the backend reads nothing *)
  wit_run 0 [2] (Some 0%N) = ([], None, 0%Z, Some REOF, bs "NOOP" ++ [CR; LF]) /\
  wit_run 3 [2] (Some 0%N) = ([], None, 3%Z, Some REOF, bs "NOOP" ++ [CR; LF]).
Proof. vm_compute. repeat split; reflexivity. Qed.

(* the same stream cut inside the end marker (after ".CR"), ended by a timeout *)
Definition wit_cut : transport :=
  mkT [] [RData "a" (bs "bc" ++ [CR]); RData LF [DOT; CR]; RFail TTimeout] 0%N 12%N false.

Example incomplete_witness :
  transparent wit_cut /\
  unstuff (tstream wit_cut) = Incomplete (bs "abc" ++ [CR; LF; CR]) /\
  tstream wit_cut = firstn 7 (tstream wit_t) /\
  7 < List.length (tstream wit_t) - List.length (bs "NOOP" ++ [CR; LF]) /\
  raws_after (t_raw wit_cut) = [] /\
  (let '(out, e, d1, t1) := backend_reads [3] None (new_data_reader 0) wit_cut in
   let '(de, d2, t2) := dr_drain d1 t1 in (out, e, de))
  = (bs "abc" ++ [CR; LF], Some (RTransport TTimeout), Some RUnexpectedEOF) /\
  (let '(out, e, d1, t1) := backend_reads [3] None (new_data_reader 2) wit_cut in
   let '(de, d2, t2) := dr_drain d1 t1 in (out, e, de))
  = (bs "ab", Some RTooLarge, Some (RTransport TTimeout)) /\
  (let '(out, e, d1, t1) := backend_reads [3] (Some 1%N) (new_data_reader 5) wit_cut in
   let '(de, d2, t2) := dr_drain d1 t1 in (out, e, de))
  = (bs "abc", None, Some (RTransport TTimeout)).
Proof. vm_compute. repeat split; reflexivity. Qed.
